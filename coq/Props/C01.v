(* C01 — Election safety: at most one leader per term.
   Statements only.  What is proved in this file's cone:
   (a) every server grants at most one candidate per term over ANY history of events, store
       failures and crash cuts (C06_one_vote_per_term), and a granted response is backed by the
       durable record;
   (b) two strict majorities of one voter set share a voter, and so do majorities of two successive
       configurations (pigeonhole, any sizes);
   (c) quorumSize is a strict majority of the voters.
   From (a)-(c): two candidates that both collected quorumSize distinct Granted=true responses in
   the same term from voters of one configuration (or of two successive ones) are the same
   candidate - C01_two_quorums_one_candidate below, stated over abstract per-voter grant tables that
   (a) shows every real voter satisfies.
   (d) THE COMPOSED STATEMENT: over the cluster transition system of Model/Cluster.v (candidate
       loops + handlers + a network that delays, reorders, duplicates and loses, with store
       failures, crash cuts and restarts at every server), no run has two servers become leader
       in the same term - for elections held under one configuration (C01_election_safety) and
       for elections that straddle one membership change, i.e. held under either of two
       successive configurations (C01_election_safety_across_membership_change).  Not covered by
       (d): a chain of several uncommitted membership changes (the code serialises them: C07),
       and pre-vote rounds (they only gate whether electSelf runs; C14). *)
From Coq Require Import List NArith Lia.
From stdpp Require Import gmap.
From RaftModel Require Import Base Config Node NodeCodec Candidate Cluster ClusterLog ClusterCommit.
From RaftProofs Require Import ConfigProofs VoteProofs ClusterProofs ClusterCommitSpec ClusterCommitSnapSpec ClusterLeaderSpec ClusterLeaderMain.
Open Scope N_scope.

Theorem C01_one_vote_per_term_per_server : forall P r ins,
  wfr r -> functional (grants (run_hist P r ins)).
Proof. exact one_vote_per_term. Qed.
Print Assumptions C01_one_vote_per_term_per_server.

Theorem C01_majorities_intersect : forall V Q Q',
  NoDup V -> majority V Q -> majority V Q' -> exists x, In x Q /\ In x Q'.
Proof. exact majorities_intersect. Qed.
Print Assumptions C01_majorities_intersect.

Theorem C01_adjacent_majorities_intersect : forall cur idx q new Q Q',
  check_config cur = true -> next_config cur idx q = Some new ->
  majority (voters cur) Q -> majority (voters new) Q' -> exists x, In x Q /\ In x Q'.
Proof. exact next_config_majorities_intersect. Qed.
Print Assumptions C01_adjacent_majorities_intersect.

(* A grant table: which candidate (if any) each voter granted in term T.  C06 shows that the
   Granted=true responses of any server history form such a (functional) table. *)
Definition won (granted : N -> N -> option N) (V : list N) (T cand : N) : Prop :=
  exists Q, majority V Q /\ forall v, In v Q -> granted v T = Some cand.

Theorem C01_two_quorums_one_candidate : forall granted V T c1 c2,
  NoDup V -> won granted V T c1 -> won granted V T c2 -> c1 = c2.
Proof.
  intros granted V T c1 c2 HV (Q1 & HQ1 & H1) (Q2 & HQ2 & H2).
  destruct (majorities_intersect V Q1 Q2 HV HQ1 HQ2) as (x & Hx1 & Hx2).
  specialize (H1 x Hx1). specialize (H2 x Hx2). congruence.
Qed.
Print Assumptions C01_two_quorums_one_candidate.

(* ... also when the two candidates count against two successive configurations *)
Theorem C01_two_quorums_adjacent_configurations : forall granted cur idx q new T c1 c2,
  check_config cur = true -> next_config cur idx q = Some new ->
  won granted (voters cur) T c1 -> won granted (voters new) T c2 -> c1 = c2.
Proof.
  intros granted cur idx q new T c1 c2 Hc Hn (Q1 & HQ1 & H1) (Q2 & HQ2 & H2).
  destruct (next_config_majorities_intersect cur idx q new Q1 Q2 Hc Hn HQ1 HQ2) as (x & Hx1 & Hx2).
  specialize (H1 x Hx1). specialize (H2 x Hx2). congruence.
Qed.
Print Assumptions C01_two_quorums_adjacent_configurations.

(* the number of votes a candidate waits for is a strict majority of its voters *)
Theorem C01_quorum_size_is_majority : forall c,
  let n := N.of_nat (length (voters c)) in 2 * quorum_size c > n.
Proof. intros c. apply quorum_size_majority. Qed.
Print Assumptions C01_quorum_size_is_majority.

(* ELECTION SAFETY over the composed cluster: any number of servers in any well-formed start state,
   any interleaving of timers (GTimeout), vote requests executed by their target late, repeatedly
   or never, with any store-failure pattern and crash cut (GVoteReq), responses consumed at most
   once per invocation and peer or lost (GVoteResp), and any other RPC, stray vote request,
   TimeoutNow or restart at any server (GInput): two servers never become leader of one term. *)
Theorem C01_election_safety : forall cfg g0 ls g T i i',
  NoDup (voters cfg) -> ginit_ok g0 -> grun [cfg] g0 ls = Some g ->
  In (T, i) (g_leaders g) -> In (T, i') (g_leaders g) -> i = i'.
Proof. exact election_safety. Qed.
Print Assumptions C01_election_safety.

(* ... and when the elections straddle one membership change - some servers campaign under the old
   configuration, others already under the new one (one voter added, removed, promoted or demoted,
   as nextConfiguration allows): still at most one leader per term. *)
Theorem C01_election_safety_across_membership_change : forall cur idx q new g0 ls g T i i',
  check_config cur = true -> next_config cur idx q = Some new -> NoDup (voters cur) -> NoDup (voters new) ->
  ginit_ok g0 -> grun [cur; new] g0 ls = Some g ->
  In (T, i) (g_leaders g) -> In (T, i') (g_leaders g) -> i = i'.
Proof. exact election_safety_across_change. Qed.
Print Assumptions C01_election_safety_across_membership_change.

(* non-vacuity: three servers; 1 times out, 2 and 3 execute its request, one response makes it
   leader of term 2; 3 then times out, 2 grants it term 3: two leaders, of different terms *)
Example C01_cluster_run :
  let cfg := mk_cfg 3 in
  let g0 := mkG (map (fun i => mk_node cfg i 0) [1; 2; 3]) [] [] [] in
  match grun [cfg] g0 [GTimeout 1; GVoteReq 1 2 0 []; GVoteReq 1 3 0 []; GVoteResp 1 2; GTimeout 3; GVoteReq 3 2 0 []; GVoteResp 3 2] with
  | Some g => g_leaders g = [(3, 3); (2, 1)]
  | None => False
  end.
Proof. vm_compute. reflexivity. Qed.

Example C01_nontrivial :
  let V := [1; 2; 3; 4; 5] in
  majority V [1; 2; 3] /\ majority V [3; 4; 5] /\ ~ majority V [1; 2] /\ quorum_size (map (fun i => mkSrv 0 i i) V) = 3.
Proof.
  cbv zeta. repeat split; try (repeat constructor; simpl; intuition congruence);
    try (intros x Hx; simpl in *; intuition); try (simpl; lia).
  intros (_ & _ & H). simpl in H. lia.
Qed.


(* (e) WHO ACTS AS LEADER, over all runs of the cluster with log replication, commitment and (sn) takeSnapshot
   (Model/ClusterCommit.v; statement Proofs/ClusterLeaderSpec.v, proof Proofs/ClusterLeaderMain.v): in every reachable
   state - at most one server is recorded leader of a term; a server in role Leader is recorded for its current
   term; EVERY AppendEntries request and heartbeat ever built carries as Term a term its sender was elected leader
   of, and names the sender: "no two servers send AppendEntries as leader for the same term"; and the leader a
   server advertises was elected for that server's current term (C18).  InstallSnapshot requests are not part of
   this system (Model/ClusterSnap.v). *)
Theorem C01_only_the_elected_leader_acts_as_leader_all_runs : forall sn cfg g0 ls g,
  cinit_snap_ok cfg g0 -> nobody_advertised g0 -> Forall label_ok ls -> crun sn [cfg] g0 ls = Some g ->
  one_leader_per_term g /\ ae_senders_are_leaders g /\ advertised_leaders_are_leaders g /\ leaders_are_recorded g.
Proof. exact leaders_faithful_all_runs. Qed.
Print Assumptions C01_only_the_elected_leader_acts_as_leader_all_runs.
