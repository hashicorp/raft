(* C11 — Snapshots and compaction never lose history.
   Statements only; proofs in Proofs/CompactionProofs.v, SnapshotProofs.v (one server) and
   Proofs/ClusterCommitSnap*.v (all runs of the cluster with commitment and takeSnapshot). *)
From Coq Require Import List NArith.
From stdpp Require Import gmap.
From RaftModel Require Import Base Config Compaction Node NodeCodec Cluster ClusterLog ClusterCommit.
From RaftProofs Require Import CompactionProofs SnapshotProofs ClusterCommitSpec ClusterCommitSnapSpec ClusterCommitSnapMain ClusterCoverSpec ClusterCoverMain.
Open Scope N_scope.

(* whatever first/snapshot/last/TrailingLogs: the range deleted starts at the first index, ends at
   or below the snapshot, and leaves at least TrailingLogs entries below the last index *)
Theorem C11_compaction_range : forall f s l t lo hi,
  compact f s l t = Some (lo, hi) -> lo = f /\ hi <= s /\ hi + t <= l /\ f <= hi.
Proof. exact compaction_range. Qed.
Print Assumptions C11_compaction_range.

Theorem C11_compaction_none : forall f s l t,
  compact f s l t = None -> l <= t \/ N.min s (l - t) < f.
Proof. exact compaction_none. Qed.
Print Assumptions C11_compaction_none.

Theorem C11_compaction_max : forall f s l t lo hi,
  compact f s l t = Some (lo, hi) -> hi = N.min s (l - t).
Proof. exact compaction_max. Qed.
Print Assumptions C11_compaction_max.

(* the wholesale reset used on stores that cannot hold gaps removes exactly what the store holds *)
Theorem C11_reset_removes_all : forall f l, 0 < f -> f <= l -> remove_old f l = Some (f, l).
Proof. exact remove_old_all. Qed.
Print Assumptions C11_reset_removes_all.


(* takeSnapshot (Model/Node.v take_snapshot, tied to the real takeSnapshot in node sequences):
   a snapshot that was taken records exactly the FSM goroutine's last index and term, the
   COMMITTED configuration with its index, and the FSM content; its index is at or above the
   committed configuration's index; afterwards the log has lost at most one range, entirely at or
   below the snapshot index and leaving TrailingLogs entries. *)
Theorem C11_snapshot_records_committed_state : forall P s fs s' code tr fs',
  take_snapshot P s fs = Done s' code tr fs' -> code = 0 \/ code = 5 ->
  exists sn, d_snaps s' = d_snaps s ++ [sn] /\
    (sn_idx sn, sn_term sn) = v_fsmLast s /\ sn_cfg sn = v_committed s /\ sn_cfgidx sn = v_committedIdx s /\
    sn_data sn = v_fsm s /\ v_committedIdx s <= sn_idx sn /\ 0 < sn_idx sn /\
    v_lastSnapIdx s' = sn_idx sn /\ v_lastSnapTerm s' = sn_term sn /\
    (d_log s' = d_log s \/
     exists lo hi, d_log s' = log_delete (d_log s) lo hi /\ hi <= sn_idx sn /\
                   (p_trailing P < v_lastLogIdx s -> hi <= v_lastLogIdx s - p_trailing P)).
Proof. exact take_snapshot_records. Qed.
Print Assumptions C11_snapshot_records_committed_state.

Theorem C11_snapshot_refused_or_nothing_new : forall P s fs,
  (fst (v_fsmLast s) = 0 -> take_snapshot P s fs = Done s 2 [] fs) /\
  (fst (v_fsmLast s) <> 0 -> fst (v_fsmLast s) < v_committedIdx s -> take_snapshot P s fs = Done s 3 [] fs).
Proof. exact take_snapshot_refusals. Qed.

Example C11_nontrivial :
  compact 3 10 20 5 = Some (3, 10) /\ compact 3 18 20 5 = Some (3, 15) /\
  compact 3 10 4 5 = None /\ compact 12 10 20 5 = None.
Proof. vm_compute. repeat split. Qed.


(* ALL RUNS of the cluster with commitment and takeSnapshot (Model/ClusterCommit.v, crun true): every
   snapshot stored anywhere (running or stopped server) carries the term of the COMMITTED entry at its
   index - wherever a running server still holds an entry at that index at or below its commit index, the
   terms agree - and two snapshots of one index have one term: "a snapshot's index and term are exactly
   those of the committed history at that index".  (Configuration and FSM content of the snapshot: the
   one-server theorem C11_snapshot_records_committed_state.) *)
Theorem C11_snapshots_are_of_committed_history : forall cfg g0 ls g,
  cinit_snap_ok cfg g0 -> Forall label_ok ls -> crun true [cfg] g0 ls = Some g ->
  snapshots_committed g.
Proof. intros cfg g0 ls g H0 Hl Hr. destruct (state_machine_safety_snapshots cfg g0 ls g H0 Hl Hr) as (_ & _ & _ & A). exact A. Qed.
Print Assumptions C11_snapshots_are_of_committed_history.


(* ALL RUNS, coverage: in the DURABLE state of every server - running, or stopped by a crash cut after any
   durable operation of any handler or of takeSnapshot (image) - every index is at or below the NEWEST
   snapshot of its snapshot store, or present in its log store, or beyond the end of the log store: no hole
   above the newest snapshot and nothing missing between it and the first log entry; and the snapshots of one
   store have increasing indexes (so the newest, which NewRaft restores, is the largest).  Statement:
   Proofs/ClusterCoverSpec.v; proof: Proofs/ClusterCoverMain.v (on top of the invariant of
   the snapshot system).  Snapshot TRANSFER is not in this system (F3-ii / F12). *)
Theorem C11_no_history_lost_all_runs : forall cfg g0 ls g,
  cinit_snap_ok cfg g0 -> Forall label_ok ls -> crun true [cfg] g0 ls = Some g ->
  no_history_lost g /\ snaps_increasing g.
Proof. exact no_history_lost_all_runs. Qed.
Print Assumptions C11_no_history_lost_all_runs.

(* Tie 2 (translator, every run): the decision tree of compactLogsWithTrailing, regenerated from snapshot.go
   (Model/GenTrees.v: the guards, the local definition maxLog := min(snapIdx, lastLogIdx-trailingLogs) and the
   DeleteRange call), issues exactly the range of Model/Compaction.v compact - at most one DeleteRange, never
   above min(snapshot index, last - trailing) - for all values of first/snapshot/last/trailing *)
From RaftModel Require Import GenTrees Trees.
From RaftProofs Require Import GenTreesSpec GenTreesProofs.
Theorem C11_regenerated_compaction_is_the_model : compaction_tree_agrees.
Proof. exact compaction_tree_agrees_holds. Qed.
Print Assumptions C11_regenerated_compaction_is_the_model.
