(* C04 — Log matching across servers (cluster level, all runs) and AppendEntries consistency
   (handler level).  Statements only; proofs in Proofs/AppendProofs.v and Proofs/ClusterLog*.v. *)
From Coq Require Import List NArith Lia.
From stdpp Require Import gmap.
From RaftModel Require Import Base Config Node NodeCodec Cluster ClusterLog ClusterCommit ClusterSnap.
From RaftProofs Require Import AppendProofs ClusterProofs ClusterLogSpec ClusterLogMain ClusterLogExample
  ClusterLogSnapSpec ClusterLogSnapMain ClusterLogSnapCex ClusterLogSnapExample ClusterSnapCex
  ClusterSnapLMSpec ClusterSnapLMMain ClusterSnapLMCex.
Open Scope N_scope.

(* LOG MATCHING OVER ALL RUNS OF THE CLUSTER (Model/ClusterLog.v).
   For EVERY run of the cluster transition system — any number of servers starting from prefixes of
   one history (linit_ok: what a bootstrapped cluster looks like; Proofs/ClusterLogSpec.v), elections
   with vote requests delayed / duplicated / lost, stray vote requests, restarts, TimeoutNow, leaders
   storing entries (dispatchLogs), AppendEntries built by the leader's setupAppendEntries for ANY
   nextIndex and delivered late, repeatedly, out of order or never, heartbeats, a store failure or a
   crash cut at any durable operation of any handler — in every reachable state:
     - two logs that hold an entry of the same term at an index hold the SAME entry (term, type,
       data) at every index up to it that both retain;
     - within one log terms never decrease and every entry is stored under its own index.
   Elections are held under configurations whose majorities intersect (one configuration, or the
   two sides of one membership change).  NOT in this system: InstallSnapshot and user Restore
   (with InstallSnapshot the statement is false on this code: known finding F3-ii). *)
Theorem C04_log_matching_all_runs : forall cfgs g0 ls g,
  quorums_intersect cfgs -> linit_ok g0 -> lrun false cfgs g0 ls = Some g ->
  log_matching g /\ terms_monotone g.
Proof. exact log_matching_no_snapshots. Qed.
Print Assumptions C04_log_matching_all_runs.

(* the same with takeSnapshot + compaction at any server at any time (and crash cuts inside them),
   from states whose commit indices do not exceed a prefix c0 of the history every server holds
   (linit_snap_ok; the commit index only moves through the requests in this system) *)
Theorem C04_log_matching_all_runs_with_snapshots : forall cfgs g0 ls g,
  quorums_intersect cfgs -> linit_snap_ok g0 -> lrun true cfgs g0 ls = Some g ->
  log_matching g /\ terms_monotone g.
Proof. exact log_matching_with_snapshots. Qed.
Print Assumptions C04_log_matching_all_runs_with_snapshots.

(* why the commit condition is there: with an initial commit index that no majority backs, the
   snapshot-boundary acceptance of appendEntries lets two logs agree at an index and differ below
   (five servers, checked by vm_compute).  The condition is what commitment
   guarantees in the real system: nothing at or below a commit index is ever truncated. *)
Theorem C04_log_matching_needs_backed_commit_index :
  exists cfgs g0 ls g,
    quorums_intersect cfgs /\ linit_ok g0 /\ lrun true cfgs g0 ls = Some g /\ ~ log_matching g.
Proof. exact log_matching_with_snapshots_refuted. Qed.

(* non-vacuity: every state the correspondence driver (component 101) starts from satisfies linit_ok;
   a concrete start state satisfies linit_snap_ok and a run from it applies entries and takes a snapshot *)
Theorem C04_driver_states_are_initial : forall n extras,
  linit_ok (mkLG (mkG (map (fun p => mk_node (mk_cfg n) (N.of_nat (fst p)) (snd p)) (combine (seq 1 n) extras)) [] [] []) []).
Proof. exact mk_nodes_linit. Qed.
Example C04_snapshot_runs_exist :
  linit_snap_ok snap_g0 /\
  match lrun true [mk_cfg 3] snap_g0 snap_labels with Some g => took_snapshot g 2 | None => false end = true.
Proof. split; [exact snap_init_ok | exact snapshots_do_happen]. Qed.

(* WITH SNAPSHOT TRANSFER in the system (Model/ClusterSnap.v: sendLatestSnapshot / installSnapshot added to
   the cluster with commitment) Log Matching is FALSE on this code - known finding F3-ii: a server that
   installs a snapshot keeps a stale never-committed entry below the snapshot index in its log store.
   The witness is a script component 104 found on REAL servers (model and servers agreed step by step);
   it runs first in every C04 check. *)
Theorem C04_log_matching_with_snapshot_transfer_refuted :
  exists ls g, srun [mk_cfg 3] f3ii_init ls = Some g /\ ~ log_matching (lg_of g).
Proof. exact log_matching_with_snapshot_transfer_refuted. Qed.

(* what IS true in the system with snapshot transfer, for every run (store failures, crash cuts, requests
   executed late / twice / in reverse order - F12 included): Log Matching and monotone terms hold above the
   largest snapshot index stored anywhere in the cluster.  Nothing per-server can be claimed: the stale
   entries a server keeps below an installed snapshot (F3-ii) are replicated by it when it later leads and
   end up - overwriting committed entries - on servers that never saw a snapshot
   (C04_log_matching_above_own_snapshots_refuted, a 5-server run). *)
Theorem C04_log_matching_above_all_snapshots_with_snapshot_transfer : forall cfg g0 ls g,
  sinit_ok cfg g0 -> srun [cfg] g0 ls = Some g ->
  log_matching_above_all_snapshots (lg_of g) /\ terms_monotone_above_all_snapshots (lg_of g).
Proof. exact log_matching_above_all_snapshots_all_runs. Qed.
Print Assumptions C04_log_matching_above_all_snapshots_with_snapshot_transfer.

Theorem C04_log_matching_above_own_snapshots_refuted : exists cfg g0 ls g,
  sinit_ok cfg g0 /\ Forall slabel_ok ls /\ srun [cfg] g0 ls = Some g /\
  ~ log_matching_above_snapshots (lg_of g) /\
  ~ log_matching_above_own_snapshots (lg_of g) /\
  ~ terms_monotone (lg_of g).
Proof. exact log_matching_above_snapshots_refuted. Qed.

(* For EVERY follower state whose cached last-log index bounds its store and EVERY request with
   consecutive entry indices (any terms, any overlap with the follower's log, any batch boundary,
   any store-failure pattern):
   - nothing at or below the request's previous index changes;
   - an existing entry is removed or replaced only at or above the FIRST index where the stored
     term differs from the term sent;
   - on success, at every index sent the log holds an entry with the term sent: the entry sent,
     or the stored one it duplicates. *)
Theorem C04_append_entries : forall P s fs a s' r tr fs',
  cache_ok s -> contig (aq_prevIdx a) (aq_entries a) ->
  append_entries P s fs a = Done s' r tr fs' ->
  log_ok_fail (aq_prevIdx a) (aq_entries a) (d_log s) (d_log s') /\
  (ar_success r = true -> log_ok_success (aq_prevIdx a) (aq_entries a) (d_log s) (d_log s')).
Proof. exact append_entries_log. Qed.
Print Assumptions C04_append_entries.

(* what log_ok_fail / log_ok_success say, spelled out *)
Theorem C04_meaning_fail : forall prev es m m', log_ok_fail prev es m m' ->
  (forall i, i <= prev -> m' !! i = m !! i) /\
  (forall i x, m !! i = Some x -> m' !! i <> Some x -> exists c, first_conflict m es = Some c /\ c <= i).
Proof. intros prev es m m' [H1 H2]. auto. Qed.
Theorem C04_meaning_success : forall prev es m m', log_ok_success prev es m m' ->
  forall e, In e es -> exists e', m' !! e_idx e = Some e' /\ e_term e' = e_term e /\ (e' = e \/ m !! e_idx e = Some e').
Proof. intros prev es m m' [_ H]. exact H. Qed.

(* success implies the previous entry matched *)
Theorem C04_success_prev_matched : forall P s fs a s' r tr fs',
  append_entries P s fs a = Done s' r tr fs' -> ar_success r = true -> 0 < aq_prevIdx a ->
  (aq_prevIdx a = fst (last_entry s) /\ aq_prevTerm a = snd (last_entry s)) \/
  (aq_prevIdx a = v_lastSnapIdx s /\ aq_prevTerm a = v_lastSnapTerm s) \/
  (exists pe, d_log s !! aq_prevIdx a = Some pe /\ e_term pe = aq_prevTerm a).
Proof. exact append_success_prev. Qed.
Print Assumptions C04_success_prev_matched.

(* Non-vacuity: follower log terms [1;1;2;2], leader sends prev=(2,1) entries (3,t3) (4,t3) (5,t3):
   conflict at 3, suffix 3..4 removed, three entries stored, success. *)
Example C04_nontrivial :
  let P := mkP 1 false false false 100 4 (fun _ => []) in
  let m := log_store ∅ [mkE 1 1 0 101; mkE 2 1 0 102; mkE 3 2 0 203; mkE 4 2 0 204] in
  let s := mkNS 3 0 None m 0 0 [] 0 3 0 0 4 2 0 0 [] 0 [] 0 0 0 false [] (0, 0) in
  let a := mkAReq 3 3 3 2 1 [mkE 3 3 0 303; mkE 4 3 0 304; mkE 5 3 0 305] 0 in
  cache_ok s /\ contig (aq_prevIdx a) (aq_entries a) /\
  first_conflict m (aq_entries a) = Some 3 /\
  match append_entries P s [] a with
  | Done s' r tr _ => ar_success r = true /\ tr = [EDelete 3 4 true; EStore (aq_entries a) true] /\
                      d_log s' !! 2 = Some (mkE 2 1 0 102) /\ d_log s' !! 4 = Some (mkE 4 3 0 304)
  | Panic _ _ => False
  end.
Proof.
  cbv zeta. split.
  - intros i Hi. simpl in Hi. change (log_store ∅ [mkE 1 1 0 101; mkE 2 1 0 102; mkE 3 2 0 203; mkE 4 2 0 204] !! i = None).
    rewrite log_store_lookup.
    destruct (find_last i _) eqn:F; [|apply lookup_empty].
    apply find_last_In in F. destruct F as [F1 F2]. simpl in F1.
    destruct F1 as [<-|[<-|[<-|[<-|[]]]]]; simpl in F2; lia.
  - split; [simpl; repeat split; reflexivity|]. vm_compute. repeat split; reflexivity.
Qed.

(* Tie 2b (translator, every run): the decision tree of appendEntries regenerated from raft.go (Model/GenTreesAE.v,
   loops expanded "body once or not at all"). Over EVERY path of the source: entries are deleted only on a path that took
   the branch `entry.Term != storeEntry.Term`; on a path where that DeleteRange or StoreLogs failed nothing is stored
   afterwards and success is never assigned; once resp.Success = true is assigned no store operation follows; and the
   tree does contain these effects and conditions (Proofs/GenTreesAESpec.v). Order and presence of effects, not data. *)
From RaftModel Require Import GenTrees Trees GenTreesAE.
From RaftProofs Require Import GenTreesAESpec.
Theorem C04_regenerated_appendEntries_deletes_only_at_a_conflict_and_never_succeeds_over_a_failed_store : append_entries_effects_in_order.
Proof. exact append_entries_effects_in_order_holds. Qed.
Print Assumptions C04_regenerated_appendEntries_deletes_only_at_a_conflict_and_never_succeeds_over_a_failed_store.
