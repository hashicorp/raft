(* C08 — Client-visible outcome of Apply/Barrier is exact (at most once, ordered).
   Statements only; proofs in Proofs/LeaderProofs.v.  Leader-side model: Model/Leader.v, tied to
   the code by the leader-sequence correspondence (component 8, incl. a batching FSM).
   CLUSTER LEVEL (end of file): a future answered without error means the entry is committed at
   exactly that index on the answering leader (C08_acknowledged_means_committed_there), and by
   C03_acknowledged_entries_are_permanent / C02_state_machine_safety_all_runs it stays the entry of
   that index on every later leader and on every server that learns the index committed.
   ORDER (C08_index_above_everything_acknowledged_before_the_call): cut ANY run of the cluster at a
   dispatchLogs step; whatever any leader of any term acknowledged to a client before that step has a
   smaller index than the entry the step creates, if that entry is ever acknowledged - with and without
   takeSnapshot/compaction.
   DEFINITE FAILURES (C08_rejected_calls_are_never_dispatched): over the control-flow paths that the
   translator go/gotables extracts from raft.go / api.go on every run (Model/LoopTable.v case_paths,
   api_paths; decision procedure Model/Paths.v): a path of a main-loop case that answers the received
   Apply / Barrier / membership / restore future with ErrNotLeader or ErrLeadershipTransferInProgress
   calls nothing but state readers (no dispatchLogs, appendConfigurationEntry, restoreUserSnapshot) and
   hands the future to nobody; outside leaderLoop those queues are ONLY answered ErrNotLeader; ApplyLog /
   Barrier / requestConfigChange return an errorFuture (ErrEnqueueTimeout, ErrRaftShutdown) only on paths
   that did not send the future to a queue.
   PARTIAL: the path enumeration is syntactic (order and presence of calls, not data flow); exactly-once
   across restarts with snapshots is checked on real histories
   (monitors applied-more-than-once, applied-at-another-index, definitely-failed-command-stored,
   barrier-returned-before-earlier-entry-applied, index-not-above-earlier-acks). *)
From Coq Require Import List NArith.
From stdpp Require Import gmap.
From RaftModel Require Import Base Config Commitment Node NodeCodec Leader Cluster ClusterLog ClusterCommit LoopTable Paths.
From RaftProofs Require Import LeaderProofs ClusterCommitSpec ClusterCommitSnapSpec ClusterCommitAcks2 ClusterOrderSpec ClusterOrderMain.
Open Scope N_scope.

(* whatever mix of commands, barriers and configurations a batch holds and whichever carry a
   future: each future gets the FSM's response for ITS OWN entry, at that entry's index *)
Theorem C08_response_pairing : forall reqs,
  apply_batch reqs =
  flat_map (fun x => match snd x with
                     | Some fid => [mkFR fid (e_idx (fst x)) E_OK (own_response (fst x))]
                     | None => [] end) reqs.
Proof. exact apply_batch_pairing. Qed.
Print Assumptions C08_response_pairing.

(* dispatch assigns consecutive indices above the leader's last index, in call order *)
Theorem C08_dispatch_indices : forall P ls fs reqs k ty data fid,
  nth_error reqs k = Some (ty, data, fid) ->
  let '(ls', _, _, _) := dispatch P ls fs reqs in
  In (mkE (last_index (l_node ls) + 1 + N.of_nat k) (v_term (l_node ls)) ty data, fid) (l_inflight ls').
Proof. exact dispatch_indices. Qed.
Print Assumptions C08_dispatch_indices.

(* only futures at or below the commit index are answered by the commit processing *)
Theorem C08_only_committed_acknowledged : forall ls ls' tr res,
  leader_commit ls = Some (ls', tr, res) ->
  exists ready, l_inflight ls = ready ++ l_inflight ls' /\
                forall x, In x ready -> e_idx (fst x) <= cm_commit (l_cm ls).
Proof. exact leader_commit_takes_committed. Qed.
Print Assumptions C08_only_committed_acknowledged.

Example C08_nontrivial :
  apply_batch [(mkE 5 2 0 501, Some 11); (mkE 6 2 4 0, Some 12); (mkE 7 2 5 9000, None); (mkE 8 2 0 502, Some 13)]
  = [mkFR 11 5 0 (resp_of 501); mkFR 12 6 0 0; mkFR 13 8 0 (resp_of 502)].
Proof. vm_compute. reflexivity. Qed.


(* CLUSTER LEVEL (Model/ClusterCommit.v): whenever a step of any run answers a future without error,
   the answering server is the Leader of the term recorded, the entry is in its log at its index, and
   that index is at or below its commit index - "committed at exactly the returned index". *)
Theorem C08_acknowledged_means_committed_there : forall cfg g0 ls g l g' T e,
  cinit_ok cfg g0 -> Forall label_ok ls -> crun false [cfg] g0 ls = Some g ->
  cstep false [cfg] g l = Some g' -> In (T, e) (step_acks g l) ->
  exists i n' s', l = CCommit i /\ find_node (cnodes g') i = Some n' /\ gn_run n' = Up s' /\
    v_role s' = Leader /\ v_term s' = T /\ e_idx e <= v_commit s' /\ d_log s' !! e_idx e = Some e.
Proof. exact acks_are_committed_when_answered. Qed.
Print Assumptions C08_acknowledged_means_committed_there.


(* DEFINITE FAILURES, on the paths regenerated from the Go source on every run (finite table: decided by
   computation): see the header.  rows_present guards against vacuity (the three loops and the three
   storing queues, and the three API constructors, must be found in the source). *)
Theorem C08_rejected_calls_are_never_dispatched : paths_ok = true.
Proof. vm_compute. reflexivity. Qed.
Print Assumptions C08_rejected_calls_are_never_dispatched.

(* what paths_ok says, unfolded for one row: every path of every case on a storing queue *)
Theorem C08_rejected_path_spec : forall lp q ps p,
  In (lp, q, ps) case_paths -> mem q storing_queues = true -> In p ps ->
  existsb is_definite_respond p = true ->
  existsb is_effect_call p = false /\ existsb is_send p = false.
Proof.
  intros lp q ps p Hrow Hq Hp Hd. pose proof C08_rejected_calls_are_never_dispatched as H.
  unfold paths_ok in H. repeat (apply Bool.andb_true_iff in H; destruct H as [H ?]).
  match goal with Hc : forallb case_rejections_ok case_paths = true |- _ => rewrite forallb_forall in Hc; specialize (Hc _ Hrow) end.
  match goal with Hc : case_rejections_ok _ = true |- _ => unfold case_rejections_ok in Hc; rewrite Hq in Hc; rewrite forallb_forall in Hc; specialize (Hc _ Hp);
    unfold rejected_path_ok in Hc; rewrite Hd in Hc end.
  match goal with Hc : _ && _ && _ = true |- _ => repeat (apply Bool.andb_true_iff in Hc; destruct Hc as [Hc ?]) end.
  split; apply Bool.negb_true_iff; assumption.
Qed.
Print Assumptions C08_rejected_path_spec.

Example C08_rejections_exist : rejections_exist = true.
  (* non-vacuity: the follower loop answers applyCh with ErrNotLeader on its only path; the leader loop has a
     rejecting path (transfer in progress) and a dispatching one *)
Proof. vm_compute. reflexivity. Qed.


(* ORDER, over all runs (statement: Proofs/ClusterOrderSpec.v acks_ordered; proof:
   Proofs/ClusterOrderCore.v: both keys are known committed, hence on one branch of the history; were the
   new entry not above the acknowledged one it would have been created before the call - but every entry
   of the leader's term created so far is at or below its last index). *)
Theorem C08_index_above_everything_acknowledged_before_the_call : forall cfg g0,
  cinit_ok cfg g0 -> acks_ordered false cfg g0.
Proof. exact acks_ordered_all_runs. Qed.
Print Assumptions C08_index_above_everything_acknowledged_before_the_call.
Theorem C08_index_above_everything_acknowledged_before_the_call_with_snapshots : forall cfg g0,
  cinit_snap_ok cfg g0 -> acks_ordered true cfg g0.
Proof. exact acks_ordered_all_runs_snapshots. Qed.
Print Assumptions C08_index_above_everything_acknowledged_before_the_call_with_snapshots.
