(* C05 — Commit only on a majority of voters, current-term rule, monotone.
   Statements only; proofs in Proofs/CommitmentProofs.v (the commitment tracker) and
   Proofs/ClusterQuorum*.v (ALL RUNS of the cluster with commitment, Model/ClusterCommit.v; end of file):
   whatever a running server reports inside its commit index is held identically in the durable log
   store of a strict majority of the voters (or covered by that voter's snapshot), a leader's commit
   index enters the range of its own leadership only when its own-term no-op is on such a majority,
   the commit index never exceeds the last index (C02) and no step lowers it except a step that
   restarts that very server.
   PARTIAL: one configuration (membership changes are outside the composed system: F8 lives there);
   snapshot TRANSFER is outside (F3-ii, F12). *)
From Coq Require Import List NArith.
From stdpp Require Import gmap.
From RaftModel Require Import Base Config Commitment Node NodeCodec Cluster ClusterLog ClusterCommit.
From RaftProofs Require Import CommitmentProofs ClusterCommitSpec ClusterCommitSnapSpec ClusterQuorumSpec ClusterQuorumMonoSpec ClusterQuorumMain.
Open Scope N_scope.

(* The index picked from the sorted match indexes (position (n-1)/2) is exactly the largest
   index matched by a strict majority: any number of servers, any values. *)
Theorem C05_quorum_index_spec : forall vals, vals <> [] ->
  let q := quorum_idx_of vals in
  (2 * count_ge q vals > length vals)%nat /\
  (forall i, q < i -> (2 * count_ge i vals <= length vals)%nat).
Proof. exact quorum_index_spec. Qed.
Print Assumptions C05_quorum_index_spec.

(* Any sequence of match reports and configuration changes, any configuration, any start
   index: a non-zero commit index is >= startIndex (current-term rule) and was matched by a
   strict majority of the voter slots in force at the moment it was set. *)
Theorem C05_commit_sound : forall cfg start ops,
  let c := cm_run (cm_new cfg start) ops in
  cm_commit c = 0 \/
  (start <= cm_commit c /\
   exists k, (k <= length ops)%nat /\
     quorum_ok (cm_match (cm_run (cm_new cfg start) (firstn k ops))) (cm_commit c)).
Proof. exact commit_sound. Qed.
Print Assumptions C05_commit_sound.

(* Slots exist exactly for the voters of the configuration in force, one per id. *)
Theorem C05_only_voters_counted : forall cfg start ops id,
  is_Some (cm_match (cm_run (cm_new cfg start) ops) !! id) <-> In id (voters (cfg_in_force cfg ops)).
Proof. exact only_voters_counted. Qed.
Print Assumptions C05_only_voters_counted.

Theorem C05_nonvoter_report_ignored : forall c id idx,
  cm_match c !! id = None -> cm_step c (CMatch id idx) = c.
Proof. exact match_nonvoter_ignored. Qed.
Print Assumptions C05_nonvoter_report_ignored.

(* A slot only ever holds 0 or an index reported for that very server. *)
Theorem C05_slot_values_reported : forall ops c id v,
  cm_match (cm_run c ops) !! id = Some v ->
  v = 0 \/ cm_match c !! id = Some v \/ In (CMatch id v) ops.
Proof. exact slot_values_reported. Qed.
Print Assumptions C05_slot_values_reported.

Theorem C05_monotone : forall c ops, cm_commit c <= cm_commit (cm_run c ops).
Proof. exact commit_run_monotone. Qed.
Print Assumptions C05_monotone.

(* Figure 8: the commit index never moves to an index below startIndex. *)
Theorem C05_current_term_rule : forall c o,
  cm_commit (cm_step c o) <> cm_commit c -> cm_start c <= cm_commit (cm_step c o).
Proof. exact current_term_rule. Qed.
Print Assumptions C05_current_term_rule.

(* Follower: commit' = min(LeaderCommit, index of the request's last entry, lastIndex), only upward. *)
Theorem C05_follower_commit : forall commit lc ln last,
  let c' := follower_commit commit lc ln last in commit <= c' /\ (c' = commit \/ (c' <= lc /\ c' <= ln /\ c' <= last)).
Proof. exact follower_commit_spec. Qed.
Print Assumptions C05_follower_commit.

(* Non-vacuity: 5 servers (3 voters, a non-voter, a staging server); an old-term majority does
   not commit (start = 5), a current-term majority does; the non-voter's report is ignored. *)
Example C05_nontrivial :
  let cfg := [mkSrv 0 1 1; mkSrv 0 2 2; mkSrv 0 3 3; mkSrv 1 4 4; mkSrv 2 5 5] in
  map cm_commit
      [cm_run (cm_new cfg 5) [CMatch 1 4; CMatch 2 4];
       cm_run (cm_new cfg 5) [CMatch 1 5; CMatch 4 9; CMatch 5 9];
       cm_run (cm_new cfg 5) [CMatch 1 5; CMatch 4 9; CMatch 2 6]] = [0; 0; 5].
Proof. vm_compute. reflexivity. Qed.


(* ALL RUNS of the cluster with commitment (Model/ClusterCommit.v).
   Statements: Proofs/ClusterQuorumSpec.v; proofs: Proofs/ClusterQuorumMain.v, on top of the invariant of
   State Machine Safety (acceptance records of a majority + Leader Completeness: an acceptor still holds
   what it accepted unless a later leader lacked it, which Leader Completeness excludes). *)

(* every entry inside the commit index of a running server is in the durable log store (running or crashed
   server: image) of each member of a strict majority of the voters, each counted once, nobody else *)
Theorem C05_commit_backed_by_voter_majority_all_runs : forall cfg g0 ls g,
  cinit_ok cfg g0 -> Forall label_ok ls -> crun false [cfg] g0 ls = Some g -> commit_backed cfg g.
Proof. exact commit_backed_all_runs. Qed.
Print Assumptions C05_commit_backed_by_voter_majority_all_runs.

(* with takeSnapshot/compaction anywhere, any time: ... or at or below a snapshot that voter stores *)
Theorem C05_commit_backed_by_voter_majority_all_runs_with_snapshots : forall cfg g0 ls g,
  cinit_snap_ok cfg g0 -> Forall label_ok ls -> crun true [cfg] g0 ls = Some g -> commit_backed_snap cfg g.
Proof. exact commit_backed_all_runs_snapshots. Qed.
Print Assumptions C05_commit_backed_by_voter_majority_all_runs_with_snapshots.

(* current-term rule: a Leader's commit index is below the index of its own no-op (what it had learned as a
   follower), or an entry of ITS term at that index is durably stored by a strict majority of the voters *)
Theorem C05_own_term_rule_all_runs : forall cfg g0 ls g,
  cinit_ok cfg g0 -> Forall label_ok ls -> crun false [cfg] g0 ls = Some g -> own_term_rule cfg g.
Proof. exact own_term_rule_all_runs. Qed.
Print Assumptions C05_own_term_rule_all_runs.
Theorem C05_own_term_rule_all_runs_with_snapshots : forall cfg g0 ls g,
  cinit_snap_ok cfg g0 -> Forall label_ok ls -> crun true [cfg] g0 ls = Some g -> own_term_rule_snap cfg g.
Proof. exact own_term_rule_all_runs_snapshots. Qed.
Print Assumptions C05_own_term_rule_all_runs_with_snapshots.

(* monotone: no step of any run lowers the commit index of a server that runs before and after it, except the
   step that restarts that very server - by the restart label or because the process dies inside the handler
   the step runs there (crash cut reached / panic) and boots again from its durable image within the step
   (NodeCodec.finish).  The statement without the second way of restarting is refuted by a compiled run
   (C05_commit_monotone_first_statement_is_false). *)
Theorem C05_commit_index_never_decreases_all_runs : forall sn cfg g0 ls g l g',
  cinit_snap_ok cfg g0 -> Forall label_ok ls -> crun sn [cfg] g0 ls = Some g ->
  label_ok l -> cstep sn [cfg] g l = Some g' -> commit_monotone_step_crash g l g'.
Proof. exact commit_monotone_crash_all_runs. Qed.
Print Assumptions C05_commit_index_never_decreases_all_runs.
Theorem C05_commit_monotone_first_statement_is_false :
  ~ (forall sn cfg g0 ls g l g',
       cinit_snap_ok cfg g0 -> Forall label_ok ls -> crun sn [cfg] g0 ls = Some g ->
       label_ok l -> cstep sn [cfg] g l = Some g' -> commit_monotone_step g l g').
Proof. exact commit_monotone_all_runs_is_false. Qed.
