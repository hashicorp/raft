(* C16 — NetworkTransport delivers RPCs faithfully and pipelines in order.
   Statements only; proofs in Proofs/PipelineProofs.v.  Model: Model/Pipeline.v (netPipeline:
   inprogressCh FIFO, one decoder goroutine, in-band handler errors, connection kill), tied to the
   real NetworkTransport by scripted pipelines (component 16).  Field fidelity of every RPC kind is
   the codec law of C16_stream_of_frames_decodes_in_order (`prefix_roundtrip` in Proofs/PipelineProofs.v): a HYPOTHESIS here (msgpack is not modelled), checked on
   the implementation by the field-by-field comparison of generated messages (component 1016). *)
From Coq Require Import List NArith.
From RaftModel Require Import Base Pipeline.
From RaftProofs Require Import PipelineProofs.
Open Scope N_scope.

(* For ANY script of sends, handler answers, handler errors and connection kills, in any order and
   depth: a request that resolves with a response resolves with the response to ITS OWN request. *)
Theorem C16_each_response_paired_with_its_own_request : forall ops k t,
  In (k, Some t) (pipe_run ops) -> t = k.
Proof. exact pipeline_pairing. Qed.
Print Assumptions C16_each_response_paired_with_its_own_request.

(* ... and the responses are delivered in send order (the delivered tags are a subsequence of the
   sent tags) *)
Theorem C16_responses_in_send_order : forall ops,
  subseq (successes (pipe_run ops)) (sends_of ops).
Proof. exact pipeline_fifo. Qed.
Print Assumptions C16_responses_in_send_order.

(* a failed exchange yields errors only: nothing sent or still pending when the connection dies
   ever receives a response *)
Theorem C16_no_response_after_connection_failure : forall ops1 ops2,
  successes (pipe_run (ops1 ++ PKill :: ops2)) = successes (pipe_run (ops1 ++ [PKill])).
Proof. exact pipeline_no_success_after_kill. Qed.
Print Assumptions C16_no_response_after_connection_failure.

(* byte level: whatever the codec, if a decoder reads exactly one encoded message off the front of
   a stream, then messages written back to back on a connection are read back whole and in order *)
Theorem C16_stream_of_frames_decodes_in_order : forall (msg : Type) (enc : msg -> list N)
  (dec : list N -> option (msg * list N)),
  (forall m rest, dec (enc m ++ rest) = Some (m, rest)) -> (forall m, enc m <> []) ->
  forall ms, decode_stream msg dec (length ms) (flat_map enc ms) = ms.
Proof. exact stream_roundtrip. Qed.
Print Assumptions C16_stream_of_frames_decodes_in_order.

(* non-vacuity: a pipeline of depth 3, one handler error, a kill with one request outstanding and
   a send after the kill *)
Example C16_example :
  pipe_run [PSend 1; PSend 2; PSend 3; PAnswer; PError; PSend 4; PKill; PSend 5]
  = [(1, Some 1); (2, None); (3, None); (4, None); (5, None)].
Proof. reflexivity. Qed.
