(* C20 — User Restore replaces the state of the whole cluster (leader side).
   Statements only; proofs in Proofs/LeaderProofs.v.
   PARTIAL: that every follower eventually holds the restored state is convergence (C12): the
   follower-side step "after the restore snapshot is installed the following AppendEntries is
   accepted" is proved (C12); the bound is runtime. *)
From Coq Require Import List NArith.
From stdpp Require Import gmap.
From RaftModel Require Import Base Config Commitment Node Leader LoopTable Paths.
From RaftProofs Require Import LeaderProofs.
Open Scope N_scope.

Theorem C20_restore_leader : forall P ls fs mi data so ls' res tr fs',
  restore_user P ls fs mi data so = (ls', 0, res, tr, fs') ->
  let s := l_node ls in let s' := l_node ls' in
  v_fsm s' = data /\
  v_lastLogIdx s' = N.max mi (last_index s) + 1 /\ mi < v_lastLogIdx s' /\ last_index s < v_lastLogIdx s' /\
  last_index s' = v_lastLogIdx s' /\ v_applied s' = v_lastLogIdx s' /\ v_lastSnapIdx s' = v_lastLogIdx s' /\
  l_inflight ls' = [] /\
  res = map (fun x => mkFR (snd x) (e_idx (fst x)) E_ABORTED 0) (l_inflight ls) /\
  (exists sn, last (d_snaps s') sn = sn /\ In sn (d_snaps s') /\ sn_idx sn = v_lastLogIdx s' /\
              sn_data sn = data /\ sn_cfg sn = v_latest s /\ sn_cfgidx sn = v_latestIdx s) /\
  v_committedIdx s = v_latestIdx s.
Proof. exact restore_user_ok. Qed.
Print Assumptions C20_restore_leader.

Theorem C20_refused_while_configuration_uncommitted : forall P ls fs mi data so,
  v_committedIdx (l_node ls) <> v_latestIdx (l_node ls) ->
  restore_user P ls fs mi data so = (ls, 1, [], [], fs).
Proof. exact restore_refused_uncommitted_config. Qed.
Print Assumptions C20_refused_while_configuration_uncommitted.

Theorem C20_later_entries_above : forall P ls fs mi data so ls' res tr fs' reqs fs2 k ty d fid,
  restore_user P ls fs mi data so = (ls', 0, res, tr, fs') ->
  nth_error reqs k = Some (ty, d, fid) ->
  let '(ls'', _, _, _) := dispatch P ls' fs2 reqs in
  exists e, In (e, fid) (l_inflight ls'') /\ mi < e_idx e /\ last_index (l_node ls) < e_idx e.
Proof. exact dispatch_after_restore_above. Qed.
Print Assumptions C20_later_entries_above.

Example C20_nontrivial :
  let cfg := [mkSrv 0 1 1; mkSrv 0 2 2; mkSrv 0 3 3] in
  let P := mkP 1 false false false 100 4 (fun _ => cfg) in
  let s := mkNS 3 0 None ∅ 0 0 [] 2 3 0 0 4 2 0 0 cfg 1 cfg 1 1 1 false [7] (0, 0) in
  let ls := mkLS s (cm_new cfg 5) [(mkE 5 3 0 501, 11); (mkE 6 3 0 502, 12)] in
  match restore_user P ls [] 10 [901; 902] true with
  | (ls', code, res, tr, _) =>
    code = 0 /\ v_fsm (l_node ls') = [901; 902] /\ v_lastLogIdx (l_node ls') = 11 /\
    res = [mkFR 11 5 E_ABORTED 0; mkFR 12 6 E_ABORTED 0] /\ l_inflight ls' = []
  end.
Proof. vm_compute. repeat split. Qed.


(* "Restore is refused while a leadership transfer is in progress": on the control-flow paths regenerated
   from leaderLoop's userRestoreCh case (Model/LoopTable.v, decision procedure Model/Paths.v) the branch
   taken when getLeadershipTransferInProgress() holds answers ErrLeadershipTransferInProgress and calls
   nothing else; every other path runs restoreUserSnapshot (whose own refusal while a membership change is
   uncommitted is C20_refused_while_configuration_uncommitted). *)
Theorem C20_restore_refused_during_leadership_transfer : restore_case_ok = true.
Proof. vm_compute. reflexivity. Qed.
Print Assumptions C20_restore_refused_during_leadership_transfer.
