(* C03 — Committed entries are permanent (leader completeness, durable acks).
   ALL RUNS (C03_leader_completeness_all_runs, end of file): in every reachable state of the cluster
   with commitment (Model/ClusterCommit.v) a leader whose term is at least the term of a running
   server holds every entry that server knows to be committed (with takeSnapshot + compaction: the
   ..._with_snapshots theorems).  PARTIAL: InstallSnapshot, membership changes and RestoreCommittedLogs
   are outside these systems; those are checked on real
   histories by the monitors leader-misses-committed-entry, committed-index-reassigned,
   committed-entry-deleted.  The rest of the file: the per-server / per-leadership facts. *)
From Coq Require Import List NArith.
From stdpp Require Import gmap.
From RaftModel Require Import Base Config Commitment Node NodeCodec Leader Cluster ClusterLog ClusterCommit.
From RaftProofs Require Import CommitmentProofs LeaderProofs AppendProofs VoteProofs ClusterCommitSpec ClusterCommitMain ClusterCommitLog ClusterCommitAcks2 ClusterProofs
  ClusterCommitSnapSpec ClusterCommitSnapMain ClusterCommitSnapAcks ClusterCommitSnapCex.
Open Scope N_scope.

(* current-term rule at the call site: a new leader's commitment starts above everything its log
   held at election, so whatever followers report, it never commits an old-term entry by counting
   replicas (the Figure-8 pattern) - the commit index is 0 or above the election-time last index *)
Theorem C03_commit_only_above_election_last_index : forall s ops,
  let c := cm_run (l_cm (leader_setup s)) ops in
  cm_commit c = 0 \/ last_index s < cm_commit c.
Proof. exact leader_commit_above_election_last. Qed.
Print Assumptions C03_commit_only_above_election_last_index.

(* voters refuse candidates whose log is behind theirs: a vote is cast only after log_ok *)
Theorem C03_vote_requires_up_to_date_log : forall P r ins, wfr r ->
  forall pre e ob post, In (pre, e, ob, post) (run_hist P r ins) ->
  forall T c, live (image post) = Some (T, c) -> live (image pre) <> Some (T, c) -> cast_ok P (image pre) e T c.
Proof.
  intros P r ins Hw pre e ob post Hin T c H1 H2.
  destruct (history_item_good P r ins Hw pre e ob post Hin) as (_ & H & _). apply H; assumption.
Qed.
Print Assumptions C03_vote_requires_up_to_date_log.

(* followers delete entries only from the first index whose stored term differs from the term sent *)
Theorem C03_delete_only_on_conflict : forall P s fs a s' r tr fs',
  cache_ok s -> contig (aq_prevIdx a) (aq_entries a) ->
  append_entries P s fs a = Done s' r tr fs' ->
  forall i x, d_log s !! i = Some x -> d_log s' !! i <> Some x ->
  exists c, first_conflict (d_log s) (aq_entries a) = Some c /\ c <= i.
Proof.
  intros P s fs a s' r tr fs' Hc Hg H i x H1 H2.
  destruct (append_entries_log P s fs a s' r tr fs' Hc Hg H) as [[_ Hf] _]. apply (Hf i x H1 H2).
Qed.
Print Assumptions C03_delete_only_on_conflict.

(* the leader counts itself only after its own StoreLogs succeeded *)
Theorem C03_leader_counts_itself_after_store : forall P ls fs reqs ls' res tr fs',
  dispatch P ls fs reqs = (ls', res, tr, fs') ->
  l_cm ls' <> l_cm ls -> exists es, In (EStore es true) tr.
Proof.
  intros P ls fs reqs ls' res tr fs'. rewrite dispatch_spec. cbv zeta.
  destruct (fst (next_fail fs)); intros H Hne; inversion H; subst; [contradiction|].
  eexists. apply in_app_iff. right. left. reflexivity.
Qed.
Print Assumptions C03_leader_counts_itself_after_store.

Example C03_figure8 :
  (* 3 voters; the new leader's log ends at index 4 (old term); both followers report 4: nothing
     commits; once its own entry 5 is on a majority, 5 (and with it 4) commits *)
  let cfg := [mkSrv 0 1 1; mkSrv 0 2 2; mkSrv 0 3 3] in
  let s := mkNS 3 0 None ∅ 0 0 [] 2 3 0 0 4 2 0 0 cfg 1 cfg 1 0 0 false [] (0, 0) in
  map (fun ops => cm_commit (cm_run (l_cm (leader_setup s)) ops))
      [[CMatch 2 4; CMatch 3 4]; [CMatch 1 5; CMatch 2 4; CMatch 3 4]; [CMatch 1 5; CMatch 2 5]] = [0; 0; 5].
Proof. vm_compute. reflexivity. Qed.


(* LEADER COMPLETENESS OVER ALL RUNS (Model/ClusterCommit.v).
   For EVERY run of the cluster with commitment (as for C02_state_machine_safety_all_runs: elections,
   dispatchLogs, replicateTo from each follower's nextIndex, arbitrary delay / duplication /
   reordering / loss of requests and answers, commitment.match, the leader loop, restarts, store
   failures and crash cuts inside every handler) from a freshly booted cluster, in every reachable
   state: a Leader whose term is at least the term of a running server holds, at the same index,
   every entry that server knows to be committed - committed entries are on every later leader and
   are never re-assigned.  The proof is the classical one (an entry committed by counting matches of
   the leader's own term is on a majority; a later leader was voted by a majority; the up-to-date
   check and Log Matching), carried by an invariant with ghost records of leaderships, acceptances
   and votes, by strong induction on terms. *)
Theorem C03_leader_completeness_all_runs : forall cfg g0 ls g,
  cinit_ok cfg g0 -> Forall label_ok ls -> crun false [cfg] g0 ls = Some g ->
  leader_complete g.
Proof. intros cfg g0 ls g H0 Hl Hr. destruct (state_machine_safety cfg g0 ls g H0 Hl Hr) as (_ & A & _). exact A. Qed.
Print Assumptions C03_leader_completeness_all_runs.


(* DURABLE ACKNOWLEDGEMENTS: an entry whose future a leader of term T answered without error at ANY
   point of the run is, in every later state, held at its index by every Leader of a term >= T, and
   is the entry every running server that knows that index committed holds there: it is never
   overwritten, truncated or re-assigned (same system and side conditions as above). *)
Theorem C03_acknowledged_entries_are_permanent : forall cfg g0 ls g,
  cinit_ok cfg g0 -> Forall label_ok ls -> crun false [cfg] g0 ls = Some g ->
  acks_permanent (run_acks false [cfg] g0 ls) g.
Proof. exact acknowledged_entries_are_permanent. Qed.
Print Assumptions C03_acknowledged_entries_are_permanent.


(* WITH takeSnapshot + compaction (crun true): a later leader holds every committed / acknowledged entry
   in its log OR the index is covered by its own snapshot (with TrailingLogs 0 a leader's whole log can be
   compacted away: C03_compaction_refutes_plain_leader_completeness). *)
Theorem C03_leader_completeness_all_runs_with_snapshots : forall cfg g0 ls g,
  cinit_snap_ok cfg g0 -> Forall label_ok ls -> crun true [cfg] g0 ls = Some g ->
  leader_complete_snap g.
Proof. intros cfg g0 ls g H0 Hl Hr. destruct (state_machine_safety_snapshots cfg g0 ls g H0 Hl Hr) as (_ & A & _). exact A. Qed.
Print Assumptions C03_leader_completeness_all_runs_with_snapshots.

Theorem C03_acknowledged_entries_are_permanent_with_snapshots : forall cfg g0 ls g,
  cinit_snap_ok cfg g0 -> Forall label_ok ls -> crun true [cfg] g0 ls = Some g ->
  acks_permanent_snap (run_acks true [cfg] g0 ls) g.
Proof. exact acknowledged_entries_are_permanent_snapshots. Qed.
Print Assumptions C03_acknowledged_entries_are_permanent_with_snapshots.

Theorem C03_compaction_refutes_plain_leader_completeness : exists cfg g0 ls g,
  cinit_snap_ok cfg g0 /\ Forall label_ok ls /\ crun true [cfg] g0 ls = Some g /\
  ~ leader_complete g /\ leader_complete_snap g /\ log_size g 1 = 0%nat /\ snap_idx g 1 = 3.
Proof. exact compaction_refutes_leader_complete. Qed.
