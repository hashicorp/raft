(* C02 — State machine safety.
   Statements only; proofs in Proofs/RecoverProofs.v (one server) and Proofs/ClusterCommit*.v (all
   runs of the cluster with commitment).
   ONE SERVER: whatever commit index is handed to processLogs, the FSM receives exactly
   log(lastApplied, index] in increasing index order, each entry once, and a restore
   (InstallSnapshot / start-up) sets the FSM to the snapshot content and lastApplied to the snapshot
   index, so the next entry handed over is snapshot+1.
   ALL SERVERS, ALL RUNS (C02_state_machine_safety_all_runs): in every reachable state of the cluster
   transition system with commitment (Model/ClusterCommit.v) what two running servers know to be
   committed is the same history, and applied <= commit <= last index at every server - so, with the
   one-server half, every FSM is handed the same entries in the same order and nothing uncommitted.
   With takeSnapshot + log compaction: C02_state_machine_safety_all_runs_with_snapshots.
   PARTIAL: InstallSnapshot, membership changes and RestoreCommittedLogs are outside these systems
   (with InstallSnapshot the statement is false on this code: known finding F3-ii); those clauses
   are checked on real cluster histories by the monitors. *)
From Coq Require Import List NArith.
From stdpp Require Import gmap.
From RaftModel Require Import Base Config Node NodeCodec Cluster ClusterLog ClusterCommit.
From RaftProofs Require Import RecoverProofs ClusterCommitSpec ClusterCommitMain ClusterCommitInit ClusterCommitCex
  ClusterCommitSnapSpec ClusterCommitSnapMain ClusterCommitSnapCex.
Open Scope N_scope.

Theorem C02_fsm_stream_in_order : forall s idx s' tr,
  process_logs s idx = Some (s', tr) -> v_applied s < idx ->
  exists es,
    length es = N.to_nat (idx - v_applied s) /\
    (forall k, (k < length es)%nat -> d_log s !! (v_applied s + 1 + N.of_nat k) = Some (nth k es (mkE 0 0 0 0))) /\
    tr = flat_map fsm_events (filter handed es) /\
    v_applied s' = idx /\
    v_fsm s' = fold_left fsm_apply (filter handed es) (v_fsm s) /\
    d_log s' = d_log s.
Proof. exact process_logs_stream. Qed.
Print Assumptions C02_fsm_stream_in_order.

(* an index at or below lastApplied is never applied again *)
Theorem C02_no_reapply : forall s idx, idx <= v_applied s -> process_logs s idx = Some (s, []).
Proof. exact process_logs_old_index. Qed.
Print Assumptions C02_no_reapply.

(* start-up: FSM = newest usable snapshot, lastApplied = its index *)
Theorem C02_startup_restore : forall P img s tr, keys_ok (d_log img) -> p_rc P = false ->
  recover P img = RecOk s tr ->
  match find sn_ok (list_snaps (d_snaps img)) with
  | Some sn => v_fsm s = sn_data sn /\ v_applied s = sn_idx sn /\ tr = [ESetTerm (d_term img) true; ERestore (sn_data sn)]
  | None => v_fsm s = [] /\ v_applied s = 0 /\ tr = [ESetTerm (d_term img) true]
  end.
Proof. intros P img s tr Hk Hrc H. apply (recover_ok P img s tr Hk H). exact Hrc. Qed.
Print Assumptions C02_startup_restore.

Example C02_nontrivial :
  let m := log_store ∅ [mkE 1 1 5 9000; mkE 2 1 0 102; mkE 3 1 1 0; mkE 4 2 4 0; mkE 5 2 0 205] in
  let s := mkNS 2 0 None m 0 0 [] 0 2 0 1 5 2 0 0 [] 0 [] 0 0 0 false [7] (0, 0) in
  match process_logs s 5 with
  | Some (s', tr) => v_applied s' = 5 /\ v_fsm s' = [7; 102; 205] /\
                     tr = [EApply (mkE 2 1 0 102); EApply (mkE 5 2 0 205)]
  | None => False
  end.
Proof. vm_compute. repeat split. Qed.


(* ALL SERVERS, ALL RUNS (Model/ClusterCommit.v).
   For EVERY run of the cluster with commitment - elections, dispatchLogs, replicateTo sending from
   each follower's nextIndex (any lastIndex it may have read), requests executed by the followers'
   handlers late, repeatedly, out of order or never, answers returning to the blocked call or lost,
   commitment.match, the leader loop advancing the commit index, restarts, store failures
   (DeleteRange included) and crash cuts inside every handler - from a freshly booted cluster
   (cinit_ok: Proofs/ClusterCommitSpec.v) and as long as no LogConfiguration entry is proposed and
   vote requests are those real candidates sent (label_ok):
     - committed_agree: two running servers hold the SAME entry at every index both know committed;
     - applied_within_commit: lastApplied <= commitIndex <= lastIndex at every running server.
   This holds for the follower rule min(LeaderCommit, index of the last entry of the request) (fix:
   a641560).  For the pinned rule min(LeaderCommit, own last index) there are
   counterexamples, replayed on real servers (finding F11). *)
Theorem C02_state_machine_safety_all_runs : forall cfg g0 ls g,
  cinit_ok cfg g0 -> Forall label_ok ls -> crun false [cfg] g0 ls = Some g ->
  committed_agree g /\ applied_within_commit g.
Proof. intros cfg g0 ls g H0 Hl Hr. destruct (state_machine_safety cfg g0 ls g H0 Hl Hr) as (A & _ & B). split; assumption. Qed.
Print Assumptions C02_state_machine_safety_all_runs.

(* non-vacuity: every state the correspondence driver (component 102) starts from is such an initial state *)
Theorem C02_driver_states_are_initial : forall n extras,
  cinit_ok (mk_cfg n)
    (mkCG (mkLG (mkG (map (fun p => mk_node (mk_cfg n) (N.of_nat (fst p)) (snd p)) (combine (seq 1 n) extras)) [] [] []) []) [] [] []).
Proof. exact mk_nodes_cinit. Qed.

(* the no-stray-vote condition is needed: a forged RequestVote (LeadershipTransfer set, made-up last
   log) obtains a vote, the real request is then re-granted without a log check *)
Theorem C02_forged_vote_request_refutes_safety : exists cfg g0 ls g,
  cinit_ok cfg g0 /\ Forall label_no_config ls /\ crun false [cfg] g0 ls = Some g /\
  ~ committed_agree g /\ ~ leader_complete g.
Proof. exact forged_vote_refutes_safety. Qed.

(* regression of finding F11: the two runs that broke the pinned follower rule (a lastIndex read before
   the leader's no-op; five failing DeleteRange calls) now end without a violation *)
Example C02_F11_runs_now_safe :
  (exists g, crun false [mk_cfg 3] cex_g0 cexB_labels = Some g /\
     (no_violation g [1; 2; 3] [1; 2; 3; 4] && (commit_of g 1 =? 4) && (commit_of g 3 =? 2)) = true) /\
  (exists g, crun false [mk_cfg 3] cexC_g0 cexC_labels = Some g /\
     (no_violation g [1; 2; 3] [1; 2; 3; 4; 5; 6] && (commit_of g 1 =? 6) && (commit_of g 3 =? 5)) = true).
Proof. split; [exact old_rule_cexB_now_safe | exact old_rule_cexC_now_safe]. Qed.


(* THE SAME WITH takeSnapshot + log compaction at any server at any time (crun true; any TrailingLogs,
   failing stores and crash cuts inside takeSnapshot), from a freshly booted cluster whose FSM
   goroutines have handled nothing yet (cinit_snap_ok): committed_agree as before; lastApplied is
   bounded by max(commitIndex, own snapshot index) (a restart restores the snapshot and resets the
   volatile commit index: C02_restart_refutes_applied_le_commit shows the plain bound is false then). *)
Theorem C02_state_machine_safety_all_runs_with_snapshots : forall cfg g0 ls g,
  cinit_snap_ok cfg g0 -> Forall label_ok ls -> crun true [cfg] g0 ls = Some g ->
  committed_agree g /\ applied_within_snap g.
Proof. intros cfg g0 ls g H0 Hl Hr. destruct (state_machine_safety_snapshots cfg g0 ls g H0 Hl Hr) as (A & _ & B & _). split; assumption. Qed.
Print Assumptions C02_state_machine_safety_all_runs_with_snapshots.

Theorem C02_restart_refutes_applied_le_commit : exists cfg g0 ls g,
  cinit_snap_ok cfg g0 /\ Forall label_ok ls /\ crun true [cfg] g0 ls = Some g /\
  ~ applied_within_commit g /\ applied_within_snap g.
Proof. exact restart_from_snapshot_refutes_applied_within_commit. Qed.

(* Tie 2b (translator, every run): on every path of the regenerated appendEntries a failed truncation or a failed
   StoreLogs is never followed by a store or by success (what an FSM is later handed rests on it: round-4 seed C02d) *)
From RaftModel Require Import GenTrees Trees GenTreesAE.
From RaftProofs Require Import GenTreesAESpec.
Theorem C02_regenerated_appendEntries_never_succeeds_over_a_failed_store : append_entries_effects_in_order.
Proof. exact append_entries_effects_in_order_holds. Qed.
Print Assumptions C02_regenerated_appendEntries_never_succeeds_over_a_failed_store.

(* installSnapshot, every path of the regenerated tree: success is never assigned, and the applied index / last snapshot
   are not moved, on a path where the stream delivered another number of bytes than req.Size, where closing the snapshot
   sink failed, or where the FSM's restore reported an error (round-2 seed C02b; removing the `return` after the short
   read breaks this theorem) *)
Theorem C02_regenerated_installSnapshot_succeeds_only_after_a_complete_restore : install_snapshot_success_only_after_a_complete_restore.
Proof. exact install_snapshot_success_only_after_a_complete_restore_holds. Qed.
Print Assumptions C02_regenerated_installSnapshot_succeeds_only_after_a_complete_restore.
