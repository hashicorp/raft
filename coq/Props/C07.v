(* C07 — Membership changes: one voter at a time, serialised, non-voters inert.
   Statements only; proofs in Proofs/ConfigProofs.v, Proofs/CommitmentProofs.v. *)
From Coq Require Import List NArith.
From stdpp Require Import gmap.
From RaftModel Require Import Base Config Commitment.
From RaftProofs Require Import ConfigProofs CommitmentProofs.
Open Scope N_scope.

(* every accepted change yields a well-formed configuration (>= 1 voter, unique non-empty ids
   and addresses): any configuration, any size, any request *)
Theorem C07_next_configuration_checked : forall cur idx q new,
  next_config cur idx q = Some new -> check_config new = true.
Proof. exact next_config_checked. Qed.
Print Assumptions C07_next_configuration_checked.

Theorem C07_checked_means : forall c, check_config c = true ->
  NoDup (map s_id c) /\ NoDup (map s_addr c) /\ voters c <> [] /\
  (forall s, In s c -> s_id s <> 0 /\ s_addr s <> 0).
Proof. exact check_config_facts. Qed.
Print Assumptions C07_checked_means.

(* ... and changes the vote (and the membership) of at most one server: the one it names *)
Theorem C07_one_voter_at_a_time : forall cur idx q new,
  next_config cur idx q = Some new ->
  forall x, x <> r_id q -> has_vote new x = has_vote cur x /\ in_config new x = in_config cur x.
Proof. exact next_config_one_voter. Qed.
Print Assumptions C07_one_voter_at_a_time.

(* a stale prevIndex is rejected (nextConfiguration is a function: nothing else happens) *)
Theorem C07_stale_prev_rejected : forall cur idx q,
  r_prev q <> 0 -> r_prev q <> idx -> next_config cur idx q = None.
Proof. exact next_config_stale_prev. Qed.
Print Assumptions C07_stale_prev_rejected.

(* majorities of two successive configurations always share a voter *)
Theorem C07_adjacent_majorities_intersect : forall cur idx q new Q Q',
  check_config cur = true -> next_config cur idx q = Some new ->
  majority (voters cur) Q -> majority (voters new) Q' -> exists x, In x Q /\ In x Q'.
Proof. exact next_config_majorities_intersect. Qed.
Print Assumptions C07_adjacent_majorities_intersect.

(* quorumSize is a strict majority of the voters and does not see non-voters *)
Theorem C07_quorum_size : forall c,
  let n := N.of_nat (length (voters c)) in
  2 * quorum_size c > n /\ (n > 0 -> quorum_size c <= n) /\ 2 * (quorum_size c - 1) <= n.
Proof. exact quorum_size_majority. Qed.
Print Assumptions C07_quorum_size.

Theorem C07_quorum_ignores_nonvoters : forall c s, is_voter s = false ->
  quorum_size (c ++ [s]) = quorum_size c /\ quorum_size (s :: c) = quorum_size c.
Proof. exact quorum_size_ignores_nonvoters. Qed.
Print Assumptions C07_quorum_ignores_nonvoters.

(* commitment never counts a server without a voter slot *)
Theorem C07_commitment_ignores_nonvoters : forall cfg start ops id,
  is_Some (cm_match (cm_run (cm_new cfg start) ops) !! id) <-> In id (voters (cfg_in_force cfg ops)).
Proof. exact only_voters_counted. Qed.
Print Assumptions C07_commitment_ignores_nonvoters.

Example C07_nontrivial :
  let cur := [mkSrv 0 1 1; mkSrv 0 2 2; mkSrv 1 3 3; mkSrv 2 4 4] in
  check_config cur = true /\
  next_config cur 7 (mkReq 3 1 0 7) = Some [mkSrv 0 2 2; mkSrv 1 3 3; mkSrv 2 4 4] /\   (* remove a voter *)
  next_config cur 7 (mkReq 3 1 0 6) = None /\                                          (* stale prev *)
  next_config [mkSrv 0 1 1] 7 (mkReq 3 1 0 0) = None /\                                (* last voter *)
  next_config cur 7 (mkReq 4 4 0 0) = Some [mkSrv 0 1 1; mkSrv 0 2 2; mkSrv 1 3 3; mkSrv 0 4 4]. (* promote *)
Proof. vm_compute. repeat split. Qed.

(* Serialisation over ALL runs of one leadership (Proofs/LeaderGateSpec.v; proofs LeaderGateA.v,
   LeaderGateProofs.v).  The system is the leader-operation transition system of Model/LeaderCodec.v
   (dispatchLogs, match reports, the commitCh case, appendConfigurationEntry, restoreUserSnapshot,
   verifyLeader in any order, any number, with store failures), tied to the real leader code by
   component 8; leader_run takes an operation only while the role is Leader and a membership change only
   when configurationChangeChIfStable() would return the channel (the regenerated decision tree of that
   function is proved equal to config_gate_open below).
   The statements of Proofs/LeaderGateSpec.v as written are refuted by compiled counterexamples
   (gate_serialises_is_false: dispatchLogs handed a configuration entry directly, which no caller does;
   gate_serialises_is_false_empty_run / own_term_entries_is_false: a start state whose log holds entries
   beyond its own last index).  The corrected statements name those two conditions. *)
From RaftModel Require Import Node Leader LeaderCodec.
From RaftProofs Require Import LeaderGateSpec LeaderGateA LeaderGateProofs.

(* "a leader appends a new configuration only after the previous one is committed and after an entry of
   its own term is committed, so no log ever holds two uncommitted configurations" - the leader's part:
   whenever the gate is open the latest configuration and the first index of this leadership are at or
   below the commit index; at most one configuration entry of this leadership is above the commit index,
   it is the latest configuration, and while it is there the gate is closed *)
Theorem C07_membership_changes_serialised_all_leader_runs :
  forall P tab s0 ops ls vf,
  leader_start_ok s0 ->
  (forall i e, d_log s0 !! i = Some e -> e_ty e = LogConfiguration -> e_idx e <= last_index s0) ->
  forallb no_config_req ops = true ->
  leader_run P tab (leader_setup s0) None ops = Some (ls, vf) ->
  (config_gate_open ls = true ->
     v_latestIdx (l_node ls) <= v_commit (l_node ls) /\ last_index s0 + 1 <= v_commit (l_node ls)) /\
  (length (pending_configs (last_index s0) (l_node ls)) <= 1)%nat /\
  (forall e, In e (pending_configs (last_index s0) (l_node ls)) ->
     e_idx e = v_latestIdx (l_node ls) /\ config_gate_open ls = false).
Proof. exact gate_serialises_corrected_holds. Qed.
Print Assumptions C07_membership_changes_serialised_all_leader_runs.

(* every entry created during the leadership carries the leader's term, which does not change: the first
   index of the leadership being committed IS an entry of its own term being committed *)
Theorem C07_entries_of_a_leadership_carry_its_term :
  forall P tab s0 ops ls vf,
  leader_start_ok s0 ->
  (forall i e, d_log s0 !! i = Some e -> i <= last_index s0) ->
  leader_run P tab (leader_setup s0) None ops = Some (ls, vf) ->
  v_term (l_node ls) = v_term s0 /\
  forall i e, last_index s0 < i -> d_log (l_node ls) !! i = Some e -> e_term e = v_term s0 /\ e_idx e = i.
Proof. exact own_term_entries_corrected_holds. Qed.
Print Assumptions C07_entries_of_a_leadership_carry_its_term.

(* a change taken along any run replaces a configuration that is committed at the leader, by one that
   differs in the vote and membership of at most the server it names, and is well formed *)
Theorem C07_each_change_replaces_a_committed_configuration_by_one_server : changes_one_at_a_time.
Proof. exact changes_one_at_a_time_holds. Qed.
Print Assumptions C07_each_change_replaces_a_committed_configuration_by_one_server.

(* without the gate two configuration entries of one leadership are above the commit index *)
Theorem C07_gate_is_necessary : gate_is_necessary.
Proof. exact gate_is_necessary_holds. Qed.

Theorem C07_first_statement_needs_dispatch_discipline : ~ gate_serialises.
Proof. exact gate_serialises_is_false. Qed.

(* non-vacuity: a run with two successive membership changes is accepted *)
Example C07_serialisation_nonvacuous := gate_nonvacuous.

(* Tie 2 (translator, every run): the decision tree of configurationChangeChIfStable, regenerated from
   raft.go (Model/GenTrees.v), returns the channel exactly when Model/Leader.v config_gate_open holds, for
   every leader state - so "LConfig only with the gate open" in leader_run above is what leaderLoop does *)
From RaftModel Require Import GenTrees Trees.
From RaftProofs Require Import GenTreesSpec GenTreesProofs.
Theorem C07_regenerated_gate_is_the_model : gate_tree_agrees.
Proof. exact gate_tree_agrees_holds. Qed.
Print Assumptions C07_regenerated_gate_is_the_model.
