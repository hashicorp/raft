(* C12 — Convergence: after faults stop the cluster elects, commits and catches up.
   Statements only; proofs in Proofs/CatchupProofs.v, ReplicateProofs.v, Converge*.v.
   PARTIAL: what a theorem can carry here is the deterministic part -
   (a) catch-up makes progress on the follower: after a successful InstallSnapshot (no store
       failure) the AppendEntries that follows it is accepted whatever stale, divergent or compacted
       log the follower held (this is what the "fix:" for F3-i established; the pinned tree refuted it);
   (b) an election can be won: a candidate whose pre-vote and vote requests are granted by a
       quorum becomes leader (candidate-loop model, see C14/C01);
   (c) the leader's no-op commits everything earlier (current-term rule, C05).
   "Within a bounded number of election timeouts" depends on randomized timers and the Go
   scheduler; it is measured on real clusters (scenario family 8), not proved. *)
From Coq Require Import List NArith.
From stdpp Require Import gmap.
From RaftModel Require Import Base Config Node Replicate Converge.
From RaftProofs Require Import CatchupProofs AppendProofs ReplicateProofs ConvergeFollower ConvergeProofs ConvergeCounter.
Open Scope N_scope.

Theorem C12_snapshot_then_append_accepted : forall P s2 rt tr1 q s' r tr fs' a,
  cache_consistent s2 ->
  is_body P s2 rt tr1 [] q = Done s' r tr fs' -> snd (fst r) = true ->
  aq_prevIdx a = iq_lastIdx q -> aq_prevTerm a = iq_lastTerm q ->
  forall s'', last_entry s'' = last_entry s' -> v_lastSnapIdx s'' = v_lastSnapIdx s' ->
              v_lastSnapTerm s'' = v_lastSnapTerm s' ->
  prev_check s'' a = Some true.
Proof. exact snapshot_then_append_accepted. Qed.
Print Assumptions C12_snapshot_then_append_accepted.

Theorem C12_state_after_install : forall P s2 rt tr1 q s' r tr fs',
  cache_consistent s2 -> 0 < iq_lastIdx q ->
  is_body P s2 rt tr1 [] q = Done s' r tr fs' -> snd (fst r) = true ->
  v_lastSnapIdx s' = iq_lastIdx q /\ v_lastSnapTerm s' = iq_lastTerm q /\
  (v_lastLogIdx s' = iq_lastIdx q -> v_lastLogTerm s' = iq_lastTerm q).
Proof. exact is_body_post. Qed.
Print Assumptions C12_state_after_install.


(* the leader side (replication.go replicateTo), Model/Replicate.v: catch-up makes progress
   rather than repeating the same transfer.  A rejected AppendEntries (not a stale-term answer)
   strictly lowers nextIndex while it is above 1 - and to at most the follower's last index + 1 -
   so the same request is never sent again; at 1 the previous entry is (0,0), which the follower's
   previous-entry check always accepts (C04).  An accepted AppendEntries that carried entries raises
   nextIndex to just past what was sent and reports exactly that index to the commitment; a
   successful InstallSnapshot moves nextIndex past the snapshot. *)
Theorem C12_rejection_lowers_next_index : forall term rs snd t lastLog noRetry last pi pt es c,
  snd = SendAE pi pt es c -> t <= term -> 1 < r_next rs ->
  let rs' := fst (round_step term rs snd (FAppend t lastLog false noRetry) last) in
  1 <= r_next rs' /\ r_next rs' < r_next rs /\ r_next rs' <= lastLog + 1.
Proof. exact reject_lowers_next. Qed.
Print Assumptions C12_rejection_lowers_next_index.

Theorem C12_success_raises_next_index : forall P s rs last t lastLog noRetry pi pt es c,
  keys_ok (d_log s) -> setup_send P s (r_next rs) last = SendAE pi pt es c -> es <> [] -> t <= v_term s ->
  let rs' := fst (round_step (v_term s) rs (SendAE pi pt es c) (FAppend t lastLog true noRetry) last) in
  r_next rs < r_next rs' /\ r_next rs' = r_next rs + N.of_nat (length es) /\ r_match rs' = N.max (r_match rs) (r_next rs' - 1) /\ r_failures rs' = 0.
Proof. exact success_raises_next. Qed.
Print Assumptions C12_success_raises_next_index.

Theorem C12_snapshot_moves_next_index : forall term rs idx st t last,
  t <= term -> r_next (fst (round_step term rs (SendSnap idx st) (FSnap t true) last)) = idx + 1.
Proof. exact snapshot_moves_next. Qed.

Theorem C12_request_shape : forall P s next last pi pt es c,
  keys_ok (d_log s) -> setup_send P s next last = SendAE pi pt es c -> es <> [] ->
  (N.of_nat (length es) <= p_maxappend P \/ p_maxappend P = 0) /\ last_idx_of es <= last.
Proof. exact send_shape. Qed.


(* BOTH SIDES COMPOSED (Model/Converge.v: the leader's replicateTo against the follower's
   appendEntries handler, no store failure, no snapshot transfer): whatever log the follower holds -
   stale, divergent, longer or shorter than the leader's, hole-free, subject only to the Log Matching
   premise real histories satisfy - ONE replicateTo call ends after at most next0 + n trips with the
   follower holding the leader's term at every index 1..n, nextIndex = n+1 and n reported to the
   commitment; the handler never panics on the way. *)
Theorem C12_catch_up_converges : forall PL PF sL sF n next0,
  leader_ok PL sL n -> follower_ok (v_term sL) sF -> log_matching_premise sL sF -> 1 <= next0 <= n ->
  exists rs' sF' k,
    cu_run (N.to_nat (next0 + n) + 1) PL PF sL (mkRS next0 0 0) sF n = Some (rs', sF', k) /\
    r_next rs' = n + 1 /\ r_match rs' = n /\
    caught_up sL sF' n /\ follower_wf (v_term sL) sF' /\ n <= v_lastLogIdx sF' /\
    v_applied sF' <= N.max (v_applied sF) (v_commit sL) /\ (k <= N.to_nat (next0 + n))%nat.
Proof. exact catch_up_converges_partial. Qed.
Print Assumptions C12_catch_up_converges.

(* with the leader's commit index and the follower's applied index inside the leader's log, the
   follower's full invariant (follower_ok, incl. lastApplied <= last log index) is re-established *)
Theorem C12_catch_up_converges_bounded : forall PL PF sL sF n next0,
  leader_ok PL sL n -> follower_ok (v_term sL) sF -> log_matching_premise sL sF -> 1 <= next0 <= n ->
  v_commit sL <= n -> v_applied sF <= n ->
  exists rs' sF' k,
    cu_run (N.to_nat (next0 + n) + 1) PL PF sL (mkRS next0 0 0) sF n = Some (rs', sF', k) /\
    r_next rs' = n + 1 /\ r_match rs' = n /\
    caught_up sL sF' n /\ follower_ok (v_term sL) sF' /\ (k <= N.to_nat (next0 + n))%nat.
Proof. exact catch_up_converges_bounded. Qed.
Print Assumptions C12_catch_up_converges_bounded.

(* Non-vacuity, and the F3-i scenario itself: follower log cfg@1, (2,t2) stale; snapshot (2,t3);
   TrailingLogs 0: installed, then AppendEntries prev=(2,t3) with entry 3 succeeds. *)
Example C12_nontrivial :
  let cfg := [mkSrv 0 1 1; mkSrv 0 2 2; mkSrv 0 3 3] in
  let P := mkP 1 false false false 0 4 (fun _ => cfg) in
  let m := log_store ∅ [mkE 1 1 5 9000; mkE 2 2 0 202] in
  let s := mkNS 3 0 None m 0 0 [] 0 3 0 0 2 2 0 0 cfg 1 [] 0 0 0 false [] (0, 0) in
  match install_snapshot P s [] (mkIReq 3 3 3 2 3 cfg 1 [302] false) with
  | Done s' (_, ok, _) _ _ =>
    ok = true /\
    match append_entries P s' [] (mkAReq 3 3 3 2 3 [mkE 3 3 0 303] 3) with
    | Done s'' r _ _ => ar_success r = true /\ d_log s'' !! 3 = Some (mkE 3 3 0 303) /\ v_fsm s'' = [302; 303]
    | Panic _ _ => False
    end
  | Panic _ _ => False
  end.
Proof. vm_compute. repeat split. Qed.
