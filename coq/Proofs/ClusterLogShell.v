(* ClusterLogShell.v — the cluster-level part of a Log Matching invariant, once, for every family of per-server
   invariants.  One section over a ghost-history condition CP, a per-server predicate NP and a predicate RQ on the
   contents of a request, all kept when the history grows:
   - the record `shell` (ginv, CP, NP and lead_ok of every server, where the terms of the history come from, the past of
     every recorded leadership, every request sent by a recorded leader and RQ);
   - shell_update: one server is replaced while leaders, history and network grow; its special cases (a handler ran, a
     non-leader changed, a leader changed outside its stores, a request was sent);
   - over NP_append, NP_quit (what dispatchLogs of one entry does to NP: ClusterLogLeader.dispatch_one_cases) and NP_keep (NP reads no field outside
     NodeFrame.rest but the term): a leader stores one entry - dispatchLogs, the no-op of a new leader, with the extended history explicit
     and the new leader's term fresh -, a step of runCandidate (shell_cand_move over ClusterProofs.cand_move: the
     election timer, a vote response);
   - over NP_event, NP_deliver, NP_send, RQ_hb (one input at one server, a delivered request, a request built): the
     handlers, and shell_lstep: every step of lstep keeps the shell; who can be Leader afterwards is
     NodeStep.step_role_kept / deliver_role_kept, for no invariant.
   The hypotheses enter at five places of the section, each just before its first user: NP_mono, RQ_mono at the head;
   NP_append before shell_append; NP_quit before shell_propose; NP_keep before shell_keep; and before the handlers the
   set EV of inputs the step relation admits (EV_vote: vote requests are among them; EV_quiet: none of them is a
   delivered AppendEntries or InstallSnapshot, or electSelf - those have lemmas of their own) with NP_event, NP_deliver, NP_send,
   RQ_hb.  shell_lstep takes all of them, in that order.
   The records linv (Proofs/ClusterLogInv.v) and zlinv (Proofs/ClusterCommitSnapLinv.v) are the shell at their per-server
   predicates, field for field (linv_shell, zlinv_shell); sinv (Proofs/ClusterLogSnapInv.v) and ylinv (Proofs/ClusterSnapLMMain.v) are defined as instances. *)
From Coq Require Import List NArith Bool Lia.
From stdpp Require Import gmap.
From RaftModel Require Import Base Config Node NodeCodec Candidate Leader Replicate Cluster ClusterLog.
From RaftProofs Require Import VoteProofs ClusterProofs ClusterStepInv ClusterLogChain ClusterLogNode ClusterLogLeader
  ClusterLogInv.
From RaftProofs Require Export NodeStep.
Open Scope N_scope.

(* a request in flight: sent by a recorded leader of its term to another server; RQ is what is asked of its contents *)
Definition rmsg (RQ : chain -> areq -> Prop) (g : gstate) (C : chain) (m : amsg) : Prop :=
  am_from m <> am_to m /\ In (aq_term (am_req m), am_from m) (g_leaders g) /\ RQ C (am_req m).

Section Shell.
  Variable cfgs : list config.
  Hypothesis HQ : quorums_intersect cfgs.
  Variable CP : chain -> Prop.
  Variable NP : chain -> params -> nrun -> Prop.
  Variable RQ : chain -> areq -> Prop.
  Hypothesis NP_mono : forall C C' P r, incl C C' -> NP C P r -> NP C' P r.
  Hypothesis RQ_mono : forall C C' a, incl C C' -> RQ C a -> RQ C' a.

  Record shell (g : lgstate) (C : chain) : Prop := {
    sh_g : ginv cfgs (lg_g g);
    sh_chain : CP C;
    sh_nodes : forall n, In n (g_nodes (lg_g g)) -> NP C (gn_P n) (gn_run n) /\ lead_ok (lg_g g) C n;
    sh_src : forall e p, In (e, p) C -> term_src (lg_g g) (e_term e);
    sh_leaders : forall T i, In (T, i) (g_leaders (lg_g g)) -> leader_rec_ok (lg_g g) T i;
    sh_msgs : forall m, In m (lg_msgs g) -> rmsg RQ (lg_g g) C m;
  }.

  Lemma shell_update g g' C C' j n n' :
    shell g C -> ginv cfgs (lg_g g') ->
    find_node (g_nodes (lg_g g)) j = Some n -> gn_id n' = j ->
    g_nodes (lg_g g') = upd_node (g_nodes (lg_g g)) j n' ->
    incl (g_leaders (lg_g g)) (g_leaders (lg_g g')) ->
    (forall T i, In (T, i) (g_leaders (lg_g g')) ->
       In (T, i) (g_leaders (lg_g g)) \/ (i = j /\ T <= dt n' /\ gn_sess n' = None)) ->
    incl C C' -> CP C' ->
    (forall x p, In (x, p) C' -> In (x, p) C \/ In (e_term x, j) (g_leaders (lg_g g'))) ->
    dt n <= dt n' -> sess_step_ok n n' ->
    NP C' (gn_P n') (gn_run n') -> lead_ok (lg_g g') C' n' ->
    (forall m, In m (lg_msgs g') -> In m (lg_msgs g) \/ rmsg RQ (lg_g g') C' m) ->
    shell g' C'.
  Proof.
    intros [Hg HC Hnodes Hsrc Hlead Hmsgs] Hg' Hfind Hid' Hn' Hlinc Hlnew Hcinc HC' Hcnew Hdt Hsess Hnl' Hlo' Hm'.
    destruct (find_node_in _ _ _ Hfind) as [Hin Hidn].
    assert (Hcases : forall x, In x (g_nodes (lg_g g')) -> x = n' \/ (In x (g_nodes (lg_g g)) /\ gn_id x <> j)).
    { intros x Hx. rewrite Hn' in Hx. destruct (upd_node_in _ _ _ _ Hx) as [[-> _]|H]; auto. }
    (* bounds known for n carry over to n' *)
    assert (Hcarry : forall T, (T <= dt n /\ forall se, gn_sess n = Some se -> T < vq_term (se_req se)) ->
              T <= dt n' /\ forall se, gn_sess n' = Some se -> T < vq_term (se_req se)).
    { intros T [A B]. split; [lia|]. intros se' Hse'. destruct (Hsess se' Hse') as [(se & Hse & E)|Hlt].
      - rewrite E. apply B, Hse.
      - lia. }
    constructor.
    - exact Hg'.
    - exact HC'.
    - intros x Hx. destruct (Hcases x Hx) as [->|[Hxo Hxid]]; [auto|].
      destruct (Hnodes x Hxo) as [A B]. split; [eapply NP_mono; eauto|].
      intros s Hs Hr. destruct (B s Hs Hr) as (B1 & B2 & B3).
      split; [apply Hlinc, B1|]. split; [exact B2|].
      intros y p Hy Hty. destruct (Hcnew y p Hy) as [Hold|Hnew]; [apply (B3 y p Hold Hty)|].
      (* a new entry of x's term would make j a second leader of that term *)
      exfalso. apply Hxid. rewrite Hty in Hnew.
      apply (leaders_fun cfgs (lg_g g') (v_term s) (gn_id x) j HQ Hg'); [apply Hlinc, B1|exact Hnew].
    - intros e p He. destruct (Hcnew e p He) as [Hold|Hnew]; [|left; eauto].
      destruct (Hsrc e p Hold) as [(id & Hl)|Hd]; [left; exists id; apply Hlinc, Hl|right].
      intros x Hx. destruct (Hcases x Hx) as [->|[Hxo _]]; [apply Hcarry, Hd, Hin|apply Hd, Hxo].
    - intros T i Hl x Hx Hxi. destruct (Hlnew T i Hl) as [Hold|(-> & Ht & Hs)].
      + destruct (Hcases x Hx) as [->|[Hxo _]]; [|apply (Hlead T i Hold x Hxo Hxi)].
        apply Hcarry. apply (Hlead T i Hold n Hin). congruence.
      + destruct (Hcases x Hx) as [->|[_ Hne]]; [|contradiction].
        split; [exact Ht|]. intros se Hse. congruence.
    - intros m Hm. destruct (Hm' m Hm) as [Hold|Hnew]; [|exact Hnew].
      destruct (Hmsgs m Hold) as (A & B & D). split; [exact A|]. split; [apply Hlinc, B|eapply RQ_mono; eauto].
  Qed.

  (* one server changes; the leaders, the history and the network do not *)
  Lemma shell_node g C g1 j n n' :
    shell g C -> ginv cfgs g1 -> find_node (g_nodes (lg_g g)) j = Some n -> gn_id n' = j ->
    g_nodes g1 = upd_node (g_nodes (lg_g g)) j n' -> g_leaders g1 = g_leaders (lg_g g) ->
    dt n <= dt n' -> sess_step_ok n n' -> NP C (gn_P n') (gn_run n') -> lead_ok g1 C n' ->
    shell (mkLG g1 (lg_msgs g)) C.
  Proof.
    intros Hinv Hg1 Hfind Hid Hn1 Hl1 Hdt Hsess Hnl Hlo.
    apply (shell_update g (mkLG g1 (lg_msgs g)) C C j n n' Hinv Hg1 Hfind Hid Hn1); auto; simpl; rewrite ?Hl1.
    - apply incl_refl.
    - intros T i H. left. exact H.
    - apply incl_refl.
    - apply (sh_chain g C Hinv).
  Qed.

  Lemma shell_leader g C i n s : shell g C -> find_node (g_nodes (lg_g g)) i = Some n -> gn_run n = Up s ->
    v_role s = Leader -> In (v_term s, i) (g_leaders (lg_g g)).
  Proof.
    intros Hinv Hfind Hrun Hrole. destruct (find_node_in _ _ _ Hfind) as [Hin Hid].
    destruct (sh_nodes g C Hinv n Hin) as [_ Hlo]. destruct (Hlo s Hrun Hrole) as (L1 & _). rewrite <- Hid. exact L1.
  Qed.

  (* a handler ran at server j *)
  Lemma shell_handler g C j nj e cut fs r' ob out g1 :
    shell g C -> find_node (g_nodes (lg_g g)) j = Some nj ->
    step_full (gn_P nj) (gn_run nj) e cut fs = (r', ob, out) -> ginv cfgs g1 ->
    let nj' := mkGN (gn_P nj) r' (keep_sess r' (gn_sess nj)) (gn_next nj) in
    g_nodes g1 = upd_node (g_nodes (lg_g g)) j nj' -> g_leaders g1 = g_leaders (lg_g g) ->
    NP C (gn_P nj) r' -> role_kept (gn_run nj) r' -> shell (mkLG g1 (lg_msgs g)) C.
  Proof.
    intros Hinv Hfind Hstep Hg1 nj' Hn1 Hl1 Hnl Hrole.
    destruct (find_node_in _ _ _ Hfind) as [Hin Hidn].
    apply (shell_node g C g1 j nj nj' Hinv Hg1 Hfind Hidn Hn1 Hl1).
    - apply (vmove_step _ _ _ _ _ _ _ _ (ginv_wfr (sh_g g C Hinv) Hin) Hstep).
    - intros se' Hse'. left. simpl in Hse'. unfold keep_sess in Hse'.
      destruct r' as [s'|s']; [|discriminate]. destruct (gn_sess nj) as [se|]; [|discriminate].
      destruct (v_role s' =? Candidate); [|discriminate]. inversion Hse'; subst. eauto.
    - exact Hnl.
    - intros s' Hs' Hr. simpl in Hs'. destruct (Hrole s' Hs' Hr) as (s & Hs & Hrs & Hts & His).
      destruct (sh_nodes g C Hinv nj Hin) as [_ Hlo]. destruct (Hlo s Hs Hrs) as (L1 & L2 & L3).
      rewrite Hl1. change (gn_id nj') with (gn_id nj).
      rewrite Hts, His. split; [exact L1|]. split; [|exact L3].
      simpl. rewrite L2. subst r'. reflexivity.
  Qed.

  (* a server changed and is not Leader afterwards *)
  Lemma shell_plain g C g1 j n s s' sess' next' :
    shell g C -> ginv cfgs g1 ->
    find_node (g_nodes (lg_g g)) j = Some n -> gn_run n = Up s ->
    g_nodes g1 = upd_node (g_nodes (lg_g g)) j (mkGN (gn_P n) (Up s') sess' next') ->
    g_leaders g1 = g_leaders (lg_g g) ->
    NP C (gn_P n) (Up s') -> d_term s <= d_term s' -> v_role s' <> Leader ->
    (forall se, sess' = Some se ->
       (exists se0, gn_sess n = Some se0 /\ vq_term (se_req se) = vq_term (se_req se0)) \/ d_term s < vq_term (se_req se)) ->
    shell (mkLG g1 (lg_msgs g)) C.
  Proof.
    intros Hinv Hg1 Hfind Hrun Hn1 Hl1 Hn' Hdt Hrole Hsess.
    destruct (find_node_in _ _ _ Hfind) as [Hin Hid].
    apply (shell_node g C g1 j n (mkGN (gn_P n) (Up s') sess' next') Hinv Hg1 Hfind Hid Hn1 Hl1).
    - unfold dt. simpl. rewrite Hrun. exact Hdt.
    - intros se Hse. simpl in Hse. unfold dt. rewrite Hrun. simpl. apply Hsess, Hse.
    - exact Hn'.
    - intros s0 Hs0 Hr. simpl in Hs0. inversion Hs0; subst. contradiction.
  Qed.

  (* the state of a Leader changes in its volatile part only, its cached last index stays *)
  Lemma shell_volatile g C i n s s' :
    shell g C -> find_node (g_nodes (lg_g g)) i = Some n -> gn_run n = Up s -> v_role s = Leader ->
    dproj s' = dproj s -> v_term s' = v_term s -> v_lastLogIdx s' = v_lastLogIdx s ->
    NP C (gn_P n) (Up s') ->
    shell (mkLG (set_node_run (lg_g g) i n (Up s')) (lg_msgs g)) C.
  Proof.
    intros Hinv Hfind Hrun Hrole Hd Ht Hli Hn'.
    destruct (find_node_in _ _ _ Hfind) as [Hin Hid].
    destruct (sh_nodes g C Hinv n Hin) as [_ Hlo]. destruct (Hlo s Hrun Hrole) as (L1 & L2 & L3).
    pose proof (ginv_set_run cfgs (lg_g g) i n s s' (sh_g g C Hinv) Hfind Hrun L2 Hd Ht) as Hg'.
    unfold set_node_run in *. rewrite L2 in *. cbn [keep_sess] in *.
    apply (shell_node g C _ i n (mkGN (gn_P n) (Up s') None (gn_next n)) Hinv Hg' Hfind Hid eq_refl eq_refl).
    - unfold dt. rewrite Hrun. simpl. unfold dproj in Hd. inversion Hd. lia.
    - intros se Hse. discriminate.
    - exact Hn'.
    - intros s0 Hs0 Hr0. cbn [gn_run] in Hs0. inversion Hs0; subst s0.
      change (gn_id (mkGN (gn_P n) (Up s') None (gn_next n))) with (gn_id n). cbn [gn_sess g_leaders].
      rewrite Ht, Hli. split; [exact L1|]. split; [reflexivity|exact L3].
  Qed.

  (* a server in role Leader puts a request into the network *)
  Lemma shell_send g C i n s m :
    shell g C -> find_node (g_nodes (lg_g g)) i = Some n -> gn_run n = Up s -> v_role s = Leader ->
    am_from m = i -> am_from m <> am_to m -> aq_term (am_req m) = v_term s -> RQ C (am_req m) ->
    shell (mkLG (lg_g g) (lg_msgs g ++ [m])) C.
  Proof.
    intros Hinv Hfind Hrun Hrole Hfrom Hne Hterm Hrq. pose proof (shell_leader g C i n s Hinv Hfind Hrun Hrole) as Hl.
    destruct Hinv as [A B D E F G]. constructor; auto.
    intros m' Hm'. simpl in Hm'. apply in_app_iff in Hm'. destruct Hm' as [Hm'|[<-|[]]]; [apply G, Hm'|].
    split; [exact Hne|]. split; [rewrite Hterm, Hfrom; exact Hl|exact Hrq].
  Qed.

  (* a server whose entries of its own term lie at or below its cached last index stored one entry: the history grows
     by that entry, after getLastEntry *)
  Hypothesis NP_append : forall C P s s' ty data, CP C -> NP C P (Up s) -> v_term s = d_term s ->
    (forall x p, In (x, p) C -> e_term x = v_term s -> e_idx x <= v_lastLogIdx s) ->
    appended P s s' (new_entry s ty data) ->
    CP ((new_entry s ty data, last_entry s) :: C) /\ NP ((new_entry s ty data, last_entry s) :: C) P (Up s').

  (* the server j, recorded as leader of the term of sL (its state after what the step did before), stores one entry
     after its last: the history grows by that entry *)
  Lemma shell_append g C g1 j n s sL ty data fs next' :
    shell g C -> ginv cfgs g1 ->
    find_node (g_nodes (lg_g g)) j = Some n -> gn_run n = Up s -> fst (next_fail fs) = false ->
    let s' := l_node (fst (fst (fst (dispatch (gn_P n) (leader_setup sL) fs [(ty, data, 0)])))) in
    g_nodes g1 = upd_node (g_nodes (lg_g g)) j (mkGN (gn_P n) (Up s') None next') ->
    incl (g_leaders (lg_g g)) (g_leaders g1) ->
    (forall T i, In (T, i) (g_leaders g1) -> In (T, i) (g_leaders (lg_g g)) \/ (i = j /\ T <= d_term sL)) ->
    In (v_term sL, j) (g_leaders g1) ->
    NP C (gn_P n) (Up sL) -> d_term s <= d_term sL -> v_term sL = d_term sL ->
    (forall x p, In (x, p) C -> e_term x = v_term sL -> e_idx x <= v_lastLogIdx sL) ->
    shell (mkLG g1 (lg_msgs g)) ((new_entry sL ty data, last_entry sL) :: C).
  Proof.
    intros Hinv Hg1 Hfind Hrun Hok s' Hn1 Hlinc Hlnew HL HnL Hdt Hvt Hown.
    destruct (find_node_in _ _ _ Hfind) as [Hin Hid].
    pose proof (dispatch_one_cases (gn_P n) sL fs ty data 0) as Hc. cbv zeta in Hc. rewrite Hok in Hc. fold s' in Hc.
    destruct (NP_append C (gn_P n) sL s' ty data (sh_chain g C Hinv) HnL Hvt Hown Hc) as [HC' Hn'].
    pose proof (ap_dterm Hc) as Dt. pose proof (ap_term Hc) as Dv. pose proof (ap_lastIdx Hc) as Dci.
    assert (Hll : v_lastLogIdx sL <= last_index sL) by (unfold last_index; lia).
    apply (shell_update g (mkLG g1 (lg_msgs g)) C _ j n (mkGN (gn_P n) (Up s') None next') Hinv Hg1 Hfind Hid Hn1).
    - exact Hlinc.
    - intros T i Hi. destruct (Hlnew T i Hi) as [H|[-> H]]; [left; exact H|right].
      split; [reflexivity|]. split; [|reflexivity]. unfold dt. simpl. rewrite Dt. exact H.
    - intros x Hx. right. exact Hx.
    - exact HC'.
    - intros x p [E|H]; [|left; exact H]. inversion E; subst x p. right. exact HL.
    - unfold dt. simpl. rewrite Hrun, Dt. exact Hdt.
    - intros se Hse. discriminate.
    - exact Hn'.
    - intros s0 Hs0 Hr. simpl in Hs0. inversion Hs0; subst s0. simpl. rewrite Dv.
      change (gn_id (mkGN (gn_P n) (Up s') None next')) with (gn_id n). rewrite Hid.
      split; [exact HL|]. split; [reflexivity|].
      intros x p [E|H] Ht.
      + inversion E; subst. rewrite Dci. simpl. lia.
      + pose proof (Hown x p H Ht). rewrite Dci. lia.
    - intros m Hm. left. exact Hm.
  Qed.

  (* dispatchLogs stored the entry *)
  Lemma shell_propose_ok g C i n s ty data fs :
    shell g C -> find_node (g_nodes (lg_g g)) i = Some n -> gn_run n = Up s -> v_role s = Leader ->
    fst (next_fail fs) = false ->
    let s' := l_node (fst (fst (fst (dispatch (gn_P n) (leader_setup s) fs [(ty, data, 0)])))) in
    shell (mkLG (set_node_run (lg_g g) i n (Up s')) (lg_msgs g)) ((new_entry s ty data, last_entry s) :: C).
  Proof.
    intros Hinv Hfind Hrun Hrole Hok. cbv zeta.
    destruct (find_node_in _ _ _ Hfind) as [Hin Hid].
    pose proof (dispatch_one_cases (gn_P n) s fs ty data 0) as Hc. cbv zeta in Hc. rewrite Hok in Hc.
    set (s' := l_node (fst (fst (fst (dispatch (gn_P n) (leader_setup s) fs [(ty, data, 0)]))))) in *.
    pose proof (ap_dproj Hc) as Dd. pose proof (ap_term Hc) as Dv.
    destruct (sh_nodes g C Hinv n Hin) as [Hnl Hlo]. destruct (Hlo s Hrun Hrole) as (L1 & L2 & L3). rewrite Hrun in Hnl.
    pose proof (ginv_wfr (sh_g g C Hinv) Hin) as Hw. rewrite Hrun in Hw. destruct Hw as [_ Hvt].
    pose proof (ginv_set_run cfgs (lg_g g) i n s s' (sh_g g C Hinv) Hfind Hrun L2 Dd Dv) as Hg1.
    unfold set_node_run in *. rewrite L2 in *. cbn [keep_sess] in *.
    apply (shell_append g C _ i n s s ty data fs (gn_next n) Hinv Hg1 Hfind Hrun Hok eq_refl);
      [apply incl_refl|intros T k H; left; exact H|cbn [g_leaders]; rewrite <- Hid; exact L1|exact Hnl|apply N.le_refl|exact Hvt|exact L3].
  Qed.

  (* runLeader: the server is recorded as leader of its term, which is fresh, and stores the no-op *)
  Lemma shell_become g C g1 j n s sL next' :
    shell g C -> ginv cfgs g1 ->
    find_node (g_nodes (lg_g g)) j = Some n -> gn_run n = Up s ->
    g_nodes g1 = upd_node (g_nodes (lg_g g)) j (mkGN (gn_P n) (Up (become_leader (gn_P n) sL)) None next') ->
    g_leaders g1 = (v_term sL, j) :: g_leaders (lg_g g) ->
    NP C (gn_P n) (Up sL) -> d_term s <= d_term sL -> v_term sL = d_term sL ->
    (forall T', T' <= dt n -> (forall se, gn_sess n = Some se -> T' < vq_term (se_req se)) -> T' <> v_term sL) ->
    shell (mkLG g1 (lg_msgs g)) ((new_entry sL LogNoop 0, last_entry sL) :: C) /\
    (forall x p, In (x, p) C -> e_term x <> v_term sL) /\
    (forall T c, In (T, c) (g_leaders (lg_g g)) -> T <> v_term sL).
  Proof.
    intros Hinv Hg1 Hfind Hrun Hn1 Hl1 HnL Hdt Hvt Hfresh.
    destruct (find_node_in _ _ _ Hfind) as [Hin Hid].
    assert (Hnol : forall T c, In (T, c) (g_leaders (lg_g g)) -> T <> v_term sL).
    { intros T c Hl Ht. subst T. assert (c = j).
      { apply (leaders_fun cfgs g1 (v_term sL) c j HQ Hg1); rewrite Hl1; [right; exact Hl|left; reflexivity]. }
      subst c. destruct (sh_leaders g C Hinv _ _ Hl n Hin Hid) as [A B]. apply (Hfresh (v_term sL) A B eq_refl). }
    assert (Hnone : forall x p, In (x, p) C -> e_term x <> v_term sL).
    { intros x p Hx Ht. destruct (sh_src g C Hinv x p Hx) as [(id & Hl)|Hdead].
      - apply (Hnol _ _ Hl Ht).
      - destruct (Hdead n Hin) as [A B]. apply (Hfresh (e_term x) A B Ht). }
    split; [|split; [exact Hnone|exact Hnol]].
    apply (shell_append g C g1 j n s sL LogNoop 0 [] next' Hinv Hg1 Hfind Hrun eq_refl Hn1); auto.
    - rewrite Hl1. apply incl_tl, incl_refl.
    - rewrite Hl1. intros T i [E|H]; [inversion E; subst; right; split; [reflexivity|lia]|left; exact H].
    - rewrite Hl1. left. reflexivity.
    - intros x p Hx Ht. destruct (Hnone x p Hx Ht).
  Qed.

  (* StoreLogs failed *)
  Hypothesis NP_quit : forall C P s, NP C P (Up s) -> NP C P (Up (quit_leader s (if p_track P then v_commit s else d_staged s))).

  (* dispatchLogs of one entry at leader i; after a failed StoreLogs the leader steps down *)
  Lemma shell_propose sn g C i ty data fs g' :
    shell g C -> lstep sn cfgs g (LPropose i ty data fs) = Some g' -> exists C', shell g' C'.
  Proof.
    intros Hinv Hstep.
    destruct (lstep_propose_inv _ _ _ _ _ _ _ _ Hstep) as (n & s & ls' & res & tr & fs' & Hfind & Hrun & Hrole & Hdis & ->).
    destruct (find_node_in _ _ _ Hfind) as [Hin Hid].
    pose proof (shell_propose_ok g C i n s ty data fs Hinv Hfind Hrun Hrole) as Hok.
    pose proof (dispatch_one_cases (gn_P n) s fs ty data 0) as Hc.
    cbv zeta in Hok, Hc. rewrite Hdis in Hok, Hc. cbn [fst] in Hok, Hc.
    destruct (fst (next_fail fs)); [|eexists; apply Hok; reflexivity].
    destruct (sh_nodes g C Hinv n Hin) as [Hnl _]. rewrite Hrun in Hnl.
    exists C. rewrite Hc. apply (shell_volatile g C i n s _ Hinv Hfind Hrun Hrole); try reflexivity. apply NP_quit, Hnl.
  Qed.

  Hypothesis NP_keep : forall C P s s', NP C P (Up s) -> rest s' = rest s -> d_term s <= d_term s' -> NP C P (Up s').

  Lemma shell_keep g C g1 j n s s' sess' next' :
    shell g C -> ginv cfgs g1 ->
    find_node (g_nodes (lg_g g)) j = Some n -> gn_run n = Up s ->
    g_nodes g1 = upd_node (g_nodes (lg_g g)) j (mkGN (gn_P n) (Up s') sess' next') ->
    g_leaders g1 = g_leaders (lg_g g) ->
    rest s' = rest s -> d_term s <= d_term s' -> v_role s' <> Leader ->
    (forall se, sess' = Some se ->
       (exists se0, gn_sess n = Some se0 /\ vq_term (se_req se) = vq_term (se_req se0)) \/ d_term s < vq_term (se_req se)) ->
    shell (mkLG g1 (lg_msgs g)) C.
  Proof.
    intros Hinv Hg1 Hfind Hrun Hn1 Hl1 Hk Hdt. destruct (find_node_in _ _ _ Hfind) as [Hin _].
    destruct (sh_nodes g C Hinv n Hin) as [Hnl _]. rewrite Hrun in Hnl.
    apply (shell_plain g C g1 j n s s' sess' next' Hinv Hg1 Hfind Hrun Hn1 Hl1); [eapply NP_keep; eauto|exact Hdt].
  Qed.

  (* runCandidate took a step at i: back to Follower or still in the loop, or recorded as leader of a fresh term *)
  Lemma shell_cand_move g C g1 i n s ev n' ls E :
    shell g C -> ginv cfgs g1 -> find_node (g_nodes (lg_g g)) i = Some n -> gn_run n = Up s ->
    cand_move n s ev n' ls E ->
    g_nodes g1 = upd_node (g_nodes (lg_g g)) i n' -> g_leaders g1 = ls ++ g_leaders (lg_g g) ->
    exists C', shell (mkLG g1 (lg_msgs g)) C'.
  Proof.
    intros Hinv Hg1 Hfind Hrun Hm Hn1 Hl1. destruct (find_node_in _ _ _ Hfind) as [Hin Hid].
    destruct (sh_nodes g C Hinv n Hin) as [Hnl Hlo]. rewrite Hrun in Hnl.
    destruct Hm as [sF Hk _ Hlt Hrole _|sc se' nx' E Hcc _|sc se' nx' E sL Hcc _ HkL HdL HvL _];
      [|destruct (cand_count_term cfgs _ n s ev sc se' nx' E (sh_g g C Hinv) Hin Hrun Hcc) as (Hk & [_ Hvc] & Hle & Hrq & Hnew)..].
    - exists C. apply (shell_keep g C g1 i n s sF None _ Hinv Hg1 Hfind Hrun Hn1 Hl1 Hk); [lia|rewrite Hrole; discriminate|discriminate].
    - exists C. apply (shell_keep g C g1 i n s sc (Some se') nx' Hinv Hg1 Hfind Hrun Hn1 Hl1 Hk).
      + exact Hle.
      + destruct Hnew as [[_ Hrole]|(-> & se0 & H0 & _)]; [rewrite Hrole; discriminate|].
        intros Hr. destruct (Hlo s Hrun Hr) as (_ & Hn & _). congruence.
      + intros se Hse. inversion Hse; subst se. destruct Hnew as [[Hlt _]|(_ & se0 & H0 & Hreq)]; [right; lia|left; exists se0; rewrite Hreq; auto].
    - destruct (dproj_eq _ _ HdL) as (HdtL & _). rewrite <- HvL, Hid in Hl1.
      eexists. apply (shell_become g C g1 i n s sL nx' Hinv Hg1 Hfind Hrun Hn1 Hl1).
      + apply (NP_keep C (gn_P n) s sL Hnl); [congruence|lia].
      + lia.
      + lia.
      + intros T' HT' Hse. unfold dt in HT'. rewrite Hrun in HT'. cbn [image] in HT'.
        destruct Hnew as [[Hlt _]|(_ & se0 & H0 & Hreq)]; [lia|]. specialize (Hse se0 H0). rewrite <- Hreq in Hse. lia.
  Qed.

  Lemma shell_timeout g C i g1 :
    shell g C -> gstep cfgs (lg_g g) (GTimeout i) = Some g1 -> exists C', shell (mkLG g1 (lg_msgs g)) C'.
  Proof.
    intros Hinv Hstep. pose proof (gstep_inv cfgs _ _ _ (sh_g g C Hinv) Hstep) as Hg1.
    destruct (gstep_timeout_move _ _ _ _ Hstep) as (n & s & Hfind & Hrun & _ & _ & Hm).
    pose proof (ginv_wfr (sh_g g C Hinv) (proj1 (find_node_in _ _ _ Hfind))) as Hw. rewrite Hrun in Hw.
    destruct (Hm Hw) as (n' & ls & E & Hcm & ->). apply (shell_cand_move g C _ i n s None n' ls E Hinv Hg1 Hfind Hrun Hcm); reflexivity.
  Qed.

  Lemma shell_voteresp g C i j g1 :
    shell g C -> gstep cfgs (lg_g g) (GVoteResp i j) = Some g1 -> exists C', shell (mkLG g1 (lg_msgs g)) C'.
  Proof.
    intros Hinv Hstep. pose proof (gstep_inv cfgs _ _ _ (sh_g g C Hinv) Hstep) as Hg1.
    destruct (gstep_voteresp_move _ _ _ _ _ Hstep) as (n & s & se & rp & Hfind & Hrun & Hse & _ & _ & Hm).
    destruct (find_node_in _ _ _ Hfind) as [Hin _].
    destruct (ginv_sess cfgs _ n se (sh_g g C Hinv) Hin Hse) as (s0 & _ & _ & E4 & _).
    pose proof (ginv_wfr (sh_g g C Hinv) Hin) as Hw. rewrite Hrun in Hw.
    destruct (Hm E4 Hw) as (n' & ls & Hcm & ->). apply (shell_cand_move g C _ i n s _ n' ls [] Hinv Hg1 Hfind Hrun Hcm); reflexivity.
  Qed.

  (* the handler of e ran at j *)
  Lemma shell_ginput g C j e cut fs g1 :
    shell g C -> gstep cfgs (lg_g g) (GInput j e cut fs) = Some g1 ->
    (forall nj r' ob out, find_node (g_nodes (lg_g g)) j = Some nj ->
       step_full (gn_P nj) (gn_run nj) e cut fs = (r', ob, out) -> NP C (gn_P nj) r' /\ role_kept (gn_run nj) r') ->
    shell (mkLG g1 (lg_msgs g)) C.
  Proof.
    intros Hinv Hstep Hpost.
    pose proof (gstep_inv cfgs _ _ _ (sh_g g C Hinv) Hstep) as Hg1.
    destruct (gstep_input_inv _ _ _ _ _ _ _ Hstep) as (nj & r' & ob & out & Hfj & Hsf & -> & _).
    destruct (Hpost nj r' ob out Hfj Hsf) as [Hnl Hrole].
    exact (shell_handler g C j nj e cut fs r' ob out _ Hinv Hfj Hsf Hg1 eq_refl eq_refl Hnl Hrole).
  Qed.

  (* a request of the recorded leader `from` of term T reaches another server j: j is not Leader of that term *)
  Lemma shell_other_leader g C T from j nj s : shell g C -> In (T, from) (g_leaders (lg_g g)) -> from <> j ->
    find_node (g_nodes (lg_g g)) j = Some nj -> gn_run nj = Up s -> v_role s = Leader -> T <> v_term s.
  Proof.
    intros Hinv Hld Hne Hfj Hrun Hr Ht. apply Hne. subst T.
    apply (leaders_fun cfgs (lg_g g) _ _ _ HQ (sh_g g C Hinv) Hld (shell_leader g C j nj s Hinv Hfj Hrun Hr)).
  Qed.

  (* EV: the inputs that NP survives at any server at any time *)
  Variable EV : nevent -> Prop.
  Hypothesis EV_vote : forall q, EV (NVote q).
  Hypothesis EV_quiet : forall e, EV e -> quiet_event e.
  Hypothesis NP_event : forall C P r e cut fs r' ob out, CP C -> wfr r -> NP C P r -> EV e ->
    step_full P r e cut fs = (r', ob, out) -> NP C P r'.
  Hypothesis NP_deliver : forall C P s a cut fs r' ob out, CP C -> wfr (Up s) -> NP C P (Up s) -> RQ C a ->
    step_full P (Up s) (NAppend a) cut fs = (r', ob, out) -> NP C P r'.
  Hypothesis NP_send : forall C P s next last pi pt es c i, CP C -> NP C P (Up s) -> v_term s = d_term s -> 1 <= next ->
    setup_send P s next last = SendAE pi pt es c -> RQ C (mkAReq (v_term s) i i pi pt es c).
  Hypothesis RQ_hb : forall C T i, RQ C (mkAReq T i i 0 0 [] 0).

  Lemma shell_node_event g C nj e cut fs r' ob out : shell g C -> In nj (g_nodes (lg_g g)) -> EV e ->
    step_full (gn_P nj) (gn_run nj) e cut fs = (r', ob, out) -> NP C (gn_P nj) r' /\ role_kept (gn_run nj) r'.
  Proof.
    intros Hinv Hin He Hsf. pose proof (ginv_wfr (sh_g g C Hinv) Hin) as Hw.
    split; [|apply (step_role_kept (gn_P nj) (gn_run nj) e cut fs r' ob out Hw (EV_quiet e He) Hsf)].
    apply (NP_event C (gn_P nj) (gn_run nj) e cut fs r' ob out (sh_chain g C Hinv) Hw); [|exact He|exact Hsf].
    apply (sh_nodes g C Hinv nj Hin).
  Qed.

  (* the RequestVote of i's invocation is executed by j *)
  Lemma shell_votereq g C i j cut fs g1 :
    shell g C -> gstep cfgs (lg_g g) (GVoteReq i j cut fs) = Some g1 -> shell (mkLG g1 (lg_msgs g)) C.
  Proof.
    intros Hinv Hstep.
    pose proof (gstep_inv cfgs _ _ _ (sh_g g C Hinv) Hstep) as Hg1.
    destruct (gstep_votereq_inv _ _ _ _ _ _ _ Hstep) as (ni & nj & se & r' & ob & out & _ & Hfj & _ & _ & Hsf & ->).
    destruct (find_node_in _ _ _ Hfj) as [Hin _].
    destruct (shell_node_event g C nj _ cut fs r' ob out Hinv Hin (EV_vote _) Hsf) as [Hnl Hrole].
    exact (shell_handler g C j nj _ cut fs r' ob out _ Hinv Hfj Hsf Hg1 eq_refl eq_refl Hnl Hrole).
  Qed.

  (* a request in flight is executed by its target *)
  Lemma shell_deliver g C m cut fs g1 : shell g C -> In m (lg_msgs g) ->
    gstep cfgs (lg_g g) (GInput (am_to m) (NAppend (am_req m)) cut fs) = Some g1 -> shell (mkLG g1 (lg_msgs g)) C.
  Proof.
    intros Hinv Hm Hstep. apply (shell_ginput g C _ _ cut fs g1 Hinv Hstep). intros nj r' ob out Hfj Hsf.
    destruct (find_node_in _ _ _ Hfj) as [Hin _].
    destruct (sh_msgs g C Hinv m Hm) as (Hft & Hld & Hrq).
    destruct (sh_nodes g C Hinv nj Hin) as [Hnl _]. pose proof (ginv_wfr (sh_g g C Hinv) Hin) as Hw.
    destruct (gn_run nj) as [s|s] eqn:Hrun.
    - split; [apply (NP_deliver C (gn_P nj) s (am_req m) cut fs r' ob out (sh_chain g C Hinv) Hw Hnl Hrq Hsf)|].
      apply (deliver_role_kept (gn_P nj) s (am_req m) cut fs r' ob out Hw); [|exact Hsf].
      intros Hr. apply (shell_other_leader g C _ _ _ nj s Hinv Hld Hft Hfj Hrun Hr).
    - simpl in Hsf. inversion Hsf; subst. split; [exact Hnl|]. intros s' Hs'. discriminate.
  Qed.

  Theorem shell_lstep sn g C l g' : shell g C -> lstep sn cfgs g l = Some g' ->
    (forall j e cut fs, l = LElect (GInput j e cut fs) -> EV e) -> exists C', shell g' C'.
  Proof.
    intros Hinv Hstep Hev. destruct l as [gl|i ty data fs|i j next last|i j|k cut fs].
    - destruct (lstep_elect_inv _ _ _ _ _ Hstep) as (_ & g1 & Hg & ->).
      destruct gl as [i|i j cut fs|i j|j e cut fs].
      + eapply shell_timeout; eauto.
      + exists C. eapply shell_votereq; eauto.
      + eapply shell_voteresp; eauto.
      + exists C. apply (shell_ginput g C j e cut fs g1 Hinv Hg). intros nj r' ob out Hfj.
        apply (shell_node_event g C nj e cut fs r' ob out Hinv (proj1 (find_node_in _ _ _ Hfj)) (Hev _ _ _ _ eq_refl)).
    - eapply shell_propose; eauto.
    - destruct (lstep_send_inv _ _ _ _ _ _ _ _ Hstep) as (n & s & pi & pt & es & c & Hfind & Hrun & Hrole & Hij & Hnext & _ & Hsend & ->).
      destruct (find_node_in _ _ _ Hfind) as [Hin Hid]. exists C.
      destruct (sh_nodes g C Hinv n Hin) as [Hnl _]. rewrite Hrun in Hnl.
      pose proof (ginv_wfr (sh_g g C Hinv) Hin) as Hw. rewrite Hrun in Hw. destruct Hw as [_ Hvt].
      apply (shell_send g C i n s (mkAM i j (mkAReq (v_term s) i i pi pt es c)) Hinv Hfind Hrun Hrole eq_refl Hij eq_refl).
      apply (NP_send C (gn_P n) s next last pi pt es c i (sh_chain g C Hinv) Hnl Hvt Hnext Hsend).
    - destruct (lstep_heartbeat_inv _ _ _ _ _ _ Hstep) as (n & s & Hfind & Hrun & Hrole & Hij & ->). exists C.
      apply (shell_send g C i n s (mkAM i j (mkAReq (v_term s) i i 0 0 [] 0)) Hinv Hfind Hrun Hrole eq_refl Hij eq_refl). apply RQ_hb.
    - destruct (lstep_deliver_inv _ _ _ _ _ _ _ Hstep) as (m & g1 & _ & Hm & Hg & ->). exists C.
      eapply shell_deliver; eauto.
  Qed.
End Shell.

Arguments sh_g {cfgs CP NP RQ g C}.
Arguments sh_chain {cfgs CP NP RQ g C}.
Arguments sh_nodes {cfgs CP NP RQ g C}.
Arguments sh_src {cfgs CP NP RQ g C}.
Arguments sh_leaders {cfgs CP NP RQ g C}.
Arguments sh_msgs {cfgs CP NP RQ g C}.

Lemma shell_weaken cfgs (CP CP' : chain -> Prop) (NP NP' : chain -> params -> nrun -> Prop) (RQ RQ' : chain -> areq -> Prop) g C :
  (CP C -> CP' C) -> (forall n, In n (g_nodes (lg_g g)) -> NP C (gn_P n) (gn_run n) -> NP' C (gn_P n) (gn_run n)) ->
  (forall m, In m (lg_msgs g) -> RQ C (am_req m) -> RQ' C (am_req m)) ->
  shell cfgs CP NP RQ g C -> shell cfgs CP' NP' RQ' g C.
Proof.
  intros HC HN HM [A B D E F G]. constructor; auto.
  - intros n Hn. destruct (D n Hn) as [D1 D2]. auto.
  - intros m Hm. destruct (G m Hm) as (G1 & G2 & G3). split; [exact G1|]. split; [exact G2|auto].
Qed.

Definition nlp (C : chain) (_ : params) (r : nrun) : Prop := nlog C r.

(* what msg_ok asks of a request *)
Definition lrq (C : chain) (a : areq) : Prop :=
  mchain C (aq_prevIdx a, aq_prevTerm a) (aq_entries a) /\ forall e, In e (aq_entries a) -> e_term e <= aq_term a.

Lemma lrq_mono C C' a : incl C C' -> lrq C a -> lrq C' a.
Proof. intros Hc [A B]. split; [eapply mchain_mono; eauto|exact B]. Qed.

Lemma linv_shell cfgs g C : linv cfgs g C <-> shell cfgs chain_ok nlp lrq g C.
Proof. split; intros [A B D E F G]; constructor; assumption. Qed.
