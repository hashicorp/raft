(* FileSnapA.v — pure list / order facts used by the C15 proofs: key_lt is a strict order,
   sort_desc sorts, what the first n of a sorted list are. *)
From Coq Require Import List Arith NArith Bool Lia Permutation.
From RaftModel Require Import FileSnap FileSnapSpec.
Import ListNotations.
Open Scope N_scope.

Lemma key_lt_iff : forall a b, key_lt a b = true <->
  mv_term (snd a) < mv_term (snd b) \/
  (mv_term (snd a) = mv_term (snd b) /\
   (mv_index (snd a) < mv_index (snd b) \/ (mv_index (snd a) = mv_index (snd b) /\ fst a < fst b))).
Proof.
  intros a b. unfold key_lt.
  destruct (N.eqb_spec (mv_term (snd a)) (mv_term (snd b))), (N.eqb_spec (mv_index (snd a)) (mv_index (snd b)));
    simpl; rewrite N.ltb_lt; lia.
Qed.

Lemma key_lt_irrefl : forall x, key_lt x x = false.
Proof. intros x. apply not_true_iff_false. rewrite key_lt_iff. lia. Qed.

Lemma key_lt_trans : forall a b c, key_lt a b = true -> key_lt b c = true -> key_lt a c = true.
Proof. intros a b c. rewrite !key_lt_iff. lia. Qed.

Lemma key_lt_total : forall a b, fst a <> fst b -> key_lt a b = false -> key_lt b a = true.
Proof. intros a b Hne H. apply not_true_iff_false in H. rewrite key_lt_iff in *. lia. Qed.

Lemma insert_perm : forall x l, Permutation (insert_desc x l) (x :: l).
Proof.
  induction l as [|y r IH]; simpl; [reflexivity|].
  destruct (key_lt y x); [reflexivity|].
  rewrite IH. apply perm_swap.
Qed.

Lemma sort_perm : forall l, Permutation (sort_desc l) l.
Proof.
  induction l as [|x r IH]; simpl; [constructor|].
  rewrite insert_perm. constructor. exact IH.
Qed.

Lemma sort_in : forall l y, In y (sort_desc l) <-> In y l.
Proof.
  intros; split; apply Permutation_in; [|symmetry]; apply sort_perm.
Qed.

Lemma sort_length : forall l, length (sort_desc l) = length l.
Proof. intros; apply Permutation_length, sort_perm. Qed.

Lemma sort_nodup_fst : forall l, NoDup (map fst l) -> NoDup (map fst (sort_desc l)).
Proof.
  intros l H. eapply Permutation_NoDup; [|exact H].
  apply Permutation_map. symmetry. apply sort_perm.
Qed.

Lemma insert_sorted : forall x l, sorted_desc l -> (forall y, In y l -> fst y <> fst x) ->
  sorted_desc (insert_desc x l).
Proof.
  induction l as [|y r IH]; simpl; intros Hs Hd.
  - split; [intros ? []|exact I].
  - destruct Hs as [Hy Hr]. destruct (key_lt y x) eqn:E; simpl.
    + split; [|split; assumption].
      intros z [<-|Hz]; [exact E|]. eapply key_lt_trans; [apply Hy; exact Hz|exact E].
    + split.
      * intros z Hz. apply (Permutation_in _ (insert_perm x r)) in Hz. destruct Hz as [<-|Hz]; [|auto].
        apply key_lt_total; [|exact E]. apply Hd. left; reflexivity.
      * apply IH; auto.
Qed.

Lemma sort_sorted : forall l, NoDup (map fst l) -> sorted_desc (sort_desc l).
Proof.
  induction l as [|x r IH]; simpl; intros H; [exact I|].
  inversion H as [|? ? Hn Hnd]; subst.
  apply insert_sorted; [auto|].
  intros y Hy E. apply (proj1 (sort_in r y)) in Hy. apply Hn. rewrite <- E. apply in_map. exact Hy.
Qed.

Lemma sorted_app : forall a b, sorted_desc (a ++ b) ->
  forall x y, In x a -> In y b -> key_lt y x = true.
Proof.
  induction a as [|z a IH]; simpl; intros b Hs x y Hx Hy; [contradiction|].
  destruct Hs as [Hz Hs]. destruct Hx as [<-|Hx].
  - apply Hz. apply in_or_app. right; exact Hy.
  - eapply IH; eauto.
Qed.

Lemma sorted_app_l : forall a b, sorted_desc (a ++ b) -> sorted_desc a.
Proof.
  induction a as [|z a IH]; simpl; intros b Hs; [exact I|].
  destruct Hs as [Hz Hs]. split; [|eapply IH; eauto].
  intros y Hy. apply Hz. apply in_or_app. left; exact Hy.
Qed.

Lemma sorted_firstn : forall n l, sorted_desc l -> sorted_desc (firstn n l).
Proof.
  intros n l H. rewrite <- (firstn_skipn n l) in H. eapply sorted_app_l; eauto.
Qed.

Lemma sorted_nodup : forall l, sorted_desc l -> NoDup l.
Proof.
  induction l as [|x r IH]; simpl; intros H; [constructor|].
  destruct H as [Hx Hr]. constructor; [|auto].
  intro Hin. apply Hx in Hin. rewrite key_lt_irrefl in Hin. discriminate.
Qed.

Lemma below_top : forall s n x, sorted_desc s -> In x s -> ~ In x (firstn n s) ->
  length (firstn n s) = n /\ forall y, In y (firstn n s) -> key_lt x y = true.
Proof.
  intros s n x Hs Hx Hn.
  assert (Hsk : In x (skipn n s)).
  { rewrite <- (firstn_skipn n s) in Hx. apply in_app_or in Hx. destruct Hx; [contradiction|auto]. }
  split.
  - assert (Hl := skipn_length n s). rewrite firstn_length.
    destruct (skipn n s); [contradiction|]. simpl in Hl. lia.
  - intros y Hy. rewrite <- (firstn_skipn n s) in Hs. eapply sorted_app; eauto.
Qed.

Lemma NoDup_app_inv : forall (A : Type) (a b : list A), NoDup (a ++ b) ->
  NoDup a /\ forall x, In x a -> ~ In x b.
Proof.
  induction a as [|y a IH]; simpl; intros b H; [split; [constructor|contradiction]|].
  inversion H as [|? ? Hn Hnd]; subst. destruct (IH b Hnd) as [Ha Hd]. split.
  - constructor; [|exact Ha]. intro Hi. apply Hn. apply in_or_app. left; exact Hi.
  - intros x [<-|Hx]; [|auto]. intro Hi. apply Hn. apply in_or_app. right; exact Hi.
Qed.

Lemma firstn_nodup_fst : forall n (l : list (N * metaval)), NoDup (map fst l) -> NoDup (map fst (firstn n l)).
Proof.
  intros n l H. rewrite <- (firstn_skipn n l), map_app in H. apply NoDup_app_inv in H. apply H.
Qed.
