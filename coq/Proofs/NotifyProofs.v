(* C18: alternation of NotifyCh, LeaderCh holds the latest transition, at rest the last value
   delivered says whether the server is leader. *)
From Coq Require Import List NArith String Bool Lia PeanoNat.
From RaftModel Require Import Notify.
Import ListNotations.
Open Scope N_scope.

Definition E0 : list (string * bool) := [("leaderCh", true); ("notify", true)]%string.
Definition X0 : list (string * bool) := [("leaderCh", false); ("notify", false)]%string.

(* l lists the roles taken so far (true first, alternating) and b is the role now *)
Definition tracks (b : bool) (l : list bool) : Prop :=
  alt true l /\ b = negb (Nat.even (List.length l)).

Lemma alt_snoc b l : alt b l -> alt b (l ++ [if Nat.even (List.length l) then b else negb b]).
Proof.
  revert b. induction l as [|x r IH]; intros b Ha; [simpl; auto|].
  cbn [alt app] in *. destruct Ha as [-> Ha]. split; [reflexivity|].
  change (List.length (b :: r)) with (S (List.length r)). rewrite Nat.even_succ, <- Nat.negb_even.
  specialize (IH _ Ha). destruct (Nat.even (List.length r)); simpl in *; rewrite ?negb_involutive in *; exact IH.
Qed.

Lemma tracks_snoc b l : tracks b l -> tracks (negb b) (l ++ [negb b]).
Proof.
  intros [A ->]. split.
  - pose proof (alt_snoc true l A) as H. destruct (Nat.even (List.length l)); exact H.
  - rewrite app_length, Nat.add_1_r, Nat.even_succ, <- Nat.negb_even. reflexivity.
Qed.

Record ninv (s : nstate') : Prop := {
  i_queue : n_sent s = (n_recv s ++ n_notify s)%list;
  i_tr : tracks (n_leader s) (n_sent s);
  i_lch : match n_lch s with
          | Some v => v = n_leader s /\ n_lsent s <> []
          | None => n_lsent s = [] \/ (n_lrecv s <> [] /\ last (n_lrecv s) false = n_leader s)
          end;
}.

Lemma ninv_init : ninv n_init.
Proof. constructor; simpl; auto. split; reflexivity. Qed.

Lemma nstep_inv s o : ninv s -> ninv (fst (nstep E0 X0 s o)).
Proof.
  intros [Q T LC]. destruct s as [ld nq lch sent recv lsent lrecv]. simpl in *.
  (* a gain or a loss that changes the role sends the new role on both channels *)
  assert (Flip : ninv (mkN (negb ld) (nq ++ [negb ld]) (Some (negb ld)) (sent ++ [negb ld]) recv (lsent ++ [negb ld]) lrecv)).
  { constructor; simpl.
    - rewrite Q, app_assoc. reflexivity.
    - apply tracks_snoc, T.
    - split; [reflexivity|]. destruct lsent; discriminate. }
  destruct o; simpl.
  - (* gain *) destruct ld; simpl; [constructor; simpl; auto|exact Flip].
  - (* lose *) destruct ld; simpl; [exact Flip|constructor; simpl; auto].
  - (* read NotifyCh *) destruct nq as [|v r]; simpl; [constructor; simpl; auto|].
    constructor; simpl; auto. rewrite Q, <- app_assoc. reflexivity.
  - (* read LeaderCh *) destruct lch as [v|]; simpl; [|constructor; simpl; auto].
    constructor; simpl; auto. destruct LC as [-> Hne]. right. split.
    + destruct lrecv; discriminate.
    + rewrite last_last. reflexivity.
Qed.

Lemma nrun_inv ops : forall s, ninv s -> ninv (fst (nrun E0 X0 s ops)).
Proof.
  induction ops as [|o r IH]; intros s Hi; simpl; [exact Hi|].
  pose proof (nstep_inv s o Hi) as H1. destruct (nstep E0 X0 s o) as [s1 out]. simpl in H1.
  specialize (IH s1 H1). destruct (nrun E0 X0 s1 r) as [s2 outs]. exact IH.
Qed.

Lemma alt_prefix b l1 l2 : alt b (l1 ++ l2) -> alt b l1.
Proof.
  revert b. induction l1 as [|x r IH]; intros b H; simpl in *; [exact I|].
  destruct H as [-> H]. split; [reflexivity|]. eapply IH; exact H.
Qed.

Lemma alt_last b l : alt b l -> l <> [] -> last l false = (if Nat.even (List.length l) then negb b else b).
Proof.
  revert b. induction l as [|x r IH]; intros b Ha Hne; [contradiction|].
  simpl in Ha. destruct Ha as [-> Ha]. destruct r as [|y r'].
  - reflexivity.
  - change (last (b :: y :: r') false) with (last (y :: r') false).
    rewrite (IH (negb b) Ha ltac:(discriminate)).
    change (List.length (b :: y :: r')) with (S (List.length (y :: r'))).
    rewrite Nat.even_succ, <- Nat.negb_even. destruct (Nat.even (List.length (y :: r'))); simpl; rewrite ?negb_involutive; reflexivity.
Qed.

(* 1. whatever the order of gains, losses and reads (any consumer speed): what the NotifyCh
   consumer has received so far is strictly alternating true,false,true,... - one message per
   transition, none lost, none repeated, in order *)
Theorem notify_alternates ops : let s := fst (nrun E0 X0 n_init ops) in
  alt true (n_recv s) /\ n_sent s = (n_recv s ++ n_notify s)%list /\ alt true (n_sent s).
Proof.
  pose proof (nrun_inv ops n_init ninv_init) as [Q [A P] _]. simpl.
  split; [|split; assumption]. rewrite Q in A. eapply alt_prefix; exact A.
Qed.

(* 2. at rest (everything sent was received): the last value delivered on NotifyCh says whether
   the server is leader now *)
Theorem notify_at_rest ops : let s := fst (nrun E0 X0 n_init ops) in
  n_notify s = [] -> n_recv s <> [] -> last (n_recv s) false = n_leader s.
Proof.
  pose proof (nrun_inv ops n_init ninv_init) as [Q [A P] _]. simpl. intros He Hne.
  rewrite He, app_nil_r in Q. rewrite <- Q. rewrite (alt_last true _ A) by (rewrite Q; exact Hne).
  rewrite P. destruct (Nat.even (List.length (n_sent (fst (nrun E0 X0 n_init ops))))); reflexivity.
Qed.

Theorem notify_none_means_never_leader ops : let s := fst (nrun E0 X0 n_init ops) in
  n_sent s = [] -> n_leader s = false.
Proof.
  pose proof (nrun_inv ops n_init ninv_init) as [Q [A P] _]. simpl. intros He. rewrite P, He. reflexivity.
Qed.

(* 3. LeaderCh: a value sitting in the channel is the most recent transition; if the channel is
   empty after some transition, the consumer's last read was the most recent transition *)
Theorem leaderch_latest ops : let s := fst (nrun E0 X0 n_init ops) in
  match n_lch s with
  | Some v => v = n_leader s
  | None => n_lsent s = [] \/ last (n_lrecv s) false = n_leader s
  end.
Proof.
  pose proof (nrun_inv ops n_init ninv_init) as [_ _ LC]. simpl.
  destruct (n_lch _); [destruct LC; assumption|]. destruct LC as [H|[_ H]]; auto.
Qed.

(* the generated table says exactly E0 / X0 *)
Lemma notes_ok_eq entry exit : notes_ok entry exit = true -> entry = E0 /\ exit = X0.
Proof.
  unfold notes_ok. intros H. apply andb_prop in H. destruct H as [H1 H2].
  assert (G : forall (a b : list (string * bool)),
     Nat.eqb (List.length a) (List.length b) &&
     forallb (fun p => String.eqb (fst (fst p)) (fst (snd p)) && Bool.eqb (snd (fst p)) (snd (snd p))) (combine a b) = true -> a = b).
  { induction a as [|[c v] r IH]; intros [|[c' v'] r'] H; simpl in H; try discriminate; [reflexivity|].
    apply andb_prop in H. destruct H as [Hl H]. apply andb_prop in H. destruct H as [H Hr].
    apply andb_prop in H. destruct H as [Hc Hv]. apply String.eqb_eq in Hc. apply Bool.eqb_prop in Hv. subst.
    f_equal. apply IH. rewrite Hl, Hr. reflexivity. }
  split; apply G; assumption.
Qed.

(* overrideNotifyBool: whatever the slot held, after an override it holds the value just written *)
Lemma override_latest buf v : override buf v = Some v.
Proof. reflexivity. Qed.
