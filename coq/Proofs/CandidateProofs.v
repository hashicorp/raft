(* CandidateProofs.v — the pre-vote phase (C14): a server that cannot collect a quorum of pre-votes never changes
   its term and writes nothing; the election starts only on the pre-vote that completes the quorum; a server that
   knows a leader refuses votes and pre-votes; a pre-vote is granted only to an up-to-date log. *)
From Coq Require Import List NArith Bool Lia.
From stdpp Require Import gmap.
From RaftModel Require Import Config Node Candidate.
Open Scope N_scope.

Definition norm (s : nstate) : nstate := set_transfer (set_state s Candidate) false.

(* what an isolated server sees: pre-vote RPCs fail or are refused (the answer never carries a
   term above the one asked for); vote results cannot arrive (no election was started) *)
Definition isolated_ev (t : N) (e : cev) : Prop :=
  match e with
  | CPre v => vr_granted v = false /\ vr_term v <= t + 1
  | CVote _ => True
  | CTimeout => True
  end.

Definition iso_inv (s : nstate) (x : csess) : Prop :=
  exists g rf, x = SCand (norm s) (mkCand (v_term s + 1) true false g rf 0 (quorum_size (v_latest s))) /\ g <= 1.

Lemma norm_idem s : norm (set_transfer (norm s) false) = norm s.
Proof. reflexivity. Qed.

Lemma on_prevote_stay P c s fs v :
  c_prevote c = true -> vr_term v <= c_term c ->
  (if vr_granted v then c_pvGranted c + 1 else c_pvGranted c) < c_needed c ->
  on_prevote P c s fs v =
  Done s (CStay (mkCand (c_term c) true false
                        (if vr_granted v then c_pvGranted c + 1 else c_pvGranted c)
                        (if vr_granted v then c_pvRefused c else c_pvRefused c + 1)
                        (c_granted c) (c_needed c)) []) [] fs.
Proof.
  intros Hp Ht Hg. unfold on_prevote. rewrite Hp. cbn [negb].
  destruct (N.ltb_spec (c_term c) (vr_term v)); [lia|].
  destruct (N.leb_spec (c_needed c) (if vr_granted v then c_pvGranted c + 1 else c_pvGranted c)); [lia|].
  reflexivity.
Qed.

Lemma cand_enter_prevote P s fs : v_transfer s = false ->
  cand_enter P true s fs =
  Done s (mkCand (v_term s + 1) true false 0 0 0 (quorum_size (v_latest s)),
          if self_is_voter P s then [mkVR (v_term s + 1) true] else []) [] fs.
Proof. intros H. unfold cand_enter. rewrite H. reflexivity. Qed.

Lemma enter_isolated_gen P s s0 : set_state s0 Candidate = norm s -> 2 <= quorum_size (v_latest s) ->
  exists x, sess_enter P true s0 = (x, []) /\ iso_inv s x.
Proof.
  intros E Hq. unfold sess_enter. rewrite E.
  rewrite cand_enter_prevote by reflexivity.
  change (v_term (norm s)) with (v_term s). change (v_latest (norm s)) with (v_latest s).
  destruct (self_is_voter P (norm s)).
  - cbn [feed_self]. rewrite on_prevote_stay; cbn [c_prevote c_term c_pvGranted c_pvRefused c_granted c_needed vr_term vr_granted]; try reflexivity; try lia.
    cbn [app feed_self exit_loop fst snd]. eexists. split; [reflexivity|].
    exists (0 + 1), 0. split; [reflexivity|lia].
  - cbn [feed_self exit_loop fst snd]. eexists. split; [reflexivity|]. exists 0, 0. split; [reflexivity|lia].
Qed.

Lemma first_enter_isolated P s : v_transfer s = false -> 2 <= quorum_size (v_latest s) ->
  exists x, sess_enter P true s = (x, []) /\ iso_inv s x.
Proof.
  intros Ht Hq. apply enter_isolated_gen; [|exact Hq].
  destruct s; simpl in Ht; subst; reflexivity.
Qed.

Lemma step_isolated P s x e : 2 <= quorum_size (v_latest s) ->
  iso_inv s x -> isolated_ev (v_term s) e ->
  exists x', sess_step P true x e = (x', []) /\ iso_inv s x'.
Proof.
  intros Hq (g & rf & -> & Hg) He. destruct e as [v|v|]; cbn [sess_step].
  - destruct He as [Hgr Hvt].
    rewrite on_prevote_stay; cbn [c_prevote c_term c_pvGranted c_pvRefused c_granted c_needed]; try reflexivity; try lia.
    all: try (rewrite Hgr; lia).
    rewrite Hgr. cbn [feed_self exit_loop fst snd]. eexists. split; [reflexivity|].
    exists g, (rf + 1). split; [reflexivity|exact Hg].
  - unfold on_vote. cbn [c_voting negb]. cbn [feed_self exit_loop fst snd]. eexists. split; [reflexivity|].
    exists g, rf. split; [reflexivity|exact Hg].
  - apply enter_isolated_gen; [reflexivity|exact Hq].
Qed.

Theorem isolated_session P s evs : 2 <= quorum_size (v_latest s) ->
  Forall (isolated_ev (v_term s)) evs ->
  forall x, iso_inv s x ->
  exists x', sess_run P true x evs = (x', []) /\ iso_inv s x'.
Proof.
  intros Hq Hall. induction Hall as [|e r He _ IH]; intros x Hx; simpl.
  - exists x. auto.
  - destruct (step_isolated P s x e Hq Hx He) as (x1 & -> & H1).
    destruct (IH x1 H1) as (x2 & -> & H2). exists x2. auto.
Qed.

(* The statement of C14's first half: any number of election timeouts and failed / refused
   pre-votes: no durable write at all (empty trace), the term is the same, still a candidate. *)
Theorem isolated_term_constant P s evs : v_transfer s = false -> 2 <= quorum_size (v_latest s) ->
  Forall (isolated_ev (v_term s)) evs ->
  let '(x0, tr0) := sess_enter P true s in
  let '(x, tr) := sess_run P true x0 evs in
  tr0 = [] /\ tr = [] /\
  exists c, x = SCand (norm s) c /\ c_voting c = false.
Proof.
  intros Ht Hq Hall.
  destruct (first_enter_isolated P s Ht Hq) as (x0 & -> & H0).
  destruct (isolated_session P s evs Hq Hall x0 H0) as (x & -> & (g & rf & -> & _)).
  split; [reflexivity|]. split; [reflexivity|]. eexists. split; reflexivity.
Qed.

Lemma norm_durable s : d_term (norm s) = d_term s /\ v_term (norm s) = v_term s /\
  d_vterm (norm s) = d_vterm s /\ d_vcand (norm s) = d_vcand s /\ d_log (norm s) = d_log s /\
  v_role (norm s) = Candidate.
Proof. repeat split. Qed.

(* The real election (term bump) only starts on a granted pre-vote that completes the quorum: *)
Theorem prevote_needs_quorum P c s fs v s' c' self tr fs' :
  on_prevote P c s fs v = Done s' (CStay c' self) tr fs' ->
  c_prevote c = true -> c_pvGranted c < c_needed c -> c_prevote c' = false ->
  c_needed c <= c_pvGranted c + 1 /\ vr_granted v = true.
Proof.
  unfold on_prevote. intros H Hp Hlt Hp'. rewrite Hp in H. simpl in H.
  destruct (c_term c <? vr_term v).
  { destruct (do_set_term _ _ _) as [[? ?]|]; discriminate. }
  destruct (vr_granted v) eqn:G.
  - destruct (N.leb_spec (c_needed c) (c_pvGranted c + 1)); [auto|].
    inversion H; subst. simpl in Hp'. discriminate.
  - destruct (N.leb_spec (c_needed c) (c_pvGranted c)); [lia|].
    inversion H; subst. simpl in Hp'. discriminate.
Qed.

(* ... and while no election was started nothing durable is written by the loop *)
Theorem prevote_phase_no_write P c s fs v s' c' self tr fs' :
  on_prevote P c s fs v = Done s' (CStay c' self) tr fs' -> c_prevote c' = true -> tr = [] /\ s' = s.
Proof.
  unfold on_prevote. intros H Hp'. destruct (negb (c_prevote c)) eqn:E.
  { inversion H; subst. auto. }
  destruct (c_term c <? vr_term v).
  { destruct (do_set_term _ _ _) as [[? ?]|]; discriminate. }
  match type of H with context [if ?B then _ else _] => destruct B end.
  - destruct (elect_self P s fs) as [s2 [q sf] tr2 fs2|]; [|discriminate].
    inversion H; subst. simpl in Hp'. discriminate.
  - inversion H; subst. auto.
Qed.

Theorem sticky_prevote s q : v_leader s <> 0 -> v_leader s <> vq_addr q ->
  request_prevote s q = (v_term s, false).
Proof.
  intros H0 H1. unfold request_prevote.
  destruct (nonempty (v_latest s) && negb (in_config (v_latest s) (vq_id q))); [reflexivity|].
  destruct (N.eqb_spec (v_leader s) 0); [contradiction|].
  destruct (N.eqb_spec (v_leader s) (vq_addr q)); [contradiction|]. reflexivity.
Qed.

Theorem sticky_vote s fs q : v_leader s <> 0 -> v_leader s <> vq_addr q -> vq_transfer q = false ->
  request_vote s fs q = Done s (v_term s, false) [] fs.
Proof.
  intros H0 H1 H2. unfold request_vote.
  destruct (negb (vq_id q =? 0) && nonempty (v_latest s) && negb (in_config (v_latest s) (vq_id q))); [reflexivity|].
  destruct (N.eqb_spec (v_leader s) 0); [contradiction|].
  destruct (N.eqb_spec (v_leader s) (vq_addr q)); [contradiction|]. rewrite H2. reflexivity.
Qed.

(* a pre-vote is granted only to a requester whose log is at least as up to date as the voter's (so a
   server that fell behind cannot start an election by reconnecting), whatever terms are involved *)
Theorem prevote_needs_uptodate_log s q :
  snd (request_prevote s q) = true -> log_ok s (vq_lastIdx q) (vq_lastTerm q) = true.
Proof.
  unfold request_prevote.
  destruct (nonempty (v_latest s) && negb (in_config (v_latest s) (vq_id q))); [discriminate|].
  destruct (negb (v_leader s =? 0) && negb (v_leader s =? vq_addr q)); [discriminate|].
  destruct (vq_term q <? v_term s); [discriminate|].
  destruct (nonempty (v_latest s) && negb (has_vote (v_latest s) (vq_id q))); [discriminate|].
  simpl. auto.
Qed.
