(* ConvergeLeader.v — what the leader sends for a nextIndex in 1..n (leader_ok). *)
From Coq Require Import List NArith Bool Lia.
From stdpp Require Import gmap.
From RaftModel Require Import Base Node Replicate Converge.
From RaftProofs Require Import AppendProofs ReplicateProofs.
Open Scope N_scope.

Lemma get_range_ok m : keys_ok m -> forall cnt from, 1 <= from ->
  (forall i, from <= i < from + N.of_nat cnt -> exists e, m !! i = Some e) ->
  exists es, get_range m from cnt = Some es /\ length es = cnt /\ contig (from - 1) es /\
             (forall e, In e es -> m !! e_idx e = Some e /\ from <= e_idx e < from + N.of_nat cnt).
Proof.
  intros Hk. induction cnt as [|cnt IH]; intros from Hf Hall.
  - exists []. simpl. repeat split; auto; contradiction.
  - destruct (Hall from) as [e He]; [lia|]. simpl. rewrite He.
    destruct (IH (from + 1)) as (r & R1 & R2 & R3 & R4); [lia| |].
    { intros i Hi. apply Hall. lia. }
    rewrite R1. exists (e :: r). split; [reflexivity|]. split; [simpl; lia|].
    pose proof (Hk _ _ He) as Hidx. split.
    + simpl. split; [lia|]. replace (from - 1 + 1) with (from + 1 - 1) by lia. exact R3.
    + intros x [<-|Hx].
      * rewrite Hidx. split; [exact He|lia].
      * destruct (R4 x Hx) as [A B]. split; [exact A|lia].
Qed.

Lemma setup_send_ok PL sL n next : leader_ok PL sL n -> 1 <= next <= n ->
  exists pt es, setup_send PL sL next n = SendAE (next - 1) pt es (v_commit sL) /\ es <> [] /\
    contig (next - 1) es /\
    (1 < next -> exists pe, d_log sL !! (next - 1) = Some pe /\ e_term pe = pt) /\
    (forall e, In e es -> d_log sL !! e_idx e = Some e /\ next <= e_idx e <= n /\
                          (prepare_kind (e_ty e) =? 3) = false) /\
    next <= last_idx_of es <= n.
Proof.
  intros (Hk & Hall & Hsnap & Hmax) Hn.
  assert (Hp : exists pt, prev_of sL next = Some (next - 1, pt) /\
               (1 < next -> exists pe, d_log sL !! (next - 1) = Some pe /\ e_term pe = pt)).
  { unfold prev_of. destruct (N.eqb_spec next 1) as [->|Hne].
    - exists 0. split; [reflexivity|lia].
    - rewrite Hsnap. destruct (N.eqb_spec (next - 1) 0); [lia|].
      destruct (Hall (next - 1)) as (pe & Hpe & _); [lia|]. rewrite Hpe.
      exists (e_term pe). rewrite (Hk _ _ Hpe). split; [reflexivity|]. intros _. exists pe. auto. }
  destruct Hp as (pt & Hp1 & Hp2).
  set (maxIdx := N.min (next + p_maxappend PL - 1) n).
  assert (Hmi : next <= maxIdx <= n) by (unfold maxIdx; lia).
  destruct (get_range_ok (d_log sL) Hk (N.to_nat (maxIdx + 1 - next)) next) as (es & E1 & E2 & E3 & E4); [lia| |].
  { intros i Hi. destruct (Hall i) as (e & He & _); [lia|]. exists e. exact He. }
  exists pt, es.
  assert (Hne : es <> []). { intros ->. simpl in E2. lia. }
  split; [apply setup_send_spec; auto|]. split; [exact Hne|]. split; [exact E3|]. split; [exact Hp2|]. split.
  - intros e He. destruct (E4 e He) as [A B]. split; [exact A|]. split; [lia|].
    destruct (Hall (e_idx e)) as (e' & He' & Hk'); [lia|]. rewrite A in He'. inversion He'; subst. exact Hk'.
  - destruct (get_range_last _ Hk _ _ _ E1 Hne) as [A _]. rewrite A, E2. lia.
Qed.
