(* ClusterCommitSnapAE2.v — the operations on the stores keep the shape of Proofs/ClusterCommitSnapLog.v: the two
   of appendEntries (and of dispatchLogs), deleting the tail above a key of the branch that is not below the
   snapshot boundary and storing a chain of new entries right after the last key; and the one of takeSnapshot. *)
From Coq Require Import List NArith Bool Lia.
From stdpp Require Import gmap.
From RaftModel Require Import Base Node.
From RaftProofs Require Import LeaderProofs AppendProofs ClusterLogSpec ClusterLogChain ClusterLogNode ClusterLogAppend
  ClusterCommitChain ClusterCommitAE2 ClusterCommitSnapLog ClusterCommitSnapBoot.
Open Scope N_scope.

Section Ops.
  Variable C : chain.
  Hypothesis HC : chain_ok C.
  Hypothesis Hp : pclosed C.
  Variables (T : N) (m : gmap N entry) (sns : list snapshot) (tk b : N * N).
  Hypothesis HS : zshape C T m sns tk b.

  (* a key of the branch the server is on *)
  Definition onb (qk : N * N) : Prop := rootc C qk /\ snd qk <= T /\ (qk = (0, 0) \/ anc C qk (lk tk b)).

  Lemma log_key_root i y : m !! i = Some y -> rootc C (key y) /\ e_idx y = i.
  Proof. intros Hy. destruct (zs_in HS i y Hy) as (Hi & (p & Pp) & _). split; [right; exists y, p; auto|exact Hi]. Qed.

  Lemma zshape_delete qk : onb qk -> fst b <= fst qk -> fst qk < fst tk ->
    zshape C T (log_delete m (fst qk + 1) (fst tk)) sns qk b.
  Proof.
    intros (Q1 & Q2 & Q3) Hb Hlt.
    assert (Hold : forall i y, log_delete m (fst qk + 1) (fst tk) !! i = Some y -> m !! i = Some y /\ i <= fst qk).
    { intros i y Hy. pose proof (log_delete_sub _ _ _ i y Hy) as Hm. split; [exact Hm|].
      rewrite log_delete_lookup in Hy. pose proof (zshape_bound C HC _ _ _ _ _ HS i y Hm).
      destruct (N.leb_spec (fst qk + 1) i); [|lia]. destruct (N.leb_spec i (fst tk)); [discriminate|lia]. }
    constructor.
    - eapply log_in_sub; [apply log_delete_sub|apply N.le_refl|apply (zs_in HS)].
    - intros i y Hy. destruct (Hold i y Hy) as [Hm Hi]. destruct (log_key_root i y Hm) as [Ry Iy].
      apply (cmp_root C (lk tk b)); auto; [right; apply (zshape_log_lk C _ _ _ _ _ HS i y Hm)|unfold key; simpl; lia].
    - exact Q1.
    - exact Q2.
    - apply (zs_b HS).
    - apply (zs_bt HS).
    - intros _. apply (cmp_root C (lk tk b)); auto; [apply (zs_b HS)|right; apply (zshape_b_lk C _ _ _ _ _ HS)].
    - intros Hc. lia.
    - intros i Hi Hi'. rewrite log_delete_lookup. destruct (N.leb_spec (fst qk + 1) i); [lia|]. simpl.
      apply (zs_seg HS); lia.
    - apply (zs_sn HS).
    - apply (zs_has HS).
  Qed.

  Lemma zshape_store T' news qk : T <= T' -> news <> [] -> mchain C qk news ->
    (forall e, In e news -> e_term e <= T') ->
    (qk = tk \/ (qk = b /\ fst tk < fst b)) ->
    (fst (key (last_of news)) <= fst b -> anc C (key (last_of news)) b) ->
    (fst b <= fst (key (last_of news)) -> anc C b (key (last_of news))) ->
    zshape C T' (log_store m news) sns (key (last_of news)) b.
  Proof.
    intros HT Hnn Hmc Hterm Hq Hle Hge. set (kL := key (last_of news)) in *.
    pose proof (mchain_contig C qk news HC Hmc) as Hcn.
    assert (Hlast : In (last_of news) news) by (apply last_in, Hnn).
    assert (HqL : anc C qk kL) by (apply (mchain_anc C qk news Hmc _ Hlast)).
    assert (HtL : anc C tk kL).
    { destruct Hq as [->|[-> Hlt]]; [exact HqL|]. eapply anc_trans; [apply (zs_gt HS Hlt)|exact HqL]. }
    assert (HiL : fst kL = fst qk + N.of_nat (length news)) by (apply (contig_last _ _ Hcn Hnn)).
    constructor.
    - intros i x Hx. destruct (store_src_idx _ _ _ _ Hx) as [[Hn Hi]|Hm].
      + split; [exact Hi|]. split; [apply (mchain_in C qk news Hmc x Hn)|apply Hterm, Hn].
      + destruct (zs_in HS i x Hm) as (A & B & D). split; [exact A|]. split; [exact B|lia].
    - intros i x Hx. destruct (store_src_idx _ _ _ _ Hx) as [[Hn Hi]|Hm].
      + apply (mchain_last C qk news Hmc x Hn).
      + eapply anc_trans; [apply (zs_below HS i x Hm)|exact HtL].
    - right. destruct (mchain_in C qk news Hmc _ Hlast) as [q Hq']. exists (last_of news), q. auto.
    - apply Hterm, Hlast.
    - apply (zs_b HS).
    - pose proof (zs_bt HS). lia.
    - intros H. apply Hge. exact H.
    - intros H. apply Hle. lia.
    - intros i Hi Hi'. destruct (N.le_gt_cases i (fst qk)) as [Hlow|Hhigh].
      + destruct (store_contig_lookup (fst qk) news m i Hcn) as [_ E]. rewrite E by lia.
        destruct Hq as [->|[-> _]]; [|lia]. apply (zs_seg HS); lia.
      + destruct (store_contig_lookup (fst qk) news m i Hcn) as [E _]. destruct E as (e & _ & _ & E); [lia|]. rewrite E. eauto.
    - intros sn Hsn. destruct (zs_sn HS sn Hsn) as (A & B & D & E). repeat split; auto. lia.
    - apply (zs_has HS).
  Qed.
End Ops.

(* the third operation on the stores: takeSnapshot puts a snapshot at a created key b' of the branch, at or above the
   boundary, and compacts at or below it *)
Lemma zshape_snapshot C T m sns tk b b' m' sn : chain_ok C -> zshape C T m sns tk b ->
  created C b' -> snd b' <= T -> anc C b' (lk tk b) -> fst b <= fst b' ->
  log_sub m' m -> (forall i, fst b' < i -> m' !! i = m !! i) ->
  sk sn = b' -> sn_ok sn = true ->
  zshape C T m' (sns ++ [sn]) tk b'.
Proof.
  intros HC HS Hcr Ht Hanc Hle Hsub Hkeep Hsk Hok.
  pose proof (zshape_tk_lk C _ _ _ _ _ HS) as Htk. pose proof (zshape_b_lk C _ _ _ _ _ HS) as Hb.
  assert (Hbb : anc C b b') by (apply (anc_linear C b b' _ HC Hb Hanc Hle)).
  constructor.
  - eapply log_in_sub; [exact Hsub|apply N.le_refl|apply (zs_in HS)].
  - eapply log_below_sub; [exact Hsub|apply (zs_below HS)].
  - apply (zs_tk HS).
  - apply (zs_tkt HS).
  - right. exact Hcr.
  - exact Ht.
  - intros H. apply (anc_linear C b' tk _ HC Hanc Htk H).
  - intros H. apply (anc_linear C tk b' _ HC Htk Hanc). lia.
  - intros i Hi Hi'. rewrite Hkeep by exact Hi. apply (zs_seg HS); lia.
  - intros z Hz. apply in_app_iff in Hz. destruct Hz as [Hz|[<-|[]]].
    + destruct (zs_sn HS z Hz) as (A & B & D & E). repeat split; auto. eapply anc_trans; eauto.
    + rewrite Hsk. split; [exact Hok|]. split; [exact Hcr|]. split; [|apply anc_refl].
      change (sn_term sn) with (snd (sk sn)). rewrite Hsk. exact Ht.
  - right. exists sn. split; [apply in_app_iff; right; left; reflexivity|exact Hsk].
Qed.
