(* ClusterLogVote.v — the log view of a server that a piece of a handler may keep (lkeep); what RequestVote
   writes (at most one term, then vote records), read through a filter on the trace (Proofs/NodeStep.v
   takes it from here); simple_event: the events (RequestVote, pre-vote, restart, TimeoutNow) that
   NodeStep.simple_step_I treats for every invariant. *)
From Coq Require Import List NArith Bool Lia.
From stdpp Require Import gmap.
From RaftModel Require Import Base Config Node NodeCodec.
From RaftProofs Require Import NodeFrame VoteProofs ClusterLogNode ClusterLogCut.
Open Scope N_scope.

Definition lkeep (s' s : nstate) : Prop :=
  d_log s' = d_log s /\ d_snaps s' = d_snaps s /\ v_lastLogIdx s' = v_lastLogIdx s /\
  v_lastLogTerm s' = v_lastLogTerm s /\ v_lastSnapIdx s' = v_lastSnapIdx s.

Definition vote_ev (e : ev) : Prop :=
  match e with ESetVoteTerm _ _ | ESetVoteCand _ _ => True | _ => False end.

(* RequestVote writes at most one term, not below the current one, and after it vote records *)
Definition vote_trace (s : nstate) (tr : list ev) : Prop :=
  exists pre tr', tr = pre ++ tr' /\ Forall vote_ev tr' /\
    (pre = [] \/ exists t ok, pre = [ESetTerm t ok] /\ d_term s <= t).

Definition vote_out {R} (s : nstate) (o : outcome R) : Prop :=
  vote_trace s (trace_of o) /\ match o with Done s' _ _ _ => d_term s <= d_term s' | Panic _ _ => True end.

Lemma request_vote_out s fs q : wfu s -> vote_out s (request_vote s fs q).
Proof.
  intros [_ Hvt].
  assert (Hnil : vote_trace s []) by (exists [], []; auto).
  assert (Hterm : forall ok, v_term s < vq_term q -> vote_trace s [ESetTerm (vq_term q) ok]).
  { intros ok Hlt. exists [ESetTerm (vq_term q) ok], []. split; [reflexivity|]. split; [constructor|].
    right. exists (vq_term q), ok. split; [reflexivity|lia]. }
  destruct (request_vote_cases s fs q) as [->|[[Hlt ->]|(s1 & fs1 & tr1 & t1 & Hb & Hr)]].
  - split; [exact Hnil|apply N.le_refl].
  - split; [apply Hterm, Hlt|exact I].
  - (* after the optional bump, which left the state s1 and the trace tr1 *)
    assert (H1 : vote_trace s tr1 /\ d_term s <= d_term s1).
    { destruct Hb as [(-> & _ & -> & _)|(ET & -> & _ & Hlt)]; [split; [exact Hnil|apply N.le_refl]|].
      split; [apply Hterm, Hlt|]. apply do_set_term_spec in ET. destruct ET as (-> & _). simpl. lia. }
    destruct H1 as [H1 Ht1]. destruct Hr as [(g & -> & _)|(_ & _ & _ & ->)]; [split; assumption|].
    pose proof (persist_vote_spec s1 fs1 (vq_term q) (vq_addr q)) as Hp.
    destruct (persist_vote s1 fs1 (vq_term q) (vq_addr q)) as [[[s2 ok] tr2] fs2].
    destruct H1 as (pre & tr' & -> & Hv & Hpre).
    split; [|destruct Hp as [(_ & _ & ->)|[(_ & _ & ->)|(_ & _ & ->)]]; exact Ht1].
    exists pre, (tr' ++ tr2). split; [symmetry; apply app_assoc|]. split; [|exact Hpre].
    apply Forall_app. split; [exact Hv|]. destruct Hp as [(-> & _)|[(-> & _)|(-> & _)]]; repeat constructor.
Qed.

Lemma vote_trace_filter (keep : ev -> bool) s tr :
  (forall e, vote_ev e -> keep e = false) -> (forall t, keep (ESetTerm t false) = false) -> vote_trace s tr ->
  filter keep tr = [] \/ exists t, filter keep tr = [ESetTerm t true] /\ d_term s <= t.
Proof.
  intros Kv Kf (pre & tr' & -> & Hv & Hpre). rewrite filter_app.
  rewrite (filter_drops_all keep tr') by (eapply Forall_impl; [exact Kv|exact Hv]). rewrite app_nil_r.
  destruct Hpre as [->|(t & ok & -> & Ht)]; [left; reflexivity|]. simpl.
  destruct ok; [|rewrite Kf; left; reflexivity].
  destruct (keep (ESetTerm t true)); [right; exists t; auto|left; reflexivity].
Qed.

Definition simple_event (e : nevent) : Prop :=
  match e with NVote _ | NPreVote _ | NRestart | NTimeoutNow => True | _ => False end.
