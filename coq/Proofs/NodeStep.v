(* NodeStep.v — one event at one server, for any per-server invariant.

   A per-server invariant comes as a pair: Iup for a running server, Iimg for what survives a crash
   (a predicate on the durable projection dimg of Proofs/ClusterLogCut.v).  Section NodeStep asks five
   closure facts of the pair (a running server's image is good; a good image has its entries under
   their own indices; NewRaft on a good image gives a good server, or fails and leaves the image; a
   good image stays good when only the term rises; a good server stays good when the fields of `rest`
   are kept and the term does not fall) and gives: what `finish` returns (finish_I), and the events
   that touch neither log nor snapshots nor any commit index (simple_step_I).  A family's lemma about
   appendEntries, takeSnapshot or installSnapshot shows that every image the handler passes through
   and the state it returns are good, from the descriptions in Proofs/ClusterCommitSnapAE.v, ..AE5.v,
   ..Take.v, and ends with finish_I.

   Before that, what holds of no invariant in particular: RequestVote keeps `rest` and writes at most
   one term; a handler that returns makes nobody Leader and leaves a Leader its term (returned_leader,
   read off AdvLeaderProofs.post); NewRaft keeps the durable projection and starts a Follower
   (boot_image).  At the end, who can be Leader after an event (step_leader; role_kept is the form the
   cluster proofs use). *)
From Coq Require Import List NArith Bool Lia.
From stdpp Require Import gmap.
From RaftModel Require Import Base Config Node NodeCodec.
From RaftProofs Require Export NodeFrame.
From RaftProofs Require Import NodeEvent VoteProofs AdvLeaderProofs RecoverProofs ClusterLogCut ClusterLogVote
  ClusterLogAppend.
Open Scope N_scope.

(* every field of rest, grouped as the proofs read them: what the commit proof's node invariant looks at, the log view
   (ClusterLogVote.lkeep), the two fields the shape needs beside it, and the others *)
Lemma rest_fields s' s : rest s' = rest s ->
  (d_log s' = d_log s /\ v_lastLogIdx s' = v_lastLogIdx s /\ v_latest s' = v_latest s /\
   v_committed s' = v_committed s /\ v_applied s' = v_applied s /\ v_commit s' = v_commit s) /\
  lkeep s' s /\ v_lastSnapTerm s' = v_lastSnapTerm s /\ v_fsmLast s' = v_fsmLast s /\
  (d_staged s' = d_staged s /\ d_pcommit s' = d_pcommit s /\ v_fsm s' = v_fsm s /\
   v_latestIdx s' = v_latestIdx s /\ v_committedIdx s' = v_committedIdx s).
Proof. intros E. injection E; intros. repeat split; assumption. Qed.

Definition with_term (d : dimg) (t : N) : dimg := mkD t (di_log d) (di_snaps d) (di_staged d) (di_pcommit d).

(* the trace holds at most one durable write that the projection dimg sees: a term, not below *)
Definition term_write (s : nstate) (tr : list ev) : Prop :=
  dlf tr = [] \/ exists t, dlf tr = [ESetTerm t true] /\ d_term s <= t.

Lemma term_write_images P si s tr j : term_write s tr ->
  let d := fold_left (d_apply P si) (firstn j (dlf tr)) (dpr s) in
  d = dpr s \/ exists t, d_term s <= t /\ d = with_term (dpr s) t.
Proof.
  intros [E|(t & E & Ht)]; rewrite E; cbv zeta.
  - left. destruct j; reflexivity.
  - destruct j as [|[|j]]; [left; reflexivity|right; exists t; auto|right; exists t; auto].
Qed.

Lemma request_vote_rest s fs q : wfu s ->
  match request_vote s fs q with
  | Done s' r tr fs' =>
      rest s' = rest s /\ d_term s <= d_term s' /\ term_write s tr
  | Panic s' tr => term_write s tr
  end.
Proof.
  intros Hw. destruct (request_vote_out s fs q Hw) as [Htr Ht].
  apply (vote_trace_filter is_rel) in Htr; [|intros [] []; reflexivity|reflexivity].
  destruct (request_vote s fs q) as [s' r tr fs'|s' tr] eqn:E; [|exact Htr].
  split; [eapply request_vote_frame; [..|exact E]; intros; reflexivity|].
  split; [exact Ht|exact Htr].
Qed.

(* a handler that returns and leaves a Leader: the server was Leader, in the same term (electSelf apart) *)
Lemma returned_leader P s fs e s' : returned P s fs e s' -> e <> NElect -> v_role s' = Leader ->
  v_role s = Leader /\ v_term s' = v_term s.
Proof.
  intros H Hne Hr. destruct (post_rt _ _ _ (returned_post _ _ _ _ _ H) Hne) as [F|[T [R|C]]];
    [rewrite F in Hr; discriminate|split; congruence|rewrite C in Hr; discriminate].
Qed.

Lemma boot_image P img r oo : keys_ok (d_log img) -> boot P img = (r, oo) ->
  dpr (image r) = dpr img /\ forall s, r = Up s -> v_role s = Follower.
Proof.
  intros Hk HB. destruct (boot_cases _ _ _ _ HB) as [(s & tr & ER & ->)| ->]; [|split; [reflexivity|discriminate]].
  destruct (recover_ok P img s tr Hk ER) as ((Dt & _ & _ & Dl & Dg & Dp & Ds) & _ & Hr & _).
  split; [unfold dpr; simpl; congruence|]. intros s0 Hs0. inversion Hs0; subst. exact Hr.
Qed.

Section NodeStep.
  Variable P : params.
  Variables (Iup : nstate -> Prop) (Iimg : dimg -> Prop).

  Definition Irun (r : nrun) : Prop := match r with Up s => Iup s | Down s => Iimg (dpr s) end.

  Hypothesis I_img : forall s, Iup s -> Iimg (dpr s).
  Hypothesis I_keys : forall d, Iimg d -> keys_ok (di_log d).
  Hypothesis I_boot : forall img r oo, Iimg (dpr img) -> boot P img = (r, oo) -> Irun r.
  Hypothesis I_term : forall d t, Iimg d -> di_term d <= t -> Iimg (with_term d t).
  Hypothesis I_keep : forall s s', Iup s -> rest s' = rest s -> d_term s <= d_term s' -> Iup s'.

  Lemma Irun_image r : Irun r -> Iimg (dpr (image r)).
  Proof. destruct r; simpl; auto. Qed.

  Lemma boot_I img r oo : Iimg (dpr img) -> boot P img = (r, oo) ->
    Irun r /\ dpr (image r) = dpr img /\ forall s, r = Up s -> v_role s = Follower.
  Proof.
    intros Hi HB. split; [apply (I_boot img r oo Hi HB)|apply (boot_image P img r oo (I_keys _ Hi) HB)].
  Qed.

  (* the process died inside a handler with trace tr: NewRaft ran on the replay of a prefix of tr, kept the durable
     projection, and a server it started is a Follower *)
  Definition crashed (s : nstate) (si : option snapshot) (tr : list ev) (r' : nrun) : Prop :=
    exists img oo j, boot P img = (r', oo) /\ dpr (image r') = dpr img /\
      dpr img = fold_left (d_apply P si) (firstn j tr) (dpr s) /\
      forall s', r' = Up s' -> v_role s' = Follower.

  (* a handler ran: it returned a good state, or the process died and NewRaft ran on a good image *)
  Lemma finish_I {R} (enc : R -> list N) (mk : R -> nobs) si s cut (o : outcome R) r' ob out :
    (forall j, Iimg (fold_left (d_apply P si) (firstn j (trace_of o)) (dpr s))) ->
    (forall s' r tr fs', o = Done s' r tr fs' -> Iup s') ->
    finish P enc mk si s cut o = (r', ob, out) ->
    Irun r' /\
    ((exists s1 r tr fs', o = Done s1 r tr fs' /\ r' = Up s1 /\ ob = mk r) \/
     (ob = OLost /\ crashed s si (trace_of o) r')).
  Proof.
    intros Himg Hdone HF.
    destruct (finish_replay P enc mk si s cut o r' ob out HF) as [(s1 & r & tr & fs' & Ho & -> & ->)|(img & oo & j & HB & -> & Hj)].
    - split; [apply (Hdone s1 r tr fs' Ho)|left; exists s1, r, tr, fs'; auto].
    - destruct (boot_I img r' oo) as (A & B & D); [rewrite Hj; apply Himg|exact HB|].
      split; [exact A|right]. split; [reflexivity|]. exists img, oo, j. auto.
  Qed.

  (* RequestVote, pre-vote, restart, TimeoutNow: the server is as it was; or it kept `rest`, its term
     did not fall, and it is Leader only if it was, in the same term; or NewRaft ran on its image, with
     the term possibly risen *)
  Definition simple_post (r r' : nrun) : Prop :=
    r' = r \/
    (exists s s', r = Up s /\ r' = Up s' /\ rest s' = rest s /\ d_term s <= d_term s' /\
       (v_role s' = Leader -> v_role s = Leader /\ v_term s' = v_term s)) \/
    (exists img oo t, boot P img = (r', oo) /\ dpr (image r') = dpr img /\ d_term (image r) <= t /\
       dpr img = with_term (dpr (image r)) t /\ forall s', r' = Up s' -> v_role s' = Follower).

  Lemma with_term_same s : with_term (dpr s) (d_term s) = dpr s.
  Proof. reflexivity. Qed.

  Theorem simple_step_I r e cut fs r' ob out : wfr r -> Irun r -> simple_event e ->
    step_full P r e cut fs = (r', ob, out) -> Irun r' /\ simple_post r r'.
  Proof.
    intros Hw Hn He. unfold step_full.
    assert (Hrestart : forall rr oo, boot P (image r) = (rr, oo) -> Irun rr /\ simple_post r rr).
    { intros rr oo HB. destruct (boot_I (image r) rr oo (Irun_image r Hn) HB) as (A & B & D).
      split; [exact A|]. right. right. exists (image r), oo, (d_term (image r)). rewrite with_term_same. auto using N.le_refl. }
    assert (Hsame : Irun r /\ simple_post r r) by (split; [exact Hn|left; reflexivity]).
    destruct r as [s|s]; destruct e as [q|q|a|q| | | | |]; try contradiction.
    - intros HF. pose proof (request_vote_rest s fs q Hw) as Hk. simpl in Hn.
      assert (Htw : term_write s (trace_of (request_vote s fs q))).
      { destruct (request_vote s fs q); simpl; [apply Hk|exact Hk]. }
      assert (H1 : forall j, Iimg (fold_left (d_apply P None) (firstn j (trace_of (request_vote s fs q))) (dpr s))).
      { intros j. destruct (prefix_dlf P None (trace_of (request_vote s fs q)) (dpr s) j) as (j' & ->).
        destruct (term_write_images P None s _ j' Htw) as [->|(t & Ht & ->)]; [apply I_img, Hn|apply I_term; [apply I_img, Hn|exact Ht]]. }
      assert (H2 : forall s' rr tr fs', request_vote s fs q = Done s' rr tr fs' -> Iup s').
      { intros s' rr tr fs' Ho. rewrite Ho in Hk. destruct Hk as (K1 & K2 & _). eapply I_keep; eauto. }
      destruct (finish_I _ _ None s cut _ r' ob out H1 H2 HF) as [A [(s1 & rr & tr & fs' & Ho & -> & _)|(_ & img & oo & j & HB & B1 & B2 & B3)]].
      + split; [exact A|]. right. left. rewrite Ho in Hk. destruct Hk as (K1 & K2 & _). exists s, s1.
        do 4 (split; [auto|]). apply (returned_leader P s fs (NVote q) s1); [cbn; eauto|discriminate].
      + split; [exact A|]. right. right.
        destruct (prefix_dlf P None (trace_of (request_vote s fs q)) (dpr s) j) as (j' & Ej). rewrite Ej in B2.
        destruct (term_write_images P None s _ j' Htw) as [E|(t & Ht & E)]; cbv zeta in E; rewrite E in B2.
        * exists img, oo, (d_term s). simpl. rewrite with_term_same. auto using N.le_refl.
        * exists img, oo, t. auto.
    - destruct (request_prevote s q) as [t g]. intros H; inversion H; subst. exact Hsame.
    - intros H; inversion H; subst. split.
      + simpl. eapply I_keep; [exact Hn|reflexivity|simpl; lia].
      + right. left. exists s, (timeout_now s). do 3 (split; [reflexivity|]). split; [simpl; lia|].
        intros Hr. change (v_role (timeout_now s)) with Candidate in Hr. discriminate.
    - destruct (boot P (image (Up s))) as [rr oo] eqn:EB. intros H; inversion H; subst r' ob out. exact (Hrestart _ _ eq_refl).
    - intros H; inversion H; subst. exact Hsame.
    - intros H; inversion H; subst. exact Hsame.
    - intros H; inversion H; subst. exact Hsame.
    - destruct (boot P (image (Down s))) as [rr oo] eqn:EB. intros H; inversion H; subst r' ob out. exact (Hrestart _ _ eq_refl).
  Qed.
End NodeStep.

(* A fact about step_full alone: a server that is Leader after an event was Leader before it, in the same term
   and with the same cached last index; after a delivered AppendEntries it is Leader only if nothing changed or
   the request carried its own term.  The process died => NewRaft => Follower. *)
Theorem step_leader P s e cut fs s' ob out : wfu s -> step_full P (Up s) e cut fs = (Up s', ob, out) -> v_role s' = Leader ->
  match e with
  | NAppend a => s' = s \/ (v_role s = Leader /\ aq_term a = v_term s)
  | NVote _ | NPreVote _ | NTimeoutDecision | NSnapshot =>
      v_role s = Leader /\ v_term s' = v_term s /\ v_lastLogIdx s' = v_lastLogIdx s
  | NTimeoutNow | NRestart => False
  | NInstall _ | NElect => True
  end.
Proof.
  intros Hw HF Hr.
  destruct (step_full_inv _ _ _ _ _ _ _ _ HF) as [(img & oo & Hb & _)|[(s0 & Hd & _)|(s0 & s1 & E0 & E1 & Hret)]]; [| |clear HF].
  { destruct (boot_leader _ _ _ _ Hb) as [_ Hf]. rewrite Hf in Hr. discriminate. }
  { discriminate Hd. }
  inversion E0; subst s0. inversion E1; subst s1.
  pose proof (fun Hne => returned_leader _ _ _ _ _ Hret Hne Hr) as Hrt.
  destruct e as [q|q|a|q| | | | |]; try exact I; cbn [returned] in Hret; try destruct Hret as (r & tr & fs' & Ho); subst; auto.
  - destruct Hrt as [R T]; [discriminate|]. pose proof (request_vote_rest s fs q Hw) as Hk. rewrite Ho in Hk.
    destruct Hk as (K & _). injection K; intros. auto.
  - apply (append_entries_role P s fs a s' r tr fs' Ho Hr).
  - change (v_role (timeout_now s)) with Candidate in Hr. discriminate.
  - destruct Hrt as [R T]; [discriminate|].
    assert (F : body_frame v_lastLogIdx (fun _ => True) s [] (take_snapshot P s fs))
      by (apply take_snapshot_frame; intros; reflexivity || exact I).
    rewrite Ho in F. destruct F as [F _]. auto.
Qed.

(* the form in which the cluster proofs use it: a handler makes nobody Leader, and leaves a Leader its term and
   cached last index *)
Definition role_kept (r r' : nrun) : Prop :=
  forall s', r' = Up s' -> v_role s' = Leader ->
    exists s, r = Up s /\ v_role s = Leader /\ v_term s' = v_term s /\ v_lastLogIdx s' = v_lastLogIdx s.

Definition quiet_event (e : nevent) : Prop := match e with NAppend _ | NInstall _ | NElect => False | _ => True end.

Lemma simple_quiet e : simple_event e -> quiet_event e.
Proof. destruct e; simpl; intros H; try contradiction; exact I. Qed.

Lemma step_role_kept P r e cut fs r' ob out : wfr r -> quiet_event e -> step_full P r e cut fs = (r', ob, out) -> role_kept r r'.
Proof.
  intros Hw He HF. unfold role_kept. intros s' -> Hr. destruct r as [s|s].
  - pose proof (step_leader P s e cut fs s' ob out Hw HF Hr) as H. exists s.
    destruct e; try contradiction; destruct H as (A & B & D); auto.
  - exfalso. destruct (step_full_inv _ _ _ _ _ _ _ _ HF) as [(img & oo & Hb & _)|[(s0 & _ & Hd)|(s0 & s1 & Hd & _)]]; try discriminate Hd.
    destruct (boot_leader _ _ _ _ Hb) as [_ Hf]. rewrite Hf in Hr. discriminate.
Qed.

(* a delivered AppendEntries: the target is not a Leader of the request's term *)
Lemma deliver_role_kept P s a cut fs r' ob out : wfu s -> (v_role s = Leader -> aq_term a <> v_term s) ->
  step_full P (Up s) (NAppend a) cut fs = (r', ob, out) -> role_kept (Up s) r'.
Proof.
  intros Hw Hlead HF. unfold role_kept. intros s' -> Hr. destruct (step_leader P s (NAppend a) cut fs s' ob out Hw HF Hr) as [->|[Hl Ht]].
  - exists s. auto.
  - destruct (Hlead Hl Ht).
Qed.
