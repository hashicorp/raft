(* Model/Config.v (configuration.go): nextConfiguration changes the vote of at most one server, so
   majorities of successive checked configurations intersect; quorumSize is a strict majority of the voters. *)
From Coq Require Import List NArith ZArith Bool Lia Arith.
From RaftModel Require Import Base Config.
Open Scope N_scope.
Ltac Zify.zify_post_hook ::= Z.div_mod_to_equations.

Lemma mem_In x l : mem x l = true <-> In x l.
Proof.
  induction l as [|y r IH]; simpl; [split; [discriminate|tauto]|].
  rewrite orb_true_iff, IH, N.eqb_eq. split; intros [H|H]; auto.
Qed.

Lemma nodup_b_NoDup l : nodup_b l = true <-> NoDup l.
Proof.
  induction l as [|x r IH]; simpl; [split; [constructor|reflexivity]|].
  rewrite andb_true_iff, negb_true_iff, IH. split.
  - intros [Hm Hn]. constructor; [|exact Hn]. rewrite <- mem_In. congruence.
  - intros H. inversion H as [|? ? Hni Hnd]; subst. split; [|exact Hnd].
    destruct (mem x r) eqn:E; [|reflexivity]. apply mem_In in E. contradiction.
Qed.

Theorem next_config_checked cur idx q new :
  next_config cur idx q = Some new -> check_config new = true.
Proof.
  unfold next_config. destruct (_ && _); [discriminate|].
  destruct (check_config (apply_change cur q)) eqn:E; [|discriminate].
  intros H. inversion H; subst. exact E.
Qed.

Theorem next_config_stale_prev cur idx q :
  r_prev q <> 0 -> r_prev q <> idx -> next_config cur idx q = None.
Proof.
  intros H0 H1. unfold next_config.
  destruct (N.ltb_spec 0 (r_prev q)); [|lia].
  destruct (N.eqb_spec (r_prev q) idx); [contradiction|]. reflexivity.
Qed.

Theorem next_config_prev cur idx q new :
  next_config cur idx q = Some new -> r_prev q = 0 \/ r_prev q = idx.
Proof.
  unfold next_config. destruct (N.ltb_spec 0 (r_prev q)); simpl.
  - destruct (N.eqb_spec (r_prev q) idx); simpl; [auto|discriminate].
  - intros _. left. lia.
Qed.

Theorem next_config_is_apply cur idx q new :
  next_config cur idx q = Some new -> new = apply_change cur q.
Proof.
  unfold next_config. destruct (_ && _); [discriminate|].
  destruct (check_config _); [|discriminate]. intros H; inversion H; reflexivity.
Qed.

Lemma update_first_other p f c i x :
  (forall s, p s = true -> s_id s = i /\ s_id (f s) = i) -> x <> i ->
  has_vote (fst (update_first p f c)) x = has_vote c x /\
  in_config (fst (update_first p f c)) x = in_config c x.
Proof.
  intros Hp Hx. induction c as [|s r IH]; simpl; [auto|].
  destruct (p s) eqn:E; simpl.
  - destruct (Hp s E) as [H1 H2]. rewrite H1, H2.
    destruct (N.eqb_spec i x); [congruence|auto].
  - destruct (update_first p f r) as [r' b]. simpl in *.
    destruct IH as [IH1 IH2]. rewrite IH1, IH2. auto.
Qed.

Lemma remove_first_other p c i x :
  (forall s, p s = true -> s_id s = i) -> x <> i ->
  has_vote (remove_first p c) x = has_vote c x /\ in_config (remove_first p c) x = in_config c x.
Proof.
  intros Hp Hx. induction c as [|s r IH]; simpl; [auto|].
  destruct (p s) eqn:E; simpl.
  - rewrite (Hp s E). destruct (N.eqb_spec i x); [congruence|auto].
  - destruct IH as [IH1 IH2]. rewrite IH1, IH2. auto.
Qed.

Lemma app_other c s x : x <> s_id s ->
  has_vote (c ++ [s]) x = has_vote c x /\ in_config (c ++ [s]) x = in_config c x.
Proof.
  intros Hx. induction c as [|t r IH]; simpl.
  - destruct (N.eqb_spec (s_id s) x); [congruence|auto].
  - destruct IH as [IH1 IH2]. rewrite IH1, IH2. auto.
Qed.

Theorem apply_change_other cur q x : x <> r_id q ->
  has_vote (apply_change cur q) x = has_vote cur x /\
  in_config (apply_change cur q) x = in_config cur x.
Proof.
  intros Hx. unfold apply_change.
  destruct (r_cmd q =? 0).
  { match goal with |- context [update_first ?P ?F cur] =>
      pose proof (update_first_other P F cur (r_id q) x) as H;
      destruct (update_first P F cur) as [c' found] end.
    simpl in H. destruct found.
    + apply H; [|exact Hx]. intros s Hs. apply N.eqb_eq in Hs.
      destruct (is_voter s); simpl; auto.
    + apply app_other. simpl. exact Hx. }
  destruct (r_cmd q =? 1).
  { match goal with |- context [update_first ?P ?F cur] =>
      pose proof (update_first_other P F cur (r_id q) x) as H;
      destruct (update_first P F cur) as [c' found] end.
    simpl in H. destruct found.
    + apply H; [|exact Hx]. intros s Hs. apply N.eqb_eq in Hs.
      destruct (negb _); simpl; auto.
    + apply app_other. simpl. exact Hx. }
  destruct (r_cmd q =? 2).
  { apply (update_first_other _ _ _ (r_id q)); [|exact Hx]. intros s Hs. apply N.eqb_eq in Hs. simpl. auto. }
  destruct (r_cmd q =? 3).
  { apply (remove_first_other _ _ (r_id q)); [|exact Hx]. intros s Hs. apply N.eqb_eq in Hs. exact Hs. }
  destruct (r_cmd q =? 4).
  { apply (update_first_other _ _ _ (r_id q)); [|exact Hx]. intros s Hs. apply andb_true_iff in Hs.
    destruct Hs as [Hs _]. apply N.eqb_eq in Hs. simpl. auto. }
  split; reflexivity.
Qed.

(* Every successful change alters the vote of at most one server id: the one it names. *)
Theorem next_config_one_voter cur idx q new :
  next_config cur idx q = Some new ->
  forall x, x <> r_id q -> has_vote new x = has_vote cur x /\ in_config new x = in_config cur x.
Proof.
  intros H x Hx. apply next_config_is_apply in H. subst. apply apply_change_other. exact Hx.
Qed.

Lemma has_vote_In c x : NoDup (map s_id c) -> (has_vote c x = true <-> In x (voters c)).
Proof.
  unfold voters. induction c as [|s r IH]; simpl; intros Hnd; [split; [discriminate|tauto]|].
  inversion Hnd as [|? ? Hni Hr]; subst. specialize (IH Hr).
  destruct (N.eqb_spec (s_id s) x) as [E|Hne].
  - subst x. destruct (is_voter s) eqn:Hv; simpl.
    + split; auto.
    + split; [discriminate|]. intros Hin. exfalso. apply Hni.
      apply in_map_iff in Hin. destruct Hin as (t & Ht & Hin). apply filter_In in Hin.
      apply in_map_iff. exists t. tauto.
  - rewrite IH. destruct (is_voter s); simpl; [|tauto]. split; [auto|intros [H|H]; [congruence|exact H]].
Qed.

Lemma voters_NoDup c : NoDup (map s_id c) -> NoDup (voters c).
Proof.
  unfold voters. induction c as [|s r IH]; simpl; intros Hnd; [constructor|].
  inversion Hnd as [|? ? Hni Hr]; subst. destruct (is_voter s); simpl; [|auto].
  constructor; [|auto]. intros Hin. apply Hni.
  apply in_map_iff in Hin. destruct Hin as (t & Ht & Hin). apply filter_In in Hin.
  apply in_map_iff. exists t. tauto.
Qed.

Lemma check_config_facts c : check_config c = true ->
  NoDup (map s_id c) /\ NoDup (map s_addr c) /\ voters c <> [] /\
  (forall s, In s c -> s_id s <> 0 /\ s_addr s <> 0).
Proof.
  unfold check_config. rewrite !andb_true_iff. intros ((((H1 & H2) & H3) & H4) & H5).
  apply nodup_b_NoDup in H3. apply nodup_b_NoDup in H4.
  split; [exact H3|]. split; [exact H4|]. split.
  - unfold voters. intros E. apply negb_true_iff in H5.
    apply Nat.eqb_neq in H5. apply H5. apply (f_equal (@length N)) in E.
    rewrite map_length in E. exact E.
  - intros s Hs. rewrite forallb_forall in H1, H2. specialize (H1 s Hs). specialize (H2 s Hs).
    apply negb_true_iff in H1, H2. apply N.eqb_neq in H1, H2. auto.
Qed.

Definition majority (V Q : list N) : Prop :=
  NoDup Q /\ incl Q V /\ (2 * length Q > length V)%nat.

Lemma disjoint_app_NoDup (Q Q' : list N) :
  NoDup Q -> NoDup Q' -> (forall x, In x Q -> ~ In x Q') -> NoDup (Q ++ Q').
Proof.
  induction Q as [|a r IH]; simpl; intros H1 H2 Hd; [exact H2|].
  inversion H1; subst. constructor.
  - rewrite in_app_iff. intros [H|H]; [contradiction|]. apply (Hd a); auto.
  - apply IH; auto.
Qed.

Lemma nested_majorities_intersect (V V' Q Q' : list N) (v : N) :
  NoDup V -> incl V' V -> incl V (v :: V') -> majority V Q -> majority V' Q' -> exists x, In x Q /\ In x Q'.
Proof.
  intros HV Hsub Hsup (HQ & HiQ & HmQ) (HQ' & HiQ' & HmQ').
  destruct (existsb (fun x => mem x Q') Q) eqn:E.
  - apply existsb_exists in E. destruct E as (x & Hx & Hm). apply mem_In in Hm. eauto.
  - exfalso.
    assert (Hd : forall x, In x Q -> ~ In x Q').
    { intros x Hx Hx'. assert (existsb (fun x => mem x Q') Q = true); [|congruence].
      apply existsb_exists. exists x. split; [exact Hx|]. apply mem_In. exact Hx'. }
    assert (Hin : incl (Q ++ Q') V).
    { intros x Hx. apply in_app_iff in Hx. destruct Hx as [Hx|Hx]; [auto|apply Hsub, HiQ', Hx]. }
    pose proof (NoDup_incl_length (disjoint_app_NoDup Q Q' HQ HQ' Hd) Hin). pose proof (NoDup_incl_length HV Hsup).
    rewrite app_length in *. simpl in *. lia.
Qed.

Theorem adjacent_majorities_intersect (V V' Q Q' : list N) (v : N) :
  NoDup V -> NoDup V' ->
  (forall x, x <> v -> (In x V <-> In x V')) ->
  majority V Q -> majority V' Q' ->
  exists x, In x Q /\ In x Q'.
Proof.
  intros HV HV' Hadj HQ HQ'.
  assert (Hone : forall A B : list N, (forall x, x <> v -> In x A -> In x B) -> incl A (v :: B)).
  { intros A B H x Hx. destruct (N.eq_dec x v); [subst; left; reflexivity|right; auto]. }
  destruct (in_dec N.eq_dec v V) as [HvV|HvV].
  - (* V' lies inside V *)
    apply (nested_majorities_intersect V V' Q Q' v HV); [|apply Hone; intros x Hx; apply Hadj, Hx|exact HQ|exact HQ'].
    intros x Hx. destruct (N.eq_dec x v); [subst; exact HvV|apply Hadj; assumption].
  - (* V lies inside V' *)
    destruct (nested_majorities_intersect V' V Q' Q v HV') as (x & H1 & H2);
      [|apply Hone; intros x Hx; apply Hadj, Hx|exact HQ'|exact HQ|eauto].
    intros x Hx. destruct (N.eq_dec x v); [subst; contradiction|apply Hadj; assumption].
Qed.

Corollary majorities_intersect (V Q Q' : list N) :
  NoDup V -> majority V Q -> majority V Q' -> exists x, In x Q /\ In x Q'.
Proof. intros HV. apply (adjacent_majorities_intersect V V Q Q' 0 HV HV). tauto. Qed.

Lemma majority_nonempty (vs W : list N) : majority vs W -> exists w, In w W.
Proof. intros (_ & _ & H). destruct W as [|w r]; [simpl in H; lia|exists w; left; reflexivity]. Qed.

Theorem next_config_majorities_intersect cur idx q new Q Q' :
  check_config cur = true -> next_config cur idx q = Some new ->
  majority (voters cur) Q -> majority (voters new) Q' -> exists x, In x Q /\ In x Q'.
Proof.
  intros Hc Hn. pose proof (next_config_checked _ _ _ _ Hn) as Hc'.
  destruct (check_config_facts _ Hc) as (Hnd & _). destruct (check_config_facts _ Hc') as (Hnd' & _).
  apply (adjacent_majorities_intersect _ _ Q Q' (r_id q)); try (apply voters_NoDup; assumption).
  intros x Hx. rewrite <- !has_vote_In by assumption.
  destruct (next_config_one_voter _ _ _ _ Hn x Hx) as [H _]. rewrite H. tauto.
Qed.

Theorem quorum_size_majority c :
  let n := N.of_nat (length (voters c)) in
  2 * quorum_size c > n /\ (n > 0 -> quorum_size c <= n) /\ 2 * (quorum_size c - 1) <= n.
Proof.
  unfold quorum_size, voters. rewrite map_length.
  set (n := N.of_nat (length (filter is_voter c))). lia.
Qed.

Theorem quorum_size_ignores_nonvoters c s :
  is_voter s = false -> quorum_size (c ++ [s]) = quorum_size c /\ quorum_size (s :: c) = quorum_size c.
Proof.
  intros H. unfold quorum_size. rewrite filter_app. simpl. rewrite H. rewrite app_nil_r. auto.
Qed.
