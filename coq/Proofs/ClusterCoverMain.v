(* ClusterCoverMain.v — C11 "snapshots and compaction never lose history" (Proofs/ClusterCoverSpec.v), in
   every state reachable in Model/ClusterCommit.v WITH takeSnapshot and log compaction (crun true), for
   the durable state of every server, running or stopped (crashed at any point inside any handler or
   inside takeSnapshot).

   The invariant is the one of Proofs/ClusterCommitSnapMain.v (Zinvg, with its FSM clauses: in particular the log store of a
   durable image has no hole above ALL its snapshots, zi_seg) together with: every snapshot store is
   sorted by index.  Sortedness is kept because the only step that changes a snapshot store is
   takeSnapshot, which appends a snapshot at the FSM index of a running
   server; that index is not below the server's snapshot index (zu_fs), which is not below the index
   of any stored snapshot (zs_sn).  With sorted stores the newest snapshot is the largest one, and
   "no hole above all snapshots" is "no hole above the newest snapshot".

   In order: sorted snapshot stores and "covered or stored" from the per-server invariant of
   Proofs/ClusterCommitSnapLog.v; what a step does to the snapshot store of the server it touches (cmove,
   Proofs/ClusterCommitMove.v), in a state satisfying the invariant: it keeps it, or appends ONE snapshot, taken by
   the running server at its FSM index, also when the process dies inside takeSnapshot after the snapshot became
   durable; the theorem.

   Side conditions: cinit_snap_ok (Proofs/ClusterCommitSnapSpec.v), label_ok (Proofs/ClusterCommitSpec.v). *)
From Coq Require Import List NArith Bool Lia.
From stdpp Require Import gmap.
From RaftModel Require Import Base Config Node Candidate Cluster NodeCodec
  ClusterLog ClusterCommit.
From RaftProofs Require Import ClusterProofs ClusterStepInv ClusterLogChain ClusterLogNode ClusterLogVote
  ClusterLogLeader ClusterCommitSpec ClusterCommitLog ClusterCommitChain ClusterCommitGhost ClusterCommitUpd
  ClusterCommitSnapSpec ClusterCommitSnapLog ClusterCommitSnapTake ClusterCommitSnapNode ClusterCommitSnapNode3
  ClusterCommitSnapLinv ClusterCommitSnapInv2 ClusterCommitSnapMain ClusterCoverSpec ClusterCommitSnapStepDeliver
  ClusterCommitSnapStepSnapshot NodeFrame ClusterCommitMove.
Open Scope N_scope.

Definition snaps_sorted (l : list snapshot) : Prop :=
  forall l1 a l2 b l3, l = l1 ++ a :: l2 ++ b :: l3 -> sn_idx a <= sn_idx b.

Lemma snaps_sorted_nil : snaps_sorted [].
Proof. intros l1 a l2 b l3 H. destruct l1; discriminate. Qed.

Lemma snaps_sorted_snoc l x : snaps_sorted l -> (forall y, In y l -> sn_idx y <= sn_idx x) -> snaps_sorted (l ++ [x]).
Proof.
  intros Hs Hx l1 a l2 b l3 E.
  destruct l3 as [|c l3c].
  - (* b is the appended one *)
    replace (l1 ++ a :: l2 ++ [b]) with ((l1 ++ a :: l2) ++ [b]) in E by (rewrite <- app_assoc; reflexivity).
    apply app_inj_tail in E. destruct E as [El ->]. apply Hx. rewrite El. apply in_app_iff. right. left. reflexivity.
  - destruct (exists_last (l:=c :: l3c)) as (l3' & z & E3); [discriminate|]. rewrite E3 in E.
    replace (l1 ++ a :: l2 ++ b :: l3' ++ [z]) with ((l1 ++ a :: l2 ++ b :: l3') ++ [z]) in E.
    + apply app_inj_tail in E. destruct E as [El _]. apply (Hs l1 a l2 b l3' El).
    + rewrite <- app_assoc. simpl. rewrite <- app_assoc. reflexivity.
Qed.

Lemma sorted_newest s sn : snaps_sorted (d_snaps s) -> In sn (d_snaps s) -> sn_idx sn <= newest_snap_idx s.
Proof.
  unfold newest_snap_idx. intros Hs Hin.
  destruct (d_snaps s) as [|c lc] eqn:Ed; [destruct Hin|].
  destruct (exists_last (l:=c :: lc)) as (l & z & E); [discriminate|].
  rewrite E, rev_app_distr. simpl. rewrite E in Hin. apply in_app_iff in Hin. destruct Hin as [Hin|[<-|[]]]; [|lia].
  apply in_split in Hin. destruct Hin as (l1 & l2 & ->). apply (Hs l1 sn l2 z []). rewrite E, <- app_assoc. reflexivity.
Qed.

(* what one step does to the snapshot store of a server whose run state was r *)
Definition snaps_step (r : nrun) (sns' : list snapshot) : Prop :=
  sns' = d_snaps (image r) \/ exists s, r = Up s /\ fst (v_fsmLast s) <> 0 /\ sns' = d_snaps s ++ [snap_of s].

Lemma snap_eff_step s m' sns' : snap_eff s m' sns' -> snaps_step (Up s) sns'.
Proof. intros [[_ ->]|(Hnz & -> & _)]; [left; reflexivity|right; exists s; auto]. Qed.

Section Node.
  Variable cfg : config.
  Variable Ps : list params.

  (* takeSnapshot appends a snapshot at the FSM index, which is not below the server's snapshot index,
     which is not below any stored snapshot *)
  Lemma sorted_snaps_step C P r sns' : chain_ok C -> znlog C r -> znodeg cfg Ps true P r ->
    snaps_sorted (d_snaps (image r)) -> snaps_step r sns' -> snaps_sorted sns'.
  Proof.
    intros HC Hz Hn Hs [->|(s & -> & Hnz & ->)]; [exact Hs|]. simpl in *.
    destruct Hn as (_ & _ & Hup). apply snaps_sorted_snoc; [exact Hs|].
    intros y Hy. destruct (zs_sn Hz y Hy) as (_ & _ & _ & Ha).
    destruct (anc_le C _ _ HC Ha) as [Hle _]. simpl in Hle.
    destruct (zu_fs Hup eq_refl) as [E|H]; [contradiction|]. unfold snap_of. simpl. lia.
  Qed.
End Node.

(* no hole above all snapshots + the newest snapshot is the largest = covered or stored *)
Lemma zimg_covered C s : zimg C s -> snaps_sorted (d_snaps s) -> covered_or_stored s.
Proof.
  intros Hz Hs i Hi.
  destruct (N.le_gt_cases i (newest_snap_idx s)) as [Hle|Hgt]; [left; exact Hle|right].
  destruct (N.le_gt_cases i (log_last (d_log s))) as [Hl|Hl].
  - left. apply (zi_seg _ _ _ _ Hz i Hi); [|exact Hl].
    intros sn Hsn. pose proof (sorted_newest s sn Hs Hsn). lia.
  - right. intros j Hj. destruct (d_log s !! j) as [e|] eqn:E; [|reflexivity].
    pose proof (log_last_ge _ _ _ E). lia.
Qed.

Lemma loop_run_snaps P x : d_snaps (image (loop_run P x)) = d_snaps (sess_state x).
Proof. destruct x; cbn [loop_run sess_state image]; try reflexivity. apply (ap_snaps (become_leader_appended P _)). Qed.

Section Step.
  Variable cfg : config.
  Variable Ps : list params.
  Hypothesis HVn : NoDup (voters cfg).
  Variables (g : cgstate) (C : chain) (LL : LLt) (A : At) (V : Vt).
  Hypothesis HI : zinvg cfg Ps true g C LL A V.

  Let Hlinv := zg_l HI.
  Let HC := ci_ok (zg_ci HI).
  Let Hp := zinv_pclosed cfg Ps true g C LL A V HI.

  Lemma node_step_snaps nj e cut fs r' ob out : In nj (cnodes g) -> event_in true g e ->
    step_full (gn_P nj) (gn_run nj) e cut fs = (r', ob, out) -> snaps_step (gn_run nj) (d_snaps (image r')).
  Proof.
    intros Hin He Hsf. destruct (zl_nodes [cfg] _ C Hlinv nj Hin) as [Hnl _].
    pose proof (zg_node HI nj Hin) as Hcn.
    assert (Hsimple : simple_event e -> snaps_step (gn_run nj) (d_snaps (image r'))).
    { intros Hse. pose proof (ginv_wfr (zl_g [cfg] _ C Hlinv) Hin) as Hw.
      destruct (simple_step_z cfg Ps true C (gn_P nj) (gn_run nj) e cut fs r' ob out HC Hp Hw Hnl Hcn Hse Hsf) as (_ & _ & (_ & Hq & _)).
      left. exact Hq. }
    destruct e as [q|q|a|q| | | | |]; try (apply Hsimple; exact I); try contradiction.
    - destruct He as (m & Hm & ->). destruct (gn_run nj) as [s|sd] eqn:Hr.
      + destruct (zdeliver_reach cfg Ps true HVn g C LL A V HI nj s m Hin Hr Hm cut fs r' ob out Hsf) as (_ & _ & Hq & _).
        left. exact Hq.
      + simpl in Hsf. inversion Hsf; subst r' ob out. left. reflexivity.
    - destruct (gn_run nj) as [s|sd] eqn:Hr.
      + destruct (znode_zup_wfu HI nj s Hin Hr) as [Hz _].
        assert (Hfsm : fsm_on_branch C s) by (intros Hnz; apply (fsm_facts cfg Ps HVn g C LL A V nj s HI Hin Hr Hnz)).
        destruct (snapshot_step_z cfg Ps C (gn_P nj) s cut fs r' ob out HC Hp Hz Hcn Hfsm Hsf) as (_ & _ & _ & Heff & _).
        apply (snap_eff_step s _ _ Heff).
      + simpl in Hsf. inversion Hsf; subst r' ob out. left. reflexivity.
  Qed.

  (* only takeSnapshot writes the snapshot store *)
  Lemma cmove_snaps l n r' L' : In n (cnodes g) -> cmove true g l n r' L' -> snaps_step (gn_run n) (d_snaps (image r')).
  Proof.
    intros Hin [e cut fs r1 ob out _ He Hsf|s x Hr Hx|s ty data fs Hr _|s Hr _|s ld ls2 tr res Hr _ _ _ Hlc].
    - apply (node_step_snaps n e cut fs r1 ob out Hin He Hsf).
    - left. rewrite loop_run_snaps, Hr. apply (loop_result_frame d_snaps) with (P := gn_P n); auto.
    - left. rewrite Hr. pose proof (dispatch_one_cases (gn_P n) s fs ty data 0) as H. cbv zeta in H.
      destruct (fst (next_fail fs)); [rewrite H; reflexivity|apply (ap_snaps H)].
    - left. rewrite Hr. reflexivity.
    - left. rewrite Hr. apply (leader_commit_ckeep _ _ _ _ Hlc).
  Qed.
End Step.

Definition stores_sorted (g : cgstate) : Prop := forall n, In n (cnodes g) -> snaps_sorted (snaps_of n).

Section Main.
  Variable cfg : config.
  Variable Ps : list params.
  Hypothesis HVn : NoDup (voters cfg).

  Theorem cstep_sorted g l g' : Zinvg cfg Ps true g -> stores_sorted g -> cstep true [cfg] g l = Some g' -> stores_sorted g'.
  Proof.
    intros (C & LL & A & V & HI) Hs Hstep x Hx.
    destruct (proj2 (cstep_nodes true [cfg] g l g' Hstep) x Hx) as (n0 & Hn0 & _ & Hrun).
    destruct Hrun as [Hk|Ht]; [unfold snaps_of; rewrite Hk; apply (Hs n0 Hn0)|].
    destruct (zl_nodes [cfg] _ C (zg_l HI) n0 Hn0) as [Hnl _].
    apply (sorted_snaps_step cfg Ps C (gn_P n0) (gn_run n0) (snaps_of x) (ci_ok (zg_ci HI)) Hnl (zg_node HI n0 Hn0) (Hs n0 Hn0)).
    apply (cmove_snaps cfg Ps HVn g C LL A V HI l n0 _ _ Hn0 Ht).
  Qed.

  Lemma sorted_no_history_lost g : Zinvg cfg Ps true g -> stores_sorted g -> no_history_lost g.
  Proof.
    intros (C & LL & A & V & HI) Hs n Hin.
    destruct (zl_nodes [cfg] _ C (zg_l HI) n Hin) as [Hnl _].
    apply (zimg_covered C _ (znlog_image C _ (ci_ok (zg_ci HI)) Hnl) (Hs n Hin)).
  Qed.
End Main.

(* SNAPSHOTS AND COMPACTION NEVER LOSE HISTORY: in the durable state of every server, every index is
   covered by the newest stored snapshot, or present in the log store, or beyond the end of the log
   store; and the snapshot stores are in index order — in every state reachable with takeSnapshot, log
   compaction and crashes at any point *)
Theorem no_history_lost_all_runs : forall cfg g0 ls g,
  cinit_snap_ok cfg g0 -> Forall label_ok ls -> crun true [cfg] g0 ls = Some g ->
  no_history_lost g /\ snaps_increasing g.
Proof.
  intros cfg g0 ls g H0 Hls Hrun.
  destruct (reach_along stores_sorted true cfg g0 ls g H0) as (HVn & HZ & Hs); [|intros HVn; apply (cstep_sorted cfg _ HVn)|exact Hls|exact Hrun|].
  - (* the initial states: no snapshot anywhere *)
    destruct H0 as (((_ & _ & base & _ & Hni) & _) & _). intros n Hin.
    destruct (Hni n Hin) as (Hsn & _). unfold snaps_of. rewrite Hsn. apply snaps_sorted_nil.
  - split; [apply (sorted_no_history_lost cfg _ g HZ Hs)|]. intros n l1 a l2 b l3 Hin. apply (Hs n Hin).
Qed.

Print Assumptions no_history_lost_all_runs.
