(* ClusterLogSnapNode.v — one event at one server keeps the node invariant of Proofs/ClusterLogSnapState.v.  The shape
   half is not proved here: it is kept by the lemmas of Proofs/ClusterCommitSnapBoot.v (NewRaft) and
   ClusterCommitSnapNode3.v (appendEntries, takeSnapshot, dispatchLogs, setupAppendEntries), whose branch hypotheses hold
   because the snapshot boundary and the FSM position are keys of the common history (or there is no snapshot):
   s_cmp, s_fsm.  What is proved here is the other half (sxi / sxu with takeSnapshot, no snapshots without), from the
   descriptions of the handlers (Proofs/ClusterCommitSnapAE.v, ..AE5.v, ..Take.v) and NodeStep.finish_I. *)
From Coq Require Import List NArith Bool Lia.
From stdpp Require Import gmap.
From RaftModel Require Import Base Compaction Node NodeCodec Replicate.
From RaftProofs Require Import NodeEvent NodeFrame CompactionProofs RecoverProofs VoteProofs LeaderProofs AdvLeaderProofs AppendProofs ClusterLogSpec
  ClusterLogChain ClusterLogNode ClusterLogCut ClusterLogVote ClusterLogAppend ClusterLogLeader NodeStep
  ClusterCommitSnapAE ClusterCommitSnapAE5 ClusterCommitSnapTake
  ClusterCommitChain ClusterCommitInv ClusterCommitSnapLog ClusterCommitSnapBoot ClusterCommitSnapNode ClusterCommitSnapNode3
  ClusterLogSnapSpec ClusterLogSnapState ClusterLogSnapBoot.
Open Scope N_scope.

Section Handlers.
  Variable h : bool.
  Variable base : list entry.
  Variable c0 : N.
  Hypothesis Hh : hist_ok (0, 0) base.

  Lemma h_cases : h = true \/ h = false.
  Proof. destruct h; auto. Qed.

  Lemma bk_universal C s : cb_ok base c0 C -> xu h base c0 s -> universal C (bk s).
  Proof.
    intros HCB [A B]. destruct (N.eq_dec (v_lastSnapIdx s) 0) as [Ez|Hnz].
    - rewrite (bk_zero s Ez). apply (root_universal base c0 C HCB).
    - rewrite (bk_pos s Hnz). destruct h_cases as [Et|Ef]; [|destruct (B Ef); contradiction].
      destruct (xu_snapkey _ _ _ (A Et)) as [E|K]; [contradiction|]. apply (bkey_universal base c0 Hh C _ HCB K).
  Qed.

  (* a request that is a piece of the history lies on one branch with the boundary *)
  Lemma s_cmp C s a : cb_ok base c0 C -> xu h base c0 s -> mchain C (aq_prevIdx a, aq_prevTerm a) (aq_entries a) ->
    on_bk_branch C s a.
  Proof.
    intros HCB HX Hm k Hk. rewrite <- (bk_fst s).
    apply (universal_cmp base c0 C (bk s) (key (last_of (aq_entries a))) k HCB (bk_universal C s HCB HX)); [|exact Hk].
    unfold last_of. destruct (aq_entries a) as [|e0 r] eqn:E; [left; reflexivity|right]. rewrite <- E in *.
    assert (Hl : In (last (aq_entries a) (mkE 0 0 0 0)) (aq_entries a)) by (apply last_in; rewrite E; discriminate).
    destruct (mchain_in C _ _ Hm _ Hl) as [q Hq]. eexists _, q. split; [exact Hq|reflexivity].
  Qed.

  (* what the FSM goroutine reports is a key of the committed prefix at or above the boundary: on the server's branch *)
  Lemma s_fsm C s : cb_ok base c0 C -> zup C s -> sxu base c0 s -> fsm_on_branch C s.
  Proof.
    intros HCB HZ HX Hnz. destruct (xu_fsm _ _ _ HX) as [E|K]; [contradiction|].
    split; [apply (bkey_created base c0 C _ HCB K)|].
    split; [destruct (bkey_term base c0 _ K) as (e & He & <-); apply (xi_tb _ _ _ (xu_img _ _ _ HX) e He)|].
    split; [|destruct (xu_w3 _ _ _ HX) as [E|W]; [contradiction|exact W]].
    rewrite last_entry_lk. apply (bkey_on_branch base c0 Hh C _ _ HCB K (zshape_lk_root C _ _ _ _ _ HZ)).
    destruct K as ((_ & Kc) & _). unfold lk. destruct (xu_u _ _ _ HX) as [U|U];
      destruct (N.leb_spec (fst (bk s)) (fst (topk s))); simpl in *; lia.
  Qed.

  Lemma recover_sxu C P img s tr : cb_ok base c0 C -> zimg C img -> sxi base c0 (dpr img) ->
    recover P img = RecOk s tr -> sxu base c0 s.
  Proof.
    intros HCB [Hin _ _ _] [Hsn Hpc Hst Hc0 Htb] ER. simpl in Hsn, Hpc, Hst, Hc0, Htb.
    pose proof (recover_apply P img s tr ER) as Happ. cbv zeta in Happ.
    apply recover_ok in ER; [|eapply log_in_keys; exact Hin].
    destruct ER as ((Dt & _ & _ & Dl & Dstg & Dpc & Ds) & Hvt & Hrole & Hli & Hlt & Hsnap & _).
    pose proof (find_ok_snap (d_snaps img) (fun sn H => proj1 (Hsn sn H))) as Hfind.
    set (a0 := match find sn_ok (list_snaps (d_snaps img)) with Some sn => sn_idx sn | None => 0 end) in *.
    assert (Hsi : v_lastSnapIdx s = a0).
    { unfold a0. destruct (find sn_ok (list_snaps (d_snaps img))); apply Hsnap. }
    (* commit index, lastApplied, the FSM goroutine *)
    assert (Hfsm : v_commit s <= c0 /\ fsm_ok base c0 (v_fsmLast s) /\ a0 <= v_applied s /\
                   fst (v_fsmLast s) <= v_applied s /\ (fst (v_fsmLast s) = 0 \/ a0 <= fst (v_fsmLast s))).
    { destruct Happ as [(A1 & A2 & A3)|(s3 & s4 & tr4 & L3 & A3 & F3 & C3 & EP & C4 & A4 & F4)].
      - rewrite A1, A2, A3. simpl. split; [lia|]. split; [left; reflexivity|]. split; [lia|]. split; [lia|left; reflexivity].
      - pose proof (process_logs_frame (fun x => (d_log x, v_commit x)) (fun _ _ _ _ => eq_refl) _ _ _ _ EP) as K. injection K as KL K9.
        rewrite <- C3 in EP. apply process_logs_adv in EP; [|rewrite L3; eapply log_in_keys; exact Hin].
        destruct (fsm_adv_order a0 s3 s4 EP) as (O1 & O2 & O3); [lia|]. rewrite F3 in O2, O3.
        rewrite C4, A4, F4, K9, C3. split; [lia|]. split; [|split; [exact O1|split; [apply O2; simpl; lia|apply O3; left; reflexivity]]].
        destruct EP as [[_ E2]|(_ & E1 & [E2|(e & He & Hr & E2)])]; rewrite E2, ?F3; [left; reflexivity..|].
        rewrite KL, L3 in He. destruct (Hin _ e He) as (_ & (p & Hp) & _). right. apply (low_bkey base c0 Hh C e p HCB Hp). lia. }
    constructor; [constructor; simpl|..]; rewrite ?Ds, ?Dl, ?Dt, ?Dstg, ?Dpc, ?Hsi; auto; try apply Hfsm.
    - (* snapshot key *)
      destruct (find sn_ok (list_snaps (d_snaps img))) as [sn|] eqn:EF.
      + destruct Hsnap as [S1 S2]. right. rewrite <- Hsi, S1, S2. apply Hsn, Hfind.
      + left. reflexivity.
    - (* the history up to c0 is reachable through the cache or the snapshot *)
      destruct Hc0 as [E0|[(e & He)|(z & Hz & Ez)]].
      + left. lia.
      + left. rewrite Hli. apply (log_last_ge _ _ e He).
      + right. unfold a0. destruct (find sn_ok (list_snaps (d_snaps img))) as [sn|] eqn:EF.
        * destruct Hfind as [Hsnin Hmax]. destruct (Hmax z Hz) as [->|Hle]; [exact Ez|].
          apply sle_spec in Hle. destruct (Hsn z Hz) as [_ Kz]. destruct (Hsn sn Hsnin) as [_ Ks].
          pose proof (bkey_order base c0 Hh _ _ Kz Ks Hle) as Ho. simpl in Ho.
          destruct Ks as ((_ & Hub) & _). simpl in Hub. lia.
        * rewrite Hfind in Hz. contradiction.
  Qed.

  Lemma boot_snlog C P img r out : cb_ok base c0 C -> good_d5 h base c0 C (dpr img) -> boot P img = (r, out) ->
    snlog h base c0 C r.
  Proof.
    intros HCB [Hz [A B]] HB. pose proof (cb_chain HCB) as HC. change (zimg C img) in Hz.
    destruct (boot_cases P img r out HB) as [(s & tr & ER & ->)| ->]; [|split; [exact Hz|split; assumption]].
    split; [apply (recover_zup C P img s tr HC (cb_closed HCB) Hz ER)|]. split.
    - intros Et. apply (recover_sxu C P img s tr HCB Hz (A Et) ER).
    - intros Ef. specialize (B Ef). simpl in B.
      destruct (recover_keys P img s tr (log_in_keys C _ _ (zi_in _ _ _ _ Hz)) ER) as (_ & _ & Hk).
      destruct (recover_ok P img s tr (log_in_keys C _ _ (zi_in _ _ _ _ Hz)) ER) as ((_ & _ & _ & _ & _ & _ & Ds) & _).
      rewrite B in Hk. simpl in Hk. split; [congruence|exact Hk].
  Qed.

  Lemma sup_keep C s s' : sup h base c0 C s -> rest s' = rest s -> d_term s <= d_term s' -> sup h base c0 C s'.
  Proof.
    intros [A B] K Ht. split; [apply (zup_keep C s s' A K Ht)|apply (xu_keep h base c0 s s' B K Ht)].
  Qed.

  Lemma finish_snlog {R} C P (enc : R -> list N) (mk : R -> nobs) si s cut (o : outcome R) r' ob out :
    cb_ok base c0 C ->
    (forall j, good_d5 h base c0 C (fold_left (d_apply P si) (firstn j (trace_of o)) (dpr s))) ->
    (forall s' r tr fs', o = Done s' r tr fs' -> sup h base c0 C s') ->
    finish P enc mk si s cut o = (r', ob, out) -> snlog h base c0 C r'.
  Proof.
    intros HC Hpre Hdone HF.
    apply (finish_I P (sup h base c0 C) (good_d5 h base c0 C)
             (fun d H => log_in_keys C _ _ (zi_in _ _ _ _ (proj1 H)))
             (fun img rr oo Hi HB => boot_snlog C P img rr oo HC Hi HB)
             enc mk si s cut o r' ob out Hpre Hdone HF).
  Qed.

  Lemma simple_step_s C P r e cut fs r' ob out : cb_ok base c0 C -> wfr r -> snlog h base c0 C r -> simple_event e ->
    step_full P r e cut fs = (r', ob, out) -> snlog h base c0 C r'.
  Proof.
    intros HC Hw Hn He HF.
    apply (simple_step_I P (sup h base c0 C) (good_d5 h base c0 C)) with r e cut fs ob out; try assumption.
    - intros s. apply (sup_img h base c0 C s (cb_chain HC)).
    - intros d H. apply (log_in_keys C _ _ (zi_in _ _ _ _ (proj1 H))).
    - intros img rr oo Hi HB. apply (boot_snlog C P img rr oo HC Hi HB).
    - apply good_d5_term.
    - apply sup_keep.
  Qed.

  Lemma snaps_ok_app l sn : snaps_ok base c0 l -> sn_ok sn = true -> bkey base c0 (sn_idx sn, sn_term sn) ->
    snaps_ok base c0 (l ++ [sn]).
  Proof.
    intros H Ho Hk z Hz. apply in_app_iff in Hz. destruct Hz as [Hz|[<-|[]]]; [apply H, Hz|auto].
  Qed.

  (* the new snapshot is one of the committed prefix and covers what the compaction removes *)
  Lemma snap_eff_sxi s m' sns' : sxu base c0 s -> snap_eff s m' sns' ->
    sxi base c0 (mkD (d_term s) m' sns' (d_staged s) (d_pcommit s)).
  Proof.
    intros HX He. pose proof (xu_img _ _ _ HX) as [X1 X2 X3 X4 X5]. simpl in *.
    destruct He as [[-> ->]|(Hnz & -> & Hm)]; [constructor; assumption|].
    assert (Hbk : bkey base c0 (v_fsmLast s)) by (destruct (xu_fsm _ _ _ HX) as [E|K]; [contradiction|exact K]).
    destruct (v_fsmLast s) as [fi ft] eqn:Ef.
    constructor; simpl; auto.
    - apply snaps_ok_app; [exact X1|reflexivity|unfold snap_of; rewrite Ef; exact Hbk].
    - destruct Hm as [->|(lo & hi & -> & Hhi)]; [apply has_c0_snap, X4|].
      apply has_c0_compact; [exact X4|unfold snap_of; rewrite Ef; exact Hhi|unfold snap_of; rewrite Ef; apply Hbk].
  Qed.

  Lemma snap_done_sxu s s' : sxu base c0 s -> snap_done s s' -> sxu base c0 s'.
  Proof.
    intros HX [->|(Hnz & m' & -> & Hm)]; [exact HX|].
    pose proof (snap_eff_sxi s m' _ HX (or_intror (conj Hnz (conj eq_refl Hm)))) as Hi.
    assert (Hbk : bkey base c0 (v_fsmLast s)) by (destruct (xu_fsm _ _ _ HX) as [E|K]; [contradiction|exact K]).
    pose proof (xu_w2 _ _ _ HX) as W2. pose proof (xu_w3 _ _ _ HX) as W3. pose proof (xu_u _ _ _ HX) as U.
    destruct (v_fsmLast s) as [fi ft] eqn:Ef. simpl in *.
    constructor; cbn; rewrite ?Ef; auto; try apply HX.
    - destruct U as [U|U]; [left; exact U|right]. destruct W3 as [W|W]; [contradiction|]. destruct Hbk as ((_ & Hb) & _). simpl in Hb. lia.
    - right. exact Hbk.
  Qed.

  Theorem snapshot_step_s C P s cut fs r' ob out : h = true -> cb_ok base c0 C -> sup h base c0 C s ->
    step_full P (Up s) NSnapshot cut fs = (r', ob, out) -> snlog h base c0 C r'.
  Proof.
    intros Et HCB [HZ [HX _]] HF. specialize (HX Et). pose proof (cb_chain HCB) as HC.
    rewrite step_snapshot_of in HF.
    apply (finish_snlog C P _ _ (Some (snap_of s)) s cut _ r' ob out HCB) in HF; [exact HF| |].
    - intros j. destruct (prefix_dlf P (Some (snap_of s)) (trace_of (take_snapshot P s fs)) (dpr s) j) as (j' & ->).
      destruct (take_images P s fs j') as (E1 & E2 & E3 & He). cbv zeta in *.
      destruct (fold_left _ _ _) as [T m sns stg pc]. simpl in *. subst T stg pc. split.
      + apply (snap_eff_img C HC s HZ (s_fsm C s HCB HZ HX) _ m sns eq_refl He).
      + split; [intros _; apply (snap_eff_sxi s m sns HX He)|congruence].
    - intros s' r tr fs' Ho. pose proof (take_done P s fs s' r tr fs' Ho) as Hd.
      split; [apply (snap_done_zup C s s' HC HZ (s_fsm C s HCB HZ HX) Hd)|].
      split; [intros _; apply (snap_done_sxu s s' HX Hd)|congruence].
  Qed.

  (* the history up to c0 stays reachable along the handler: what it deletes lies above c0 (at or below c0 the stored
     entry and the sent one are both the history's), and the cached last index does not fall below c0 *)
  Lemma reach_c0 C s a d k : cb_ok base c0 C -> zup C s -> sxu base c0 s ->
    mchain C (aq_prevIdx a, aq_prevTerm a) (aq_entries a) -> ae_reachS s a d k ->
    has_c0 c0 (snd d) (d_snaps s) /\ (c0 <= fst k \/ v_lastSnapIdx s = c0) /\ d_term s <= fst d.
  Proof.
    intros HCB HZ HX Hm Hr. pose proof (cb_chain HCB) as HC. pose proof (xu_img _ _ _ HX) as [_ _ _ Hc _]. simpl in Hc.
    pose proof (xu_u _ _ _ HX) as U.
    destruct Hr as [[-> ->]|(HT & Ht & [[-> ->]|[_ Hlog]])]; try (split; [exact Hc|split; [exact U|simpl; lia]]).
    rewrite Ht. destruct Hlog as (dup & news & Hes & Hnn & Hdup & Hcase).
    pose proof Hm as Hm0. rewrite Hes in Hm. destruct (mchain_app C _ dup news Hm) as [_ Hmn].
    assert (Hhd : In (hd (mkE 0 0 0 0) news) news) by (destruct news; [congruence|left; reflexivity]).
    assert (L5 : e_idx (hd (mkE 0 0 0 0) news) <= e_idx (last_of news)).
    { destruct news as [|n0 nr]; [congruence|]. simpl hd.
      destruct (anc_le C _ _ HC (mchain_last C _ _ Hmn n0 (or_introl eq_refl))) as [Hle _]. exact Hle. }
    destruct Hcase as [(Em & Ek & Hnew)|(c & Hfc & Hc0 & Hcl & Hcase)].
    - rewrite Em, Ek. split; [apply has_c0_store, Hc|]. split; [|exact HT].
      destruct U as [U|U]; [left|right; exact U]. pose proof (Hnew _ Hhd). simpl. lia.
    - assert (Habove : c0 < c).
      { destruct (N.lt_ge_cases c0 c) as [H|H]; [exact H|]. exfalso.
        destruct (first_conflict_witness _ _ _ Hfc) as (e & se & He & Hi & Hse & Hne). apply Hne.
        destruct (mchain_in C _ _ Hm0 e He) as [q Hq]. destruct (zs_in HZ c se Hse) as (Hk & (q' & Hq') & _).
        pose proof (cb_low HCB e q Hq ltac:(lia)) as B1. pose proof (cb_low HCB se q' Hq' ltac:(lia)) as B2.
        destruct (base_chain_fun _ _ Hh e q se q' B1 B2) as [-> _]; [lia|reflexivity]. }
      assert (Hd : has_c0 c0 (log_delete (d_log s) c (v_lastLogIdx s)) (d_snaps s)) by (apply has_c0_delete_above; assumption).
      destruct Hcase as [(Em & Ek)|(Em & Ek)]; rewrite Em, Ek; (split; [|split; [left|exact HT]]).
      + exact Hd.
      + rewrite (conflict_pred_app a dup news Hes). destruct news as [|n0 nr]; [congruence|]. simpl hd in *.
        destruct (co_idx C HC n0 _ (proj1 Hmn)) as [Q0 _]. unfold pred_key. lia.
      + apply has_c0_store, Hd.
      + simpl. lia.
  Qed.

  (* lastApplied and the FSM position move to an entry of the log at or below the new commit index *)
  Lemma sf_done_sxu C s s' : cb_ok base c0 C -> sxu base c0 s -> log_in C (d_log s') (d_term s') -> sf_done s s' ->
    v_commit s' <= c0 ->
    fsm_ok base c0 (v_fsmLast s') /\ v_lastSnapIdx s <= v_applied s' /\ fst (v_fsmLast s') <= v_applied s' /\
    (fst (v_fsmLast s') = 0 \/ v_lastSnapIdx s <= fst (v_fsmLast s')).
  Proof.
    intros HCB HX Hin (_ & _ & _ & S4) Hcm.
    destruct (fsm_adv_order _ s s' S4 (xu_w1 _ _ _ HX)) as (O1 & O2 & O3).
    split; [|split; [exact O1|split; [apply O2, (xu_w2 _ _ _ HX)|apply O3, (xu_w3 _ _ _ HX)]]].
    destruct S4 as [[_ E2]|(_ & E1 & [E2|(e & He & Hr & E2)])]; rewrite E2; [apply HX..|].
    destruct (Hin _ e He) as (_ & (p & Hp) & _). right. apply (low_bkey base c0 Hh C e p HCB Hp). lia.
  Qed.

  Section Append.
    Variable C : chain.
    Hypothesis HCB : cb_ok base c0 C.
    Variable P : params.

    Theorem append_good s fs a :
      wfu s -> sup h base c0 C s ->
      mchain C (aq_prevIdx a, aq_prevTerm a) (aq_entries a) ->
      (forall e, In e (aq_entries a) -> e_term e <= aq_term a) -> (h = true -> aq_commit a <= c0) ->
      (forall j, good_d5 h base c0 C (fold_left (d_apply P None) (firstn j (trace_of (append_entries P s fs a))) (dpr s))) /\
      (forall s' r tr fs', append_entries P s fs a = Done s' r tr fs' -> sup h base c0 C s').
    Proof.
      intros Hw [HZ HX] Hm Hterm Hcm. pose proof (cb_chain HCB) as HC.
      destruct (append_zshape C P s fs a HC (cb_closed HCB) Hw HZ Hm Hterm (fun _ => s_cmp C s a HCB HX Hm)) as [Himg Hdone].
      destruct HX as [HX HN]. split.
      - intros j. set (d := fold_left _ _ _). destruct (Himg j) as (Es & k & Hr & Hsh). fold d in Es, Hr, Hsh.
        split; [rewrite Es; apply (zshape_img C HC _ _ _ _ _ Hsh)|]. split; [|intros Ef; rewrite Es; apply (HN Ef)].
        intros Et. specialize (HX Et). pose proof (xu_img _ _ _ HX) as [X1 X2 X3 X4 X5]. simpl in *.
        destruct (reach_c0 C s a _ k HCB HZ HX Hm Hr) as (R1 & _ & R3). simpl in R1, R3.
        destruct (fold_staged P None c0 (firstn j (trace_of (append_entries P s fs a))) ) with (d := dpr s) as [G1 G2]; [|exact X3|exact X2|].
        { apply Forall_prefix. eapply Forall_impl; [|apply append_stages].
          intros e He. destruct e; simpl in *; auto. specialize (Hcm Et). lia. }
        fold d in G1, G2. constructor; rewrite ?Es; auto. intros e He. specialize (X5 e He). lia.
      - intros s' r tr fs' Ho. destruct (Hdone s' r tr fs' Ho) as (Hr & HZ' & Hsf). split; [exact HZ'|].
        pose proof Hsf as (S1 & S2 & S3 & _). split; [|intros Ef; rewrite S1, S2; apply (HN Ef)].
        intros Et. specialize (HX Et). specialize (Hcm Et). pose proof (xu_img _ _ _ HX) as [X1 X2 X3 X4 X5]. simpl in *.
        destruct (reach_c0 C s a _ _ HCB HZ HX Hm Hr) as (R1 & R2 & R3). simpl in R1, R2, R3.
        destruct (append_done_staged P s fs a s' r tr fs' c0 Hcm X3 X2 Ho) as [G1 G2].
        assert (Hc' : v_commit s' <= c0).
        { destruct (proj2 (append_entries_commit P s fs a s' r tr fs' Ho)) as [->|H]; [apply HX|lia]. }
        destruct (sf_done_sxu C s s' HCB HX (zs_in HZ') Hsf Hc') as (F1 & F2 & F3 & F4).
        constructor; [constructor; simpl|..]; rewrite ?S1, ?S2, ?S3; auto; try apply HX.
        intros e He. specialize (X5 e He). lia.
    Qed.

    Theorem append_step_s s a cut fs r' ob out :
      wfu s -> sup h base c0 C s ->
      mchain C (aq_prevIdx a, aq_prevTerm a) (aq_entries a) ->
      (forall e, In e (aq_entries a) -> e_term e <= aq_term a) -> (h = true -> aq_commit a <= c0) ->
      step_full P (Up s) (NAppend a) cut fs = (r', ob, out) -> snlog h base c0 C r'.
    Proof.
      intros Hw Hn Hm Hterm Hcm HF. rewrite step_append in HF.
      destruct (append_good s fs a Hw Hn Hm Hterm Hcm) as [H1 H2].
      apply (finish_snlog C P _ _ None s cut _ r' ob out HCB H1 H2 HF).
    Qed.
  End Append.

  (* the leader after it stored the new entry e, appended after last_entry s; what the step leaves of the fields
     beside the log is given by the caller *)
  Lemma leader_append_sup C P s s' ty data : let e := new_entry s ty data in
    chain_ok ((e, last_entry s) :: C) -> sup h base c0 C s -> v_term s <= d_term s -> appended P s s' e ->
    sup h base c0 ((e, last_entry s) :: C) s'.
  Proof.
    intros e HC' [HZ [HX HN]] Hvt Happ. pose proof (ap_snaps Happ) as Hsn. pose proof (ap_snapIdx Happ) as Hsi.
    split; [apply (leader_append_zup C P s s' ty data HC' HZ Hvt Happ)|].
    split; [|intros Ef; rewrite Hsn, Hsi; apply (HN Ef)].
    intros Et. specialize (HX Et). pose proof (xu_img _ _ _ HX) as [X1 X2 X3 X4 X5]. simpl in X1, X2, X3, X4, X5.
    assert (Hpc : d_pcommit s' <= c0) by (rewrite (ap_pcommit Happ); destruct (p_track P); [apply (xu_commit _ _ _ HX)|exact X2]).
    assert (Hst : d_staged s' <= c0) by (rewrite (ap_staged Happ); destruct (p_track P); [apply (xu_commit _ _ _ HX)|exact X3]).
    constructor; [constructor; simpl|..]; rewrite ?(ap_log Happ), ?Hsn, ?Hsi, ?(ap_snapTerm Happ), ?(ap_commit Happ), ?(ap_applied Happ), ?(ap_fsmLast Happ); auto; try apply HX.
    - apply has_c0_store, X4.
    - intros x Hx. rewrite (ap_dterm Happ). apply (X5 x Hx).
    - destruct (xu_u _ _ _ HX) as [U|U]; [left|right; exact U]. rewrite (ap_lastIdx Happ). unfold last_index. lia.
  Qed.

  Theorem setup_send_chain C P s next last pi pt es c : cb_ok base c0 C -> sup h base c0 C s -> 1 <= next ->
    setup_send P s next last = SendAE pi pt es c ->
    mchain C (pi, pt) es /\ (forall e, In e es -> e_term e <= d_term s) /\ (h = true -> c <= c0).
  Proof.
    intros HCB [HZ [HX _]] Hnext Hsend.
    destruct (setup_send_chainS C P s next last pi pt es c (cb_chain HCB) HZ Hnext Hsend) as (A & B & _ & _ & -> & _).
    split; [exact A|]. split; [exact B|]. intros Et. apply (xu_commit _ _ _ (HX Et)).
  Qed.
End Handlers.
