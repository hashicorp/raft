(* ClusterCommitSnapStepVote.v — elections keep the invariant.  RequestVote, pre-vote, restart and TimeoutNow at one
   server; a newly granted vote is recorded with the voter's last entry (getLastEntry: the last log entry or the
   snapshot boundary).  setupLeaderState for a new leader whose last
   index is that of its no-op (no assumption on the snapshot index); a candidate with a majority of the votes becomes
   leader and stores its no-op after getLastEntry.  The election timer fires (GTimeout): runCandidate is entered, a
   single voter becomes leader at once.  A vote response reaches a candidate (GVoteResp): newer term, elected, or
   keeps counting. *)
From Coq Require Import List NArith Bool Lia.
From stdpp Require Import gmap.
From RaftModel Require Import Base Config Commitment Node Candidate Cluster NodeCodec
  ClusterLog ClusterCommit.
From RaftProofs Require Import CommitmentProofs ConfigProofs VoteProofs ClusterProofs ClusterStepInv ClusterLogSpec
  ClusterLogChain ClusterLogVote ClusterLogLeader ClusterLogInv ClusterLogShell ClusterCommitSpec ClusterCommitLog
  ClusterCommitChain ClusterCommitGhost ClusterCommitInv ClusterCommitUpd ClusterCommitSnapLog ClusterCommitSnapNode
  ClusterCommitSnapLinv ClusterCommitSnapInv2 ClusterCommitSnapTouch ClusterCommitSnapStepA ClusterCommitSnapStepL.
Open Scope N_scope.

Section Requests.
  Variable cfg : config.
  Variable Ps : list params.
  Variable fsm : bool.
  Hypothesis HVn : NoDup (voters cfg).

  Lemma zinv_simple_handler g C LL A V j nj e cut fs r' ob out g1 hb' :
    zinvg cfg Ps fsm g C LL A V -> find_node (cnodes g) j = Some nj -> simple_event e ->
    step_full (gn_P nj) (gn_run nj) e cut fs = (r', ob, out) -> ginv [cfg] g1 ->
    g_nodes g1 = upd_node (cnodes g) j (mkGN (gn_P nj) r' (keep_sess r' (gn_sess nj)) (gn_next nj)) ->
    g_leaders g1 = g_leaders (gof g) -> g_grants g1 = grant_ghost j ob ++ g_grants (gof g) ->
    (* a vote request comes from the runCandidate invocation of another server *)
    (forall q, e = NVote q -> exists ni se, In ni (cnodes g) /\ gn_id ni = vq_addr q /\ vq_addr q <> j /\
                                 gn_sess ni = Some se /\ se_req se = q) ->
    exists Vn, zinvg cfg Ps fsm (mkCG (mkLG g1 (lg_msgs (cg_l g))) (refresh_leads (cnodes g) (g_nodes g1) (cg_lead g)) hb' (cg_ans g))
                 C LL A (Vn ++ V).
  Proof.
    intros HI Hfind He Hstep Hg1 Hn1 Hl1 Hgr Hcand.
    destruct (find_node_in _ _ _ Hfind) as [Hin Hid].
    pose proof (zg_l HI) as Hl. pose proof (ci_ok (zg_ci HI)) as HC.
    pose proof (ginv_wfr (zl_g [cfg] _ C Hl) Hin) as Hw.
    destruct (zl_nodes [cfg] _ C Hl nj Hin) as [Hnl _].
    pose proof (zg_node HI nj Hin) as Hcn.
    pose proof (zinv_pclosed cfg Ps fsm g C LL A V HI) as Hp.
    destruct (simple_step_z cfg Ps fsm C (gn_P nj) (gn_run nj) e cut fs r' ob out HC Hp Hw Hnl Hcn He Hstep) as (Hnl' & Hcn' & Hq).
    pose proof (step_role_kept (gn_P nj) (gn_run nj) e cut fs r' ob out Hw (simple_quiet e He) Hstep) as Hrk.
    destruct (handler_touch cfg Ps fsm HVn g C LL A V j nj e cut fs r' ob out g1 hb' (cg_ans g) [] HI Hfind Hstep Hg1 Hn1 Hl1 Hgr
                (eq_sym (app_nil_r _)) Hnl' Hrk) as (Ht & Hleads & Hld & Hl').
    match type of Ht with touch _ ?G _ _ _ _ _ _ => set (g' := G) in * end.
    pose proof (step_good (gn_P nj) (gn_run nj) e cut fs Hw) as Hg. rewrite Hstep in Hg.
    destruct Hg as (Hw' & (_ & Hdt & Hkeep & Hcast) & Hobs & _).
    set (nj' := mkGN (gn_P nj) r' (keep_sess r' (gn_sess nj)) (gn_next nj)) in *.
    (* the vote that is newly in force, if any *)
    set (newv := match e with
                 | NVote q => if live_dec (live (image r')) (Some (vq_term q, vq_addr q)) then
                                if live_dec (live (image (gn_run nj))) (Some (vq_term q, vq_addr q)) then []
                                else cast LL j (vq_term q) (vq_addr q) (last_entry (image (gn_run nj))) (vq_lastIdx q, vq_lastTerm q)
                              else []
                 | _ => []
                 end : Vt).
    assert (Hnewv : forall w T' c kw rq, In (w, T', c, kw, rq) newv ->
              exists q s, e = NVote q /\ gn_run nj = Up s /\ w = j /\ T' = vq_term q /\ c = vq_addr q /\ kw = last_entry s /\
                rq = (vq_lastIdx q, vq_lastTerm q) /\ live (image r') = Some (T', c) /\ ll_has LL T' = false /\
                v_term s <= T' /\ log_ok s (vq_lastIdx q) (vq_lastTerm q) = true).
    { intros w T' c kw rq Hv. unfold newv in Hv. destruct e as [q|q|a|q| | | | |]; try contradiction.
      destruct (live_dec (live (image r')) _) as [E1|]; [|contradiction].
      destruct (live_dec (live (image (gn_run nj))) _) as [|N2]; [contradiction|].
      destruct (cast_in Hv) as (-> & -> & -> & -> & -> & E3).
      destruct (Hcast (vq_term q) (vq_addr q) E1 N2) as [(q' & Eq & C1 & C2 & C3 & C4 & _)|(Eq & _)]; [|discriminate].
      inversion Eq; subst q'. destruct (gn_run nj) as [s|s] eqn:Er.
      - exists q, s. simpl in *. auto 12.
      - exfalso. simpl in Hstep. inversion Hstep; subst. apply N2. exact E1. }
    exists newv.
    assert (Hlive' : forall T' c, live (image r') = Some (T', c) -> recorded LL (newv ++ V) j T' c).
    { intros T' c Hlv. destruct (live_dec (live (image (gn_run nj))) (Some (T', c))) as [Eo|No].
      - destruct (zg_live HI nj T' c Hin Eo) as [(kw & rq & H)|H]; [left|right; exact H].
        exists kw, rq. apply in_app_iff. right. rewrite <- Hid. exact H.
      - destruct (Hcast T' c Hlv No) as [(q & Eq & C1 & C2 & _)|(Eq & _)].
        2:{ subst e. contradiction. }
        subst e T' c. unfold newv. destruct (live_dec (live (image r')) _) as [|N1]; [|contradiction].
        destruct (live_dec (live (image (gn_run nj))) _) as [|]; [contradiction|apply cast_recorded]. }
    apply (zinv_quiet cfg Ps fsm HVn g g' C LL A V newv (grant_ghost j ob) j nj nj' HI Ht Hl' Hq Hcn' Hld (sess_req_keep nj _ _ _)).
    - (* a runCandidate invocation that goes on *)
      intros se Hse. destruct (keep_sess_some _ _ _ Hse) as (Es0 & s' & -> & Hrc). exists s'. split; [reflexivity|].
      destruct (zg_se HI nj se Hin Es0) as (s & Hs & [Hle|Hll]); [left|right; exact Hll].
      destruct Hq as (_ & _ & _ & [(s0 & Hs0 & K)|(_ & Hf & _)]); [|rewrite Hf in Hrc; discriminate].
      rewrite Hs in Hs0. inversion Hs0; subst s0. rewrite (rest_last_entry s s' K). exact Hle.
    - (* still a leader *)
      intros s' Hs' Hr'. cbn [nj' gn_run] in Hs'. subst r'. rewrite Hleads. split; [reflexivity|]. destruct (Hrk s' eq_refl Hr') as (s & Hs & Hrs & Et & _). exists s. auto.
    - apply gext_votes; [apply (zg_ci HI)| |].
      + (* what the voter accepted before *)
        intros w T' c kw rq k k0 Hv Ha Hlt Hanc Hpos.
        destruct (Hnewv _ _ _ _ _ Hv) as (q & s & _ & Hs & -> & -> & -> & -> & _ & _ & Hno & Hvt & _).
        rewrite <- Hid in Ha. rewrite Hs in Hw. destruct Hw as [_ Hvd].
        apply (zcast_va cfg Ps fsm g C LL A V nj s (vq_term q) k k0 HI Hin Hs); auto. lia.
      + intros w T' c kw rq Hv. destruct (Hnewv _ _ _ _ _ Hv) as (q & s & _ & Hs & -> & -> & -> & -> & -> & _ & _ & _ & Hlo).
        rewrite Hs in Hnl. simpl in Hnl.
        split; [apply log_ok_uptodate; exact Hlo|rewrite last_entry_lk; apply (zshape_lk_root C _ _ _ _ _ Hnl)].
    - constructor.
      + (* the voter and the candidate exist, in terms at least T' *)
        intros w T' c kw rq Hv. destruct (Hnewv _ _ _ _ _ Hv) as (q & s & Eq & Hs & -> & -> & -> & _ & _ & Hlv & _).
        split.
        * exists nj'. split; [apply (touch_in Ht)|]. split; [exact Hid|].
          unfold dtn. cbn [nj' gn_run]. destruct (live_term _ _ _ Hlv) as [-> _]. lia.
        * destruct (Hcand q Eq) as (ni & se & Hni & Hnid & Hne & Hse & Hrq).
          exists ni. split; [apply (touch_other Ht Hni); congruence|].
          split; [exact Hnid|]. pose proof (ginv_wfr (zl_g [cfg] _ C Hl) Hni) as Hwi.
          destruct (ginv_sess [cfg] _ ni _ (zl_g [cfg] _ C Hl) Hni Hse) as (si & Hsi & Hti & _). rewrite Hrq in Hti.
          unfold dtn. rewrite Hsi in *. destruct Hwi as [_ Hvi]. simpl. lia.
      + intros w T' c kw rq xc se Hv Hxc Hxci Hse Hst.
        destruct (Hnewv _ _ _ _ _ Hv) as (q & s & Eq & Hs & -> & -> & -> & _ & -> & _).
        destruct (Hcand q Eq) as (ni & se0 & Hni & Hnid & Hne & Hse0 & Hrq).
        assert (xc = ni).
        { destruct (touch_cases xc Ht Hxc) as [->|[Hxo _]]; [exfalso; apply Hne; rewrite <- Hxci; exact Hid|].
          apply (zinvg_node_eq HI xc ni Hxo Hni). congruence. }
        subst xc. rewrite Hse0 in Hse. inversion Hse; subst se0. rewrite Hrq. reflexivity.
      + (* the ghost grant *)
        intros w T' c Hg. unfold grant_ghost in Hg. destruct ob as [q t gr|q t gr|a r|q r|q sf| |]; try contradiction.
        destruct gr; [|contradiction]. destruct Hg as [Hg|[]]. inversion Hg; subst w T' c.
        apply Hlive'. apply (Hobs q t eq_refl).
    - exact Hlive'.
  Qed.
End Requests.

Section Fresh.
  Variable cfg : config.
  Hypothesis HVn : NoDup (voters cfg).

  (* setupLeaderState for a server that has just stored the no-op e of its term after the key ck: the commitment as
     newCommitment leaves it, then the leader's own match *)
  Lemma lead_view_fresh C LL A i s e ck P :
    In (v_term s, i, ck) LL -> p_self P = i ->
    (forall x p, In (x, p) C -> e_term x = v_term s -> x = e) ->
    topk s = key e -> e_term e = v_term s -> e_idx e = fst ck + 1 -> last_index s = e_idx e ->
    cfg_or_nil cfg (v_latest s) -> v_commit s < e_idx e ->
    In (i, key e) A ->
    lead_view cfg C LL A i s ck (fresh_lead P s).
  Proof.
    intros HL Hself Hone Htop Het Hidx Hli Hlat Hc Hacc.
    destruct (cm_new_facts (v_latest s) (e_idx e)) as (F1 & F2 & F3 & F4).
    assert (L0 : lead_view cfg C LL A i s ck (mkLead (cm_new (v_latest s) (e_idx e)) [] (e_idx e) [] [] false)).
    { constructor; cbn [ld_cm ld_next0 ld_notified]; rewrite ?F1, ?F2; auto; try discriminate.
      - intros x p Hx Hxt. rewrite (Hone x p Hx Hxt), Htop. apply anc_refl.
      - unfold topk, key in Htop. inversion Htop. congruence.
      - intros j v Hv. left. rewrite (F3 j v Hv). lia.
      - destruct Hlat as [E|E]; [right; intros j; rewrite F4, E; reflexivity|left].
        intros j. destruct (cm_match _ !! j) eqn:Ex; [|reflexivity]. assert (Hs : In j (voters (v_latest s))) by (apply F4; rewrite Ex; eauto).
        rewrite E in Hs. destruct Hs. }
    apply (lead_view_match L0 HVn (fresh_lead P s) (p_self P) (e_idx e)); [unfold fresh_lead; rewrite Hli; reflexivity..| |discriminate].
    right. rewrite Hself. unfold key in Hacc. rewrite Het in Hacc. exact Hacc.
  Qed.
End Fresh.

Section Become.
  Variable cfg : config.
  Variable Ps : list params.
  Variable fsm : bool.
  Hypothesis HVn : NoDup (voters cfg).
  Let HQ := quorums_intersect_one cfg HVn.

  Lemma zinv_become g g' C LL A V Vn Gn i n s sL next' :
    zinvg cfg Ps fsm g C LL A V -> find_node (cnodes g) i = Some n -> gn_run n = Up s ->
    rest sL = rest s -> v_term sL = d_term sL -> d_term s <= d_term sL -> 1 <= v_term sL ->
    (forall T', T' <= dtn n -> (forall se, gn_sess n = Some se -> T' < vq_term (se_req se)) -> T' < v_term sL) ->
    touch g g' i n (mkGN (gn_P n) (Up (become_leader (gn_P n) sL)) None next') [] [] Gn ->
    ginv [cfg] (gof g') -> g_leaders (gof g') = (v_term sL, i) :: g_leaders (gof g) ->
    find_lead (cg_lead g') i = Some (fresh_lead (gn_P n) (become_leader (gn_P n) sL)) ->
    (* the votes for it carry its last key *)
    (forall w kw rq, In (w, v_term sL, i, kw, rq) (Vn ++ V) -> rq = last_entry sL \/ exists c tl, In (v_term sL, c, tl) LL) ->
    gext cfg C [] LL [] A [] V Vn -> (forall w T' c kw rq, In (w, T', c, kw, rq) Vn -> T' <= v_term sL) ->
    votes_new g' LL V Vn Gn ->
    (forall T' c, live sL = Some (T', c) -> recorded LL (Vn ++ V) i T' c) ->
    exists Cn LLn An, zinvg cfg Ps fsm g' (Cn ++ C) (LLn ++ LL) (An ++ A) (Vn ++ V).
  Proof.
    intros HI Hf Hr Hzk Hvt Hdts HT1 Hfresh Ht Hg' Hld Hfl Hlv Hge HvT Hvn Hlive. pose proof (rest_fields _ _ Hzk) as (_ & Hk & Hst & _).
    pose proof Ht as [_ _ Hnodes Hmsgs _ _ _]. rewrite app_nil_r in Hmsgs.
    destruct (find_node_in _ _ _ Hf) as [Hin Hid].
    pose proof (zg_l HI) as Hl. pose proof (zg_ci HI) as Hci. pose proof (ci_ok Hci) as HC.
    destruct (znode_zup_wfu HI n s Hin Hr) as [Hnl Hw].
    set (T := v_term sL) in *. set (P := gn_P n) in *.
    set (e := new_entry sL LogNoop 0). set (ck := last_entry sL). set (s2 := become_leader P sL) in *.
    set (n' := mkGN P (Up s2) None next') in *.
    assert (HnL : zup C sL) by (eapply zup_keep; eauto).
    assert (HcL : znode_upg cfg Ps fsm sL).
    { pose proof (zg_node HI n Hin) as (_ & _ & N3). rewrite Hr in N3. eapply znode_up_keep; eauto. }
    pose proof (become_leader_appended P sL) as Happ. fold s2 in Happ. fold e in Happ.
    assert (He1 : e_idx e = last_index sL + 1) by reflexivity.
    assert (He2 : e_term e = T) by reflexivity.
    (* the Log Matching invariant with the explicit history *)
    destruct (become_leader_zlinv_ok [cfg] HQ (cg_l g) C (gof g') i n s sL next' Hl Hg' Hf Hr Hnodes Hld HnL Hdts Hvt) as (Hl' & Hnone & Hnol).
    { intros T' H1 H2 E. pose proof (Hfresh T' H1 H2). fold T in E. lia. }
    assert (Hl'' : zlinv [cfg] (cg_l g') ((e, ck) :: C)).
    { assert (Eg : cg_l g' = mkLG (gof g') (lg_msgs (cg_l g))).
      { unfold gof. rewrite <- Hmsgs. destruct (cg_l g') as [gg mm]. reflexivity. }
      rewrite Eg. exact Hl'. }
    pose proof (zl_chain [cfg] _ _ Hl'') as HC'.
    (* the chain invariant *)
    assert (Hckc : ck = (0, 0) \/ created C ck) by (unfold ck; rewrite last_entry_lk; apply (zshape_lk_root C _ _ _ _ _ HnL)).
    assert (Hnoll : forall c tl, ~ In (T, c, tl) LL).
    { intros c tl Hx. apply (Hnol T c); [|reflexivity]. apply (zg_ll HI). eauto. }
    assert (Hckt : snd ck < T).
    { destruct (last_entry_facts C sL HC HnL) as (_ & Hle2 & _).
      destruct (N.eq_dec (snd ck) T) as [E|Hne]; [|unfold ck in *; fold T in Hvt; lia].
      exfalso. destruct Hckc as [E0|(x & p & Hx & Ex)].
      - rewrite E0 in E. simpl in E. lia.
      - apply (Hnone x p Hx). rewrite <- Ex in E. exact E. }
    assert (Hci' : chain_inv ((e, ck) :: C) ((T, i, ck) :: LL)).
    { apply chain_inv_become; auto.
      intros x p Hx Hno. destruct (zl_src [cfg] _ C Hl x p Hx) as [(id & Hlx)|Hdead].
      - exfalso. destruct (proj1 (zg_ll HI _ _) Hlx) as [tl Htl]. apply (Hno _ _ Htl).
      - destruct (Hdead n Hin) as [D1 D2]. apply (Hfresh _ D1 D2). }
    assert (Hnl2 : zup ((e, ck) :: C) s2).
    { destruct (zl_nodes [cfg] _ _ Hl'' n' (touch_in Ht)) as [H _]. exact H. }
    assert (Hli2 : last_index s2 = e_idx e /\ d_log s2 !! e_idx e = Some e).
    { split; [|rewrite (ap_log Happ), log_store_one, N.eqb_refl; reflexivity].
      unfold last_index at 1. rewrite (ap_lastIdx Happ), (ap_snapIdx Happ). unfold last_index. cbn [e e_idx new_entry]. unfold last_index. lia. }
    destruct Hli2 as [Hli2 Hee].
    clearbody s2.
    destruct (leader_append cfg Ps fsm g g' C LL [(T, i, ck)] A V i n s sL s2 e ck next' HI Hf Hr Hzk Hdts Hvt Happ He1 He2)
      as (Fva & Fac & FAn & FN); [discriminate|exact HC'|exact Hnl2|exists i, ck; left; reflexivity|].
    exists [(e, ck)], [(T, i, ck)], [(i, key e)].
    apply (zinv_touch cfg Ps fsm HVn g g' C [(e, ck)] LL [(T, i, ck)] A [(i, key e)] V Vn i n n' [] [] Gn HI Ht); [|exact Hl''| | | |exact FAn|apply FN| | | |apply votes_new_ext, Hvn].
    - unfold dtn. rewrite Hr. cbn [n' gn_run image]. rewrite (ap_dterm Happ). lia.
    - constructor; [exact Hci'| |exact Fva| | |exact Fac].
      + (* the votes just cast against what the voter accepted *)
        intros w T' c kw rq k k0 Hv Ha Hlt Hanc Hpos.
        destruct Ha as [Ek|Ha]; [inversion Ek; subst k; unfold key in Hlt; cbn [snd] in Hlt; rewrite He2 in Hlt; pose proof (HvT _ _ _ _ _ Hv); lia|].
        destruct (vi_ac (zg_vi HI) _ _ Ha) as [Hkc' _].
        pose proof (anc_stable C _ k0 k HC' (fun x Hx => or_intror Hx) (or_introl Hkc') (ci_pred Hci) Hanc) as Hanc0.
        destruct (ge_vaV _ _ _ _ _ _ _ _ _ Hge _ _ _ _ _ k k0 Hv Ha Hlt Hanc0 Hpos) as [H|H]; [left; apply anc_cons, H|right].
        apply (passed_ext C [_] LL [_] _ _ _ Hci HC' H).
      + (* the majority that elected it *)
        intros T' c tl' [El|[]]. inversion El; subst T' c tl'.
        destruct (gi_leaders [cfg] _ Hg' (T, i)) as (c0 & W & Hc0 & (W1 & W2 & W3) & W4); [rewrite Hld; left; reflexivity|].
        destruct Hc0 as [<-|[]]. simpl in W3, W4. exists W. split.
        * pose proof (quorum_size_majority cfg) as Hm. cbv zeta in Hm.
          split; [exact W1|]. split; [exact W2|]. unfold voters in *. rewrite map_length in *. lia.
        * intros w HwW. pose proof (W3 w HwW) as Hg. rewrite (to_grants Ht) in Hg. apply in_app_iff in Hg.
          assert (Hrec : recorded LL (Vn ++ V) w T i).
          { destruct Hg as [Hg|Hg]; [apply (vn_gv Hvn), Hg|].
            apply (recorded_mono LL _ V _ _ _ _ (incl_refl _) (incl_appr _ (incl_refl _))), (zg_gv HI _ _ _ Hg). }
          destruct Hrec as [(kw & rq & Hv)|(c' & tl' & Hx)]; [|destruct (Hnoll _ _ Hx)].
          exists kw. destruct (Hlv w kw rq Hv) as [->|(c' & tl' & Hx)]; [exact Hv|destruct (Hnoll _ _ Hx)].
      + intros w T' c kw rq Hv. destruct (ge_up Hge _ _ _ _ _ Hv) as (Hu & [Hk0|Hkc]); (split; [exact Hu|]); [left; exact Hk0|right; apply created_cons, Hkc].
    - (* the recorded leaders *)
      intros T' c. rewrite Hld. split.
      + intros [E|H]; [inversion E; subst; exists ck; left; reflexivity|]. destruct (proj1 (zg_ll HI T' c) H) as [tl Htl]. exists tl. right. exact Htl.
      + intros (tl & [E|H]); [inversion E; subst; left; reflexivity|right]. apply (zg_ll HI). eauto.
    - intros y p [Ey|[]]. inversion Ey; subst y p. rewrite He2, Hld. left. reflexivity.
    - (* the fresh leadership state *)
      change (mkGN (gn_P n) (Up s2) None next') with n'. intros s0 Hs0 Hl0. cbn [n' gn_run] in Hs0. inversion Hs0; subst s0.
      apply (zlead_inv_of ck (fresh_lead P s2)); [change (gn_id n') with (gn_id n); rewrite Hid; exact Hfl| |rewrite (ap_snapIdx Happ), (ap_lastIdx Happ); unfold last_index; lia|].
      2:{ intros x fid Hxi. unfold fresh_lead in Hxi. cbv zeta in Hxi. cbn [ld_infl] in Hxi. rewrite Hli2, Hee in Hxi.
          destruct Hxi as [Ex|[]]. inversion Ex; subst x fid. split; [rewrite (ap_term Happ); reflexivity|exists ck; left; reflexivity]. }
      apply (lead_view_fresh cfg HVn _ _ _ (gn_id n') s2 e ck P).
      + change (gn_id n') with (gn_id n). rewrite Hid, (ap_term Happ). left. reflexivity.
      + reflexivity.
      + intros x p [Ex|Hx] Hxt; [inversion Ex; reflexivity|]. exfalso. rewrite (ap_term Happ) in Hxt. apply (Hnone x p Hx Hxt).
      + unfold topk, key. rewrite (ap_lastIdx Happ), (ap_lastTerm Happ). reflexivity.
      + rewrite (ap_term Happ). reflexivity.
      + unfold ck. rewrite (proj1 (last_entry_facts C sL HC HnL)). exact He1.
      + exact Hli2.
      + rewrite (ap_latest Happ). apply (zu_lat HcL).
      + rewrite (ap_commit Happ). destruct (zg_kc HI n s Hin Hr) as [K1 _]. destruct (rest_fields _ _ Hzk) as ((_ & V2 & _ & _ & _ & V6) & _). destruct Hk as (_ & _ & _ & _ & L5).
        unfold last_index in *. rewrite He1. unfold last_index. lia.
      + change (gn_id n') with (gn_id n). rewrite Hid. left. reflexivity.
    - change (mkGN (gn_P n) (Up s2) None next') with n'. intros T' c Hlv'. cbn [n' gn_run image] in Hlv'. unfold live in Hlv'. rewrite (ap_dproj Happ) in Hlv'. change (gn_id n') with (gn_id n). rewrite Hid.
      apply (recorded_mono LL _ (Vn ++ V) _ _ _ _ (incl_tl _ (incl_refl _)) (incl_refl _)), Hlive, Hlv'.
    - apply sess_req_none. reflexivity.
    - intros m [].
    - intros x [].
  Qed.
End Become.

Lemma req_of_last P s : (vq_lastIdx (req_of P s), vq_lastTerm (req_of P s)) = last_entry s.
Proof. unfold req_of. destruct (last_entry s). reflexivity. Qed.

Section Timer.
  Variable cfg : config.
  Variable Ps : list params.
  Variable fsm : bool.
  Hypothesis HVn : NoDup (voters cfg).
  Let HQ := quorums_intersect_one cfg HVn.

  (* a vote of a running server in a term not below its own: what the ghost state asks, what the cluster asks of a self-vote *)
  Lemma cast_gext g C LL A V n s T c rq : zinvg cfg Ps fsm g C LL A V -> In n (cnodes g) -> gn_run n = Up s -> d_term s <= T ->
    uptodate rq (last_entry s) -> gext cfg C [] LL [] A [] V (cast LL (gn_id n) T c (last_entry s) rq).
  Proof.
    intros HI Hin Hr Hle Hup. destruct (znode_zup_wfu HI n s Hin Hr) as [Hnlog _].
    apply gext_votes; [apply (zg_ci HI)| |]; intros w T' c' kw rq'.
    - intros k k0 Hv Ha Hlt' Hanc Hpos. destruct (cast_in Hv) as (-> & -> & -> & -> & -> & Hno).
      apply (zcast_va cfg Ps fsm g C LL A V n s T k k0 HI Hin Hr); auto.
    - intros Hv. destruct (cast_in Hv) as (-> & -> & -> & -> & -> & Hno).
      split; [exact Hup|]. rewrite last_entry_lk. apply (zshape_lk_root C _ _ _ _ _ Hnlog).
  Qed.

  Lemma self_vote_new g g' LL V i n n' mn an Gn T k : touch g g' i n n' mn an Gn -> T <= dtn n' ->
    (forall se, gn_sess n' = Some se -> (vq_lastIdx (se_req se), vq_lastTerm (se_req se)) = k) ->
    votes_new g' LL V (cast LL i T i k k) [(i, T, i)].
  Proof.
    intros Ht HT Hse. constructor.
    - intros w T' c kw rq Hv. destruct (cast_in Hv) as (-> & -> & -> & _).
      assert (Hx : exists x, In x (cnodes g') /\ gn_id x = i /\ T <= dtn x).
      { exists n'. split; [apply (touch_in Ht)|]. split; [apply (to_id Ht)|exact HT]. }
      split; exact Hx.
    - intros w T' c kw rq xc se0 Hv Hxc Hxci Hse0 Hst. destruct (cast_in Hv) as (-> & -> & -> & -> & -> & _).
      rewrite (touch_at Ht Hxc Hxci) in Hse0. symmetry. apply (Hse se0 Hse0).
    - intros w T' c [E|[]]. inversion E; subst w T' c. apply cast_recorded.
  Qed.

  (* runCandidate entered at server i: g1 is the election part after it, as for the handlers (handler_touch) *)
  Lemma zinv_enter_cand g g1 hb' C LL A V i n s s' se (vt : bool) :
    zinvg cfg Ps fsm g C LL A V -> find_node (cnodes g) i = Some n -> gn_run n = Up s ->
    rest s' = rest s -> d_term s' = v_term s + 1 -> v_term s' = v_term s + 1 -> v_role s' = Candidate ->
    se_req se = req_of (gn_P n) s' ->
    live s' = (if vt then Some (v_term s + 1, i) else None) ->
    ginv [cfg] g1 -> g_nodes g1 = upd_node (cnodes g) i (mkGN (gn_P n) (Up s') (Some se) (gn_next n + 1)) ->
    g_leaders g1 = g_leaders (gof g) ->
    g_grants g1 = (if vt then [(i, v_term s + 1, i)] else []) ++ g_grants (gof g) ->
    exists Vn, zinvg cfg Ps fsm (mkCG (mkLG g1 (lg_msgs (cg_l g))) (refresh_leads (cnodes g) (g_nodes g1) (cg_lead g)) hb' (cg_ans g)) C LL A (Vn ++ V).
  Proof.
    intros HI Hf Hr Hzk Hdt' Hvt' Hrole' Hreq Hlive Hg1 Hnodes Hld Hgr. pose proof (rest_fields _ _ Hzk) as (Hvk & Hk & Hsnt & Hfl0 & _).
    destruct (find_node_in _ _ _ Hf) as [Hin Hid].
    destruct (znode_zup_wfu HI n s Hin Hr) as [Hnlog [Hwd Hvt]].
    pose proof (zg_node HI n Hin) as Hcn. rewrite Hr in Hcn. destruct Hcn as (N1 & N2 & N3).
    set (T := v_term s + 1) in *. set (n' := mkGN (gn_P n) (Up s') (Some se) (gn_next n + 1)) in *.
    assert (Htk : last_entry s' = last_entry s) by (apply rest_last_entry, Hzk).
    match goal with |- exists Vn, zinvg _ _ _ ?G _ _ _ _ => set (g' := G) end.
    assert (Hl' : zlinv [cfg] (cg_l g') C).
    { apply (plain_zlinv [cfg] HQ (cg_l g) C g1 i n s s' (Some se) (gn_next n + 1) (zg_l HI) Hg1 Hf Hr Hnodes Hld Hk Hsnt); [lia|rewrite Hrole'; discriminate|].
      intros se0 E. inversion E; subst se0. right. rewrite Hreq. destruct (req_of_fields (gn_P n) s') as [-> _]. lia. }
    assert (Ht : touch g g' i n n' [] [] (if vt then [(i, T, i)] else [])).
    { apply touch_nodes; try assumption; try reflexivity. intros j _. cbn [g' cg_lead]. rewrite Hnodes, (refresh_quiet (cnodes g) i n' (cg_lead g) (zinvg_nodup HI)); [reflexivity|].
      intros s0 E. inversion E; subst s0. rewrite Hrole'. discriminate. }
    exists (if vt then cast LL i T i (last_entry s) (last_entry s) else []).
    apply (zinv_quiet cfg Ps fsm HVn g g' C LL A V _ _ i n n' HI Ht Hl').
    - rewrite Hr. split; [apply Hvk|]. split; [apply Hk|]. split; [simpl; lia|]. left. exists s. auto.
    - split; [exact N1|]. split; [exact N2|eapply znode_up_keep; eauto].
    - exact Hld.
    - intros se' E. inversion E; subst se'. right. rewrite Hreq. destruct (req_of_fields (gn_P n) s') as [-> _].
      unfold dtn. rewrite Hr. simpl. lia.
    - intros se' E. inversion E; subst se'. exists s'. split; [reflexivity|]. left. rewrite Hreq. symmetry. apply req_of_last.
    - intros s0 E Hl0. cbn [n' gn_run] in E. inversion E; subst s0. rewrite Hrole' in Hl0. discriminate.
    - destruct vt; [|apply gext_nil, (zg_ci HI)]. rewrite <- Hid. apply (cast_gext g C LL A V n s T _ _ HI Hin Hr); [unfold T; lia|right; split; [reflexivity|lia]].
    - destruct vt; [|apply votes_none]. apply (self_vote_new g g' LL V i n n' [] [] _ T _ Ht).
      + unfold dtn. cbn [n' gn_run image]. lia.
      + intros se0 E. inversion E; subst se0. rewrite Hreq, req_of_last. exact Htk.
    - intros T' c Hlv. cbn [n' gn_run image] in Hlv. rewrite Hlive in Hlv. destruct vt; [|discriminate]. inversion Hlv; subst T' c. apply cast_recorded.
  Qed.

  Lemma zinv_cand_quiet g g1 hb' C LL A V i n s s' sess' :
    zinvg cfg Ps fsm g C LL A V -> find_node (cnodes g) i = Some n -> gn_run n = Up s ->
    rest s' = rest s -> d_term s <= d_term s' -> v_role s' <> Leader ->
    (forall se', sess' = Some se' -> s' = s /\ exists se, gn_sess n = Some se /\ se_req se' = se_req se) ->
    (forall T' c, live s' = Some (T', c) -> live s = Some (T', c)) ->
    ginv [cfg] g1 -> g_nodes g1 = upd_node (cnodes g) i (mkGN (gn_P n) (Up s') sess' (gn_next n)) ->
    g_leaders g1 = g_leaders (gof g) -> g_grants g1 = g_grants (gof g) ->
    zinvg cfg Ps fsm (mkCG (mkLG g1 (lg_msgs (cg_l g))) (refresh_leads (cnodes g) (g_nodes g1) (cg_lead g)) hb' (cg_ans g)) C LL A V.
  Proof.
    intros HI Hf Hr Hzk Hdt Hnl Hsess Hlive Hg1 Hnodes Hld Hgr. pose proof (rest_fields _ _ Hzk) as (Hvk & Hk & Hsnt & Hfl0 & _).
    destruct (find_node_in _ _ _ Hf) as [Hin Hid].
    pose proof (zg_node HI n Hin) as Hcn. rewrite Hr in Hcn. destruct Hcn as (N1 & N2 & N3).
    set (n' := mkGN (gn_P n) (Up s') sess' (gn_next n)) in *.
    match goal with |- zinvg _ _ _ ?G _ _ _ _ => set (g' := G) end.
    assert (Hl' : zlinv [cfg] (cg_l g') C).
    { apply (plain_zlinv [cfg] HQ (cg_l g) C g1 i n s s' sess' (gn_next n) (zg_l HI) Hg1 Hf Hr Hnodes Hld Hk Hsnt Hdt Hnl).
      intros se0 E. left. destruct (Hsess se0 E) as (_ & se & H1 & H2). exists se. split; [exact H1|congruence]. }
    assert (Ht : touch g g' i n n' [] [] []).
    { apply touch_nodes; try assumption; try reflexivity. intros j _. cbn [g' cg_lead]. rewrite Hnodes, (refresh_quiet (cnodes g) i n' (cg_lead g) (zinvg_nodup HI)); [reflexivity|].
      intros s0 E. inversion E; subst s0. exact Hnl. }
    change V with ([] ++ V). apply (zinv_quiet cfg Ps fsm HVn g g' C LL A V [] [] i n n' HI Ht Hl').
    - rewrite Hr. split; [apply Hvk|]. split; [apply Hk|]. split; [exact Hdt|]. left. exists s. auto.
    - split; [exact N1|]. split; [exact N2|]. eapply znode_up_keep; eauto.
    - exact Hld.
    - intros se' E. left. destruct (Hsess se' E) as (_ & se & H1 & H2). exists se. auto.
    - intros se' E. destruct (Hsess se' E) as (-> & se & H1 & H2). exists s. split; [reflexivity|]. rewrite H2.
      destruct (zg_se HI n se Hin H1) as (s0 & Hs0 & Hc). rewrite Hr in Hs0. inversion Hs0; subst s0. exact Hc.
    - intros s0 E Hl0. cbn [n' gn_run] in E. inversion E; subst s0. contradiction.
    - apply gext_nil, (zg_ci HI).
    - apply votes_none.
    - intros T' c Hlv. rewrite <- Hid. apply (zg_live HI n T' c Hin). rewrite Hr. apply Hlive, Hlv.
  Qed.

  (* runCandidate took a step at server i: g1 is the election part after it, as for the handlers (handler_touch).
     Votes are recorded only when electSelf ran. *)
  Theorem zinv_cand_move g hb' C LL A V i n s ev n' ls E :
    zinvg cfg Ps fsm g C LL A V -> find_node (cnodes g) i = Some n -> gn_run n = Up s -> v_role s <> Leader ->
    cand_move n s ev n' ls E ->
    let g1 := mkG (upd_node (cnodes g) i n') (g_resps (gof g)) (ls ++ g_leaders (gof g)) (map (tag i) E ++ g_grants (gof g)) in
    ginv [cfg] g1 ->
    exists Cn LLn An Vn, (ev <> None -> Vn = []) /\
      zinvg cfg Ps fsm (mkCG (mkLG g1 (lg_msgs (cg_l g))) (refresh_leads (cnodes g) (g_nodes g1) (cg_lead g)) hb' (cg_ans g))
        (Cn ++ C) (LLn ++ LL) (An ++ A) (Vn ++ V).
  Proof.
    intros HI Hf Hr Hnl Hm g1 Hg1. destruct (find_node_in _ _ _ Hf) as [Hin <-].
    destruct (znode_zup_wfu HI n s Hin Hr) as [_ [Hwd Hvt]]. unfold wfd in Hwd.
    assert (Hdt : dtn n = d_term s) by (unfold dtn; rewrite Hr; reflexivity).
    set (g' := mkCG _ _ _ _).
    destruct Hm as [sF Hk _ Hlt Hrole Hlive|sc se' nx' E Hcc _|sc se' nx' E sL Hcc Hq HkL HdL HvL HrL].
    - exists [], [], [], []. split; [reflexivity|].
      apply (zinv_cand_quiet g g1 hb' C LL A V _ n s sF None HI Hf Hr Hk); try reflexivity; [lia|rewrite Hrole; discriminate|discriminate| |exact Hg1].
      intros T' c H. rewrite Hlive in H. discriminate.
    - inversion Hcc as [se vt sc0 Hk [_ Hvc] Hdc Hrole Hlive _|sess se j rp Hse _]; subst.
      + assert (HV : exists Vn, zinvg cfg Ps fsm g' C LL A (Vn ++ V)).
        { (* the session is read off the equation on the nodes; its request after that *)
          eapply (zinv_enter_cand g g1 hb' C LL A V _ n s sc _ vt HI Hf Hr Hk Hdc);
            [lia|exact Hrole| |exact Hlive|exact Hg1|reflexivity|reflexivity|destruct vt; reflexivity]; reflexivity. }
        destruct HV as [Vn HV]. exists [], [], [], Vn. split; [intros H; destruct H; reflexivity|exact HV].
      + exists [], [], [], []. split; [reflexivity|].
        eapply (zinv_cand_quiet g g1 hb' C LL A V _ n sc sc (Some _) HI Hf Hr); try reflexivity; [exact Hnl| |auto|exact Hg1].
        intros se0 H0. inversion H0; subst se0. split; [reflexivity|]. exists se. auto.
    - (* runLeader from sL *)
      set (nL := mkGN (gn_P n) (Up (become_leader (gn_P n) sL)) None nx') in *.
      destruct (dproj_eq _ _ HdL) as (HdtL & _).
      assert (Hls : live sL = live sc) by (unfold live; rewrite HdL; reflexivity).
      assert (Hfl : forall j, find_lead (cg_lead g') j = find_lead (set_lead (cg_lead g) (gn_id n) (fresh_lead (gn_P n) (become_leader (gn_P n) sL))) j).
      { apply (refresh_one (cnodes g) _ n nL (become_leader (gn_P n) sL) (cg_lead g) (zinvg_nodup HI) Hf eq_refl eq_refl); [rewrite <- HrL; apply (become_leader_appended (gn_P n) sL)|rewrite Hr; exact Hnl]. }
      assert (Ht : touch g g' (gn_id n) n nL [] [] (map (tag (gn_id n)) E)).
      { apply touch_nodes; try reflexivity; [exact Hf|]. intros j Hne. rewrite Hfl. apply find_lead_set_other, Hne. }
      assert (Hld : g_leaders (gof g') = (v_term sL, gn_id n) :: g_leaders (gof g)) by (rewrite HvL; reflexivity).
      pose proof (find_lead_set_same (cg_lead g) (gn_id n) (fresh_lead (gn_P n) (become_leader (gn_P n) sL))) as Hfs. rewrite <- Hfl in Hfs.
      inversion Hcc as [se vt sc0 Hk [_ Hvc] Hdc _ Hlive _|sess se j rp Hse _]; subst.
      + (* a single voter, elected by its own vote in the new term *)
        destruct vt; [|exfalso; cbn [se_c c_needed c_granted] in Hq; unfold quorum_size in Hq; lia].
        set (T := v_term s + 1) in *. set (Vn := cast LL (gn_id n) T (gn_id n) (last_entry s) (last_entry s)).
        assert (KL : rest sL = rest s) by congruence.
        destruct (zinv_become cfg Ps fsm HVn g g' C LL A V Vn [(gn_id n, T, gn_id n)] _ n s sL (gn_next n + 1) HI Hf Hr KL) as (C' & LL' & A' & Hc');
          [lia|lia|lia|rewrite Hdt; intros T' H1 _; lia|exact Ht|exact Hg1|exact Hld|exact Hfs| | | | | |
           exists C', LL', A', Vn; split; [intros H; destruct H; reflexivity|exact Hc']].
        * (* its own vote alone *)
          rewrite (rest_last_entry _ _ KL). intros w kw rq Hv. left. apply in_app_iff in Hv.
          destruct Hv as [Hv|Hv]; [destruct (cast_in Hv) as (_ & _ & _ & _ & -> & _); reflexivity|exfalso].
          destruct (zg_v1 HI _ _ _ _ _ Hv) as [_ (xc & Hxc & Hxci & Hxct)].
          rewrite (zinvg_node_eq HI xc n Hxc Hin Hxci), Hdt in Hxct. lia.
        * apply (cast_gext g C LL A V n s T _ _ HI Hin Hr); [lia|right; split; [reflexivity|lia]].
        * intros w T' c kw rq Hv. destruct (cast_in Hv) as (_ & -> & _). lia.
        * apply (self_vote_new g g' LL V _ n nL [] [] _ T _ Ht); [|discriminate].
          pose proof (ap_dproj (become_leader_appended (gn_P n) sL)) as Dd.
          unfold dproj in Dd. injection Dd as Dd _ _. unfold dtn. cbn [nL gn_run image]. rewrite Dd. lia.
        * intros T' c Hlv. rewrite Hls, Hlive in Hlv. inversion Hlv; subst T' c. apply cast_recorded.
      + (* elected by the votes for the request of its invocation *)
        destruct (ginv_sess [cfg] _ n se (zl_g [cfg] _ C (zg_l HI)) Hin Hse) as (s0 & E1 & E2 & _).
        rewrite Hr in E1. inversion E1; subst s0.
        destruct (zinv_become cfg Ps fsm HVn g g' C LL A V [] [] _ n sc sL (gn_next n) HI Hf Hr HkL) as (C' & LL' & A' & Hc');
          [lia|lia| | |exact Ht|exact Hg1|exact Hld|exact Hfs| |apply gext_nil, (zg_ci HI)|intros w T' c0 kw rq []|apply votes_none| |
           exists C', LL', A', []; split; [reflexivity|exact Hc']].
        * rewrite HvL, E2. apply (zg_se1 HI n se Hin Hse).
        * intros T' _ H2. rewrite HvL, E2. apply (H2 se Hse).
        * (* the votes for it carry the last key its session asked with *)
          intros w kw rq Hv. rewrite HvL in *. rewrite (rest_last_entry _ _ HkL).
          rewrite (zg_v2 HI w (v_term sc) _ kw rq n se Hv Hin eq_refl Hse (eq_sym E2)).
          destruct (zg_se HI n se Hin Hse) as (s0 & Hs0 & [Hle|Hx]); [left|right; rewrite E2; exact Hx].
          rewrite Hr in Hs0. inversion Hs0; subst s0. symmetry. exact Hle.
        * intros T' c0 Hlv. rewrite Hls in Hlv. apply (zg_live HI n T' c0 Hin). rewrite Hr. exact Hlv.
  Qed.

  Theorem zinv_timeout sn g C LL A V i g' : zinvg cfg Ps fsm g C LL A V ->
    cstep sn [cfg] g (CBase (LElect (GTimeout i))) = Some g' -> exists Cn LLn An Vn, zinvg cfg Ps fsm g' (Cn ++ C) (LLn ++ LL) (An ++ A) (Vn ++ V).
  Proof.
    intros HI Hstep. apply cstep_base_inv in Hstep. destruct Hstep as (_ & l' & Hl & ->).
    destruct (lstep_elect_inv _ _ _ _ _ Hl) as (_ & g1 & Hg & ->).
    pose proof (gstep_inv [cfg] _ _ _ (zl_g [cfg] _ C (zg_l HI)) Hg) as Hg1.
    destruct (gstep_timeout_move _ _ _ _ Hg) as (n & s & Hf & Hr & _ & Hnl & Hm).
    destruct (znode_zup_wfu HI n s (proj1 (find_node_in _ _ _ Hf)) Hr) as [_ Hw].
    destruct (Hm Hw) as (n' & ls & E & Hcm & ->).
    destruct (zinv_cand_move g (cg_hb g) C LL A V i n s None n' ls E HI Hf Hr Hnl Hcm Hg1) as (Cn & LLn & An & Vn & _ & H).
    exists Cn, LLn, An, Vn. exact H.
  Qed.

  Theorem zinv_voteresp sn g C LL A V i j g' : zinvg cfg Ps fsm g C LL A V ->
    cstep sn [cfg] g (CBase (LElect (GVoteResp i j))) = Some g' -> exists Cn LLn An, zinvg cfg Ps fsm g' (Cn ++ C) (LLn ++ LL) (An ++ A) V.
  Proof.
    intros HI Hstep. apply cstep_base_inv in Hstep. destruct Hstep as (_ & l' & Hl & ->). pose proof (zg_l HI) as Hlinv.
    destruct (lstep_elect_inv _ _ _ _ _ Hl) as (_ & g1 & Hg & ->).
    pose proof (gstep_inv [cfg] _ _ _ (zl_g [cfg] _ C Hlinv) Hg) as Hg1.
    destruct (gstep_voteresp_move _ _ _ _ _ Hg) as (n & s & se & rp & Hf & Hr & Hse & _ & _ & Hm).
    destruct (find_node_in _ _ _ Hf) as [Hin _].
    destruct (ginv_sess [cfg] _ n _ (zl_g [cfg] _ C Hlinv) Hin Hse) as (s0 & _ & _ & E4 & _).
    destruct (znode_zup_wfu HI n s Hin Hr) as [_ Hw].
    assert (Hnl : v_role s <> Leader).
    { intros Hl0. destruct (zl_nodes [cfg] _ C Hlinv n Hin) as [_ Hlo]. destruct (Hlo s Hr Hl0) as (_ & Hn0 & _). congruence. }
    destruct (Hm E4 Hw) as (n' & ls & Hcm & ->).
    destruct (zinv_cand_move g (cg_hb g) C LL A V i n s _ n' ls [] HI Hf Hr Hnl Hcm Hg1) as (Cn & LLn & An & Vn & HV & H).
    rewrite HV in H by discriminate. exists Cn, LLn, An. exact H.
  Qed.
End Timer.
