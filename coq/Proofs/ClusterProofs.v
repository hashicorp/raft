(* Election safety over the composed cluster (Model/Cluster.v): at most one leader per term, for
   every run of the transition system - any interleaving of timers, vote requests executed late,
   repeatedly or never, responses lost, other RPCs, store failures, crash cuts and restarts.
   A step replaces one server: `vmove` (Proofs/VoteProofs.v) says what that server may do to its term and
   vote, `sess_next` what may become of its runCandidate invocation, and `ginv_move` that the invariant `ginv`
   then needs only the new server's session and whatever response or leadership the step added.
   What the two labels that run the candidate loop do to their server is said once, about variables: `cand_count`
   (electSelf ran, or a vote was counted) and `cand_move` (back to Follower, still in the loop, or runLeader), with
   gstep_timeout_move and gstep_voteresp_move.  Election safety (cand_case), the Log Matching shell
   (Proofs/ClusterLogShell.v shell_cand_move) and the commit invariant (Proofs/ClusterCommitSnapStepVote.v
   zinv_cand_move) are each one case analysis of that relation. *)
From Coq Require Import List NArith Bool Lia.
From stdpp Require Import gmap.
From RaftModel Require Import Base Config Node NodeCodec Candidate Cluster.
From RaftProofs Require Import NodeFrame NodeEvent ConfigProofs VoteProofs AdvLeaderProofs ClusterLogCut ClusterStepInv.
Open Scope N_scope.

(* runCandidate as Model/Cluster.v runs it: pre-vote off (sess_enter P false) and no store failure inside it *)
Definition entered (P : params) (s0 : nstate) : nstate :=
  (* the state after electSelf's setCurrentTerm *)
  set_vol_term (set_durable_term (set_state s0 Candidate) (v_term s0 + 1)) (v_term s0 + 1).

Definition voted (P : params) (s0 : nstate) : nstate :=
  set_vterm (set_vcand (entered P s0) (Some (p_self P))) (v_term s0 + 1).

Lemma live_voted P s0 : live (voted P s0) = Some (v_term s0 + 1, p_self P).
Proof. apply live_intro; reflexivity. Qed.

Lemma d_term_voted P s0 : d_term (voted P s0) = v_term s0 + 1.
Proof. reflexivity. Qed.
Lemma d_term_entered P s0 : d_term (entered P s0) = v_term s0 + 1.
Proof. reflexivity. Qed.

Lemma become_leader_same P s : dproj (become_leader P s) = dproj s /\ v_term (become_leader P s) = v_term s.
Proof.
  assert (H : vproj (become_leader P s) = vproj s) by (apply dispatch_frame; intros; reflexivity).
  split; [exact (f_equal fst H)|exact (f_equal snd H)].
Qed.

(* runLeader after a move to sL: term and vote are sL's *)
Lemma vmove_become_leader P r E sL : vmove r E (Up sL) -> vmove r E (Up (become_leader P sL)).
Proof.
  intros H. destruct (become_leader_same P sL) as [Bd Bv].
  eapply vmove_ext; [exact H| |exact Bd]. eapply wfu_dproj; [apply H|exact Bd|exact Bv].
Qed.

Lemma find_node_in l i n : find_node l i = Some n -> In n l /\ gn_id n = i.
Proof.
  induction l as [|x r IH]; simpl; [discriminate|]. destruct (N.eqb_spec (gn_id x) i).
  - intros H; inversion H; subst. auto.
  - intros H. destruct (IH H). auto.
Qed.

Lemma find_node_self l n : NoDup (map gn_id l) -> In n l -> find_node l (gn_id n) = Some n.
Proof.
  induction l as [|x r IH]; simpl; intros Hnd Hin; [contradiction|]. inversion Hnd as [|? ? Hx Hr]; subst.
  destruct Hin as [->|Hin]; [rewrite N.eqb_refl; reflexivity|].
  destruct (N.eqb_spec (gn_id x) (gn_id n)) as [E|]; [|apply IH; assumption].
  exfalso. apply Hx. rewrite E. apply in_map, Hin.
Qed.

Lemma upd_node_ids l i n' : gn_id n' = i -> map gn_id (upd_node l i n') = map gn_id l.
Proof.
  intros E. unfold upd_node. rewrite map_map. apply map_ext_in. intros a _.
  destruct (N.eqb_spec (gn_id a) i); congruence.
Qed.

Lemma upd_node_in l i n' x : In x (upd_node l i n') ->
  (x = n' /\ exists n, In n l /\ gn_id n = i) \/ (In x l /\ gn_id x <> i).
Proof.
  unfold upd_node. rewrite in_map_iff. intros (a & Ha & Hin).
  destruct (N.eqb_spec (gn_id a) i); subst; [left; split; [reflexivity|eauto]|right; auto].
Qed.

Lemma nodup_id_eq l n m : NoDup (map gn_id l) -> In n l -> In m l -> gn_id n = gn_id m -> n = m.
Proof.
  induction l as [|x r IH]; simpl; intros Hnd Hn Hm E; [contradiction|].
  inversion Hnd as [|? ? Hx Hr]; subst.
  destruct Hn as [->|Hn], Hm as [->|Hm]; auto.
  - exfalso. apply Hx. rewrite E. apply in_map. exact Hm.
  - exfalso. apply Hx. rewrite <- E. apply in_map. exact Hn.
Qed.

Lemma find_resp_in l i ep j rp : find_resp l i ep j = Some rp ->
  In rp l /\ rp_cand rp = i /\ rp_epoch rp = ep /\ rp_voter rp = j.
Proof.
  induction l as [|x r IH]; simpl; [discriminate|].
  destruct ((rp_cand x =? i) && (rp_epoch x =? ep) && (rp_voter x =? j)) eqn:E.
  - intros H; inversion H; subst. apply andb_prop in E. destruct E as [E E3]. apply andb_prop in E. destruct E as [E1 E2].
    apply N.eqb_eq in E1, E2, E3. auto.
  - intros H. destruct (IH H) as (A & B). auto.
Qed.

Section Safety.
  Variable cfgs : list config.

  Definition Gof (g : gstate) (j : N) : list (N * N) :=
    flat_map (fun x => match x with (j', T, c) => if j' =? j then [(T, c)] else [] end) (g_grants g).

  Lemma Gof_in g j T c : In (T, c) (Gof g j) <-> In (j, T, c) (g_grants g).
  Proof.
    unfold Gof. rewrite in_flat_map. split.
    - intros ([[j' T'] c'] & Hin & H). destruct (N.eqb_spec j' j); [|contradiction].
      destruct H as [H|[]]. inversion H; subst. exact Hin.
    - intros H. exists (j, T, c). split; [exact H|]. rewrite N.eqb_refl. left. reflexivity.
  Qed.

  (* a witness of c votes for (T, i): distinct voters that granted it *)
  Definition tally (c : config) (g : gstate) (T i : N) (W : list N) : Prop :=
    NoDup W /\ incl W (voters c) /\ forall w, In w W -> In (w, T, i) (g_grants g).

  Definition node_ok (g : gstate) (n : gnode) : Prop :=
    wfr (gn_run n) /\ inv_grants (gn_run n) (Gof g (gn_id n)) /\ functional (Gof g (gn_id n)).

  Definition sess_ok (g : gstate) (n : gnode) : Prop :=
    match gn_sess n with
    | None => True
    | Some se =>
      exists c s, In c cfgs /\ gn_run n = Up s /\
        v_term s = vq_term (se_req se) /\ vq_addr (se_req se) = gn_id n /\
        c_voting (se_c se) = true /\ c_needed (se_c se) = quorum_size c /\
        incl (se_asked se) (voters c) /\ ~ In (gn_id n) (se_asked se) /\ se_epoch se < gn_next n /\
        exists W, tally c g (vq_term (se_req se)) (gn_id n) W /\
                  N.of_nat (length W) = c_granted (se_c se) /\ incl W (gn_id n :: se_got se)
    end.

  Definition resp_grant (g : gstate) (rp : resp) : Prop :=
    rp_granted rp = true -> In (rp_voter rp, rp_reqterm rp, rp_cand rp) (g_grants g).
  Definition resp_node (n : gnode) (rp : resp) : Prop :=
    gn_id n = rp_cand rp ->
      rp_epoch rp < gn_next n /\
      forall se, gn_sess n = Some se -> rp_epoch rp = se_epoch se ->
        rp_reqterm rp = vq_term (se_req se) /\ In (rp_voter rp) (se_asked se).
  Definition resp_ok (g : gstate) (rp : resp) : Prop :=
    resp_grant g rp /\ forall n, In n (g_nodes g) -> resp_node n rp.

  Definition leader_ok (g : gstate) (x : N * N) : Prop :=
    exists c W, In c cfgs /\ tally c g (fst x) (snd x) W /\ quorum_size c <= N.of_nat (length W).

  Record ginv (g : gstate) : Prop := {
    gi_ids : NoDup (map gn_id (g_nodes g));
    gi_nodes : forall n, In n (g_nodes g) -> node_ok g n /\ sess_ok g n;
    gi_resps : forall rp, In rp (g_resps g) -> resp_ok g rp;
    gi_leaders : forall x, In x (g_leaders g) -> leader_ok g x;
    gi_grant_ids : forall w T c, In (w, T, c) (g_grants g) -> exists n, In n (g_nodes g) /\ gn_id n = w;
  }.

  Lemma tally_mono c g g' T i W : incl (g_grants g) (g_grants g') -> tally c g T i W -> tally c g' T i W.
  Proof. intros Hi (A & B & C). repeat split; auto. Qed.

  Lemma tally_majority c g T i W : tally c g T i W -> quorum_size c <= N.of_nat (length W) -> majority (voters c) W.
  Proof.
    intros (Hnd & Hin & _) HQ. pose proof (quorum_size_majority c) as Hm. cbv zeta in Hm.
    split; [exact Hnd|]. split; [exact Hin|]. unfold voters in *. rewrite map_length in *. lia.
  Qed.

  (* a server inside runCandidate, for proofs that do not count votes *)
  Lemma ginv_sess g n se : ginv g -> In n (g_nodes g) -> gn_sess n = Some se ->
    exists s, gn_run n = Up s /\ v_term s = vq_term (se_req se) /\ c_voting (se_c se) = true /\
      vq_addr (se_req se) = gn_id n /\ ~ In (gn_id n) (se_asked se) /\ se_epoch se < gn_next n.
  Proof.
    intros Hinv Hin Hse. destruct (gi_nodes g Hinv n Hin) as [_ Hs]. unfold sess_ok in Hs. rewrite Hse in Hs.
    destruct Hs as (c & s & _ & E1 & E2 & E3 & E4 & _ & _ & E7 & E8 & _). exists s. auto 6.
  Qed.

  Lemma grants_fun g w T c c' : ginv g -> In (w, T, c) (g_grants g) -> In (w, T, c') (g_grants g) -> c = c'.
  Proof.
    intros Hinv H1 H2. destruct (gi_grant_ids g Hinv _ _ _ H1) as (n & Hn & <-).
    destruct (gi_nodes g Hinv n Hn) as [(_ & _ & Hfun) _]. apply (Hfun T c c'); apply Gof_in; assumption.
  Qed.
End Safety.

Lemma ginv_wfr {cfgs g n} : ginv cfgs g -> In n (g_nodes g) -> wfr (gn_run n).
Proof. intros Hg Hin. destruct (gi_nodes cfgs g Hg n Hin) as [(Hw & _) _]. exact Hw. Qed.

(* an event that leaves the server a Candidate did not move its term (electSelf apart) *)
Lemma step_keeps_term P s e cut fs s' ob out :
  step_full P (Up s) e cut fs = (Up s', ob, out) -> e <> NElect ->
  v_role s' = Candidate -> v_term s' = v_term s.
Proof.
  intros H Hne Hr.
  destruct (step_full_inv _ _ _ _ _ _ _ _ H) as [(img & oo & Hb & _)|[(s0 & Hd & _)|(s0 & s1 & E0 & E1 & Hret)]].
  - destruct (boot_leader _ _ _ _ Hb) as [_ Hf]. rewrite Hf in Hr. discriminate.
  - discriminate Hd.
  - inversion E0; subst s0. inversion E1; subst s1.
    destruct (post_rt _ _ _ (returned_post _ _ _ _ _ Hret) Hne) as [F|[T _]]; [rewrite F in Hr; discriminate|exact T].
Qed.

Lemma vote_obs_request P r qq cut fs r' q' t gr out :
  step_full P r (NVote qq) cut fs = (r', OVote q' t gr, out) -> q' = qq.
Proof.
  unfold step_full. destruct r as [s|s]; [|discriminate]. intros H.
  destruct (finish_cases _ _ _ _ _ _ _ _ _ _ H) as [(s1 & rr & tr & fs' & _ & _ & E)|(k & oo & _ & E)]; [|discriminate].
  inversion E. reflexivity.
Qed.

Lemma keep_sess_some r se x : keep_sess r se = Some x -> se = Some x /\ exists s, r = Up s /\ v_role s = Candidate.
Proof.
  unfold keep_sess. destruct r as [s|s]; [|discriminate]. destruct se as [y|]; [|discriminate].
  destruct (N.eqb_spec (v_role s) Candidate); [|discriminate]. intros H; inversion H; subst. eauto.
Qed.

Lemma req_of_fields P s : vq_term (req_of P s) = v_term s /\ vq_addr (req_of P s) = p_self P.
Proof. unfold req_of. destruct (last_entry s). auto. Qed.

Lemma self_voter_in P s : self_is_voter P s = true -> In (p_self P) (voters (v_latest s)).
Proof.
  unfold self_is_voter, voters. intros H. apply existsb_exists in H. destruct H as (sv & Hin & H).
  apply andb_prop in H. destruct H as [Hv He]. apply N.eqb_eq in He. rewrite <- He.
  apply in_map. apply filter_In. auto.
Qed.

Lemma peers_incl P s : incl (peers_of P s) (voters (v_latest s)) /\ ~ In (p_self P) (peers_of P s).
Proof.
  unfold peers_of. split.
  - intros x Hx. apply filter_In in Hx. destruct Hx; assumption.
  - intros Hx. apply filter_In in Hx. destruct Hx as [_ Hx]. rewrite N.eqb_refl in Hx. discriminate.
Qed.

(* what may become of a server's runCandidate invocation in a step: it ends, it goes on with the epoch, request
   and peers it had, or a new one starts under the next epoch *)
Definition sess_next (n n' : gnode) : Prop :=
  gn_P n' = gn_P n /\ gn_next n <= gn_next n' /\
  forall se', gn_sess n' = Some se' ->
    se_epoch se' = gn_next n \/
    exists se, gn_sess n = Some se /\ se_epoch se' = se_epoch se /\ se_req se' = se_req se /\ se_asked se' = se_asked se.

Lemma sess_next_none n r next' : gn_next n <= next' -> sess_next n (mkGN (gn_P n) r None next').
Proof. intros H. split; [reflexivity|]. split; [exact H|discriminate]. Qed.

Lemma sess_next_fresh n r c rq asked got next' : gn_next n <= next' ->
  sess_next n (mkGN (gn_P n) r (Some (mkSess c (gn_next n) rq asked got)) next').
Proof. intros H. split; [reflexivity|]. split; [exact H|]. intros se' E. inversion E. left. reflexivity. Qed.

(* responses to earlier invocations and to the one that goes on stay what they were *)
Lemma resp_node_next n n' rp : sess_next n n' -> resp_node n rp -> resp_node n' rp.
Proof.
  intros (HP & Hn & Hse) H Hc. unfold gn_id in Hc. rewrite HP in Hc. destruct (H Hc) as [A B].
  split; [lia|]. intros se' E' He. destruct (Hse se' E') as [Hnew|(se & E & E1 & E2 & E3)]; [lia|].
  rewrite E2, E3. apply (B se E). congruence.
Qed.

(* the grants E of server i as the ghost records them *)
Definition tag (i : N) (x : N * N) : N * N * N := (i, fst x, snd x).

Lemma grant_ghost_tag j ob : grant_ghost j ob = map (tag j) (ob_grant ob).
Proof. destruct ob as [q t [|]| | | | | |]; reflexivity. Qed.

Lemma Gof_tag g g' i E j : g_grants g' = map (tag i) E ++ g_grants g ->
  Gof g' j = (if i =? j then E else []) ++ Gof g j.
Proof.
  intros Hg. unfold Gof. rewrite Hg, flat_map_app. f_equal. clear Hg.
  induction E as [|[T c] r IH]; cbn; [destruct (i =? j); reflexivity|]. rewrite IH. destruct (i =? j); reflexivity.
Qed.

(* runCandidate at a running server (parameters P, state s, next epoch nx), as one step of gstep runs it on ev: the
   election timer (None), or the answer rp of voter j to the invocation se (Some (j, rp)).
   cand_count: electSelf ran (vt: the server is a voter and voted for itself), or the answer was counted.  It gives the
   loop's state, its invocation, the next epoch and the votes of its own that were cast. *)
Inductive cand_count (P : params) (s : nstate) (nx : N) :
    option sess -> option (N * resp) -> nstate -> sess -> N -> list (N * N) -> Prop :=
| CC_enter se (vt : bool) sc :
    rest sc = rest s -> wfu sc -> d_term sc = v_term s + 1 -> v_role sc = Candidate ->
    live sc = (if vt then Some (v_term s + 1, p_self P) else None) ->
    (vt = true -> In (p_self P) (voters (v_latest sc))) ->
    cand_count P s nx se None sc
      (mkSess (mkCand (v_term s + 1) false true 0 0 (if vt then 1 else 0) (quorum_size (v_latest sc)))
              nx (req_of P sc) (peers_of P sc) [])
      (nx + 1) (if vt then [(v_term s + 1, p_self P)] else [])
| CC_vote sess se j rp :
    sess = Some se -> rp_term rp <= v_term s ->
    cand_count P s nx sess (Some (j, rp)) s
      (mkSess (mkCand (c_term (se_c se)) (c_prevote (se_c se)) true (c_pvGranted (se_c se)) (c_pvRefused (se_c se))
                      (if rp_granted rp then c_granted (se_c se) + 1 else c_granted (se_c se)) (c_needed (se_c se)))
              (se_epoch se) (se_req se) (se_asked se) (j :: se_got se))
      nx [].

(* cand_move: the server after the step, the leaderships and the votes of its own that the step adds.  A newer term in
   the answer sends the server back to Follower; otherwise the count decides between runLeader, from a state sL that
   differs from the loop's in role (Leader), advertised leader and transfer flag, and staying in the loop. *)
Inductive cand_move (n : gnode) (s : nstate) (ev : option (N * resp)) : gnode -> list (N * N) -> list (N * N) -> Prop :=
| CM_down sF :
    rest sF = rest s -> wfu sF -> d_term s < d_term sF -> v_role sF = Follower -> live sF = None ->
    cand_move n s ev (mkGN (gn_P n) (Up sF) None (gn_next n)) [] []
| CM_stay sc se' nx' E :
    cand_count (gn_P n) s (gn_next n) (gn_sess n) ev sc se' nx' E -> c_granted (se_c se') < c_needed (se_c se') ->
    cand_move n s ev (mkGN (gn_P n) (Up sc) (Some se') nx') [] E
| CM_won sc se' nx' E sL :
    cand_count (gn_P n) s (gn_next n) (gn_sess n) ev sc se' nx' E -> c_needed (se_c se') <= c_granted (se_c se') ->
    rest sL = rest sc -> dproj sL = dproj sc -> v_term sL = v_term sc -> v_role sL = Leader ->
    cand_move n s ev (mkGN (gn_P n) (Up (become_leader (gn_P n) sL)) None nx') [(v_term sc, gn_id n)] E.

Lemma sess_enter_cases P s0 :
  let nt := v_term s0 + 1 in
  let needed := quorum_size (v_latest s0) in
  if self_is_voter P s0 then
    if needed <=? 1
    then fst (sess_enter P false s0) = SLeader (set_transfer (set_leader (set_state (voted P s0) Leader) (p_self P) (p_self P)) false)
    else fst (sess_enter P false s0) = SCand (voted P s0) (mkCand nt false true 0 0 1 needed)
  else fst (sess_enter P false s0) = SCand (entered P s0) (mkCand nt false true 0 0 0 needed).
Proof.
  cbv zeta. unfold sess_enter, cand_enter. cbn [andb]. unfold elect_self, do_set_term. cbn [next_fail].
  change (v_term (set_state s0 Candidate)) with (v_term s0).
  change (v_latest (set_state s0 Candidate)) with (v_latest s0).
  fold (entered P s0).
  destruct (last_entry (entered P s0)) as [li lt].
  change (v_latest (entered P s0)) with (v_latest s0).
  unfold self_is_voter.
  destruct (existsb (fun sv => is_voter sv && (s_id sv =? p_self P)) (v_latest s0)) eqn:EV.
  - unfold persist_vote. cbn [next_fail]. fold (voted P s0).
    cbn [feed_self c_prevote on_vote c_voting negb vr_term vr_granted c_granted c_needed].
    change (v_term (voted P s0)) with (v_term s0 + 1). rewrite N.ltb_irrefl.
    change (0 + 1) with 1.
    destruct (quorum_size (v_latest s0) <=? 1); reflexivity.
  - cbn [feed_self]. reflexivity.
Qed.

Lemma sess_vote_cases P s c v : c_voting c = true ->
  fst (sess_step P false (SCand s c) (CVote v)) =
  if v_term s <? vr_term v then
    SFollower (set_transfer (set_vol_term (set_durable_term (set_state s Follower) (vr_term v)) (vr_term v)) false)
  else
    let g := if vr_granted v then c_granted c + 1 else c_granted c in
    if c_needed c <=? g
    then SLeader (set_transfer (set_leader (set_state s Leader) (p_self P) (p_self P)) false)
    else SCand s (mkCand (c_term c) (c_prevote c) true (c_pvGranted c) (c_pvRefused c) g (c_needed c)).
Proof.
  intros Hv. unfold sess_step, on_vote. rewrite Hv. cbn [negb].
  destruct (v_term s <? vr_term v).
  - unfold do_set_term. cbn [next_fail]. reflexivity.
  - cbv zeta. destruct (c_needed c <=? (if vr_granted v then c_granted c + 1 else c_granted c)); [reflexivity|].
    cbn [feed_self exit_loop fst]. reflexivity.
Qed.

(* the state that runLeader starts from *)
Lemma loop_won_state s a i : let sL := set_transfer (set_leader (set_state s Leader) a i) false in
  rest sL = rest s /\ dproj sL = dproj s /\ v_term sL = v_term s /\ v_role sL = Leader.
Proof. repeat split. Qed.

(* electSelf on s0, the state of the server but for its transfer flag *)
Lemma cand_count_enter P s se nx (vt : bool) s0 : wfu s -> s0 = s \/ s0 = set_transfer s false ->
  (vt = true -> self_is_voter P s0 = true) ->
  let sc := if vt then voted P s0 else entered P s0 in
  cand_count P s nx se None sc
    (mkSess (mkCand (v_term s0 + 1) false true 0 0 (if vt then 1 else 0) (quorum_size (v_latest sc))) nx (req_of P sc) (peers_of P sc) [])
    (nx + 1) (if vt then [(v_term s0 + 1, p_self P)] else []).
Proof.
  intros [Hwd Hvt] Hs0 Hsv. unfold wfd in Hwd.
  assert (E0 : rest s0 = rest s /\ d_vterm s0 = d_vterm s /\ v_term s0 = v_term s) by (destruct Hs0 as [-> | ->]; auto).
  destruct E0 as (Er & Evt & Et). destruct vt; cbv zeta; rewrite Et.
  - apply (CC_enter P s nx se true (voted P s0)); [exact Er|apply wfu_intro; simpl; lia|simpl; lia|reflexivity| |].
    + rewrite live_voted, Et. reflexivity.
    + intros _. apply self_voter_in, Hsv, eq_refl.
  - apply (CC_enter P s nx se false (entered P s0)); [exact Er|apply wfu_intro; simpl; lia|simpl; lia|reflexivity|apply live_old; simpl; lia|discriminate].
Qed.

Lemma gstep_timeout_move cfgs g i g1 : gstep cfgs g (GTimeout i) = Some g1 ->
  exists n s, find_node (g_nodes g) i = Some n /\ gn_run n = Up s /\ In (v_latest s) cfgs /\ v_role s <> Leader /\
    (wfu s -> exists n' ls E, cand_move n s None n' ls E /\
       g1 = mkG (upd_node (g_nodes g) i n') (g_resps g) (ls ++ g_leaders g) (map (tag i) E ++ g_grants g)).
Proof.
  intros H. destruct (gstep_timeout_inv _ _ _ _ H) as (n & s & x & tr & Hf & Hr & Hc & Hrole & Hx & ->).
  exists n, s. do 4 (split; [assumption|]). intros Hw. destruct (find_node_in _ _ _ Hf) as [_ <-].
  set (s0 := match gn_sess n with Some _ => set_transfer s false | None => s end) in *.
  assert (Hs0 : s0 = s \/ s0 = set_transfer s false) by (unfold s0; destruct (gn_sess n); auto).
  pose proof (sess_enter_cases (gn_P n) s0) as Hcs. cbv zeta in Hcs. rewrite Hx in Hcs. cbn [fst] in Hcs.
  destruct (self_is_voter (gn_P n) s0) eqn:Esv.
  - pose proof (cand_count_enter (gn_P n) s (gn_sess n) (gn_next n) true s0 Hw Hs0 (fun _ => Esv)) as Hcc.
    destruct (N.leb_spec (quorum_size (v_latest s0)) 1) as [Hq|Hq]; subst x; eexists _, _, _.
    + destruct (loop_won_state (voted (gn_P n) s0) (p_self (gn_P n)) (p_self (gn_P n))) as (A & B & D & F).
      split; [exact (CM_won n s None _ _ _ _ _ Hcc Hq A B D F)|reflexivity].
    + split; [eapply CM_stay; [exact Hcc|exact Hq]|reflexivity].
  - pose proof (cand_count_enter (gn_P n) s (gn_sess n) (gn_next n) false s0 Hw Hs0) as Hcc. subst x.
    eexists _, _, _. split; [eapply CM_stay; [apply Hcc; discriminate|cbn [se_c c_granted c_needed]; unfold quorum_size; lia]|reflexivity].
Qed.

Lemma gstep_voteresp_move cfgs g i j g1 : gstep cfgs g (GVoteResp i j) = Some g1 ->
  exists n s se rp, find_node (g_nodes g) i = Some n /\ gn_run n = Up s /\ gn_sess n = Some se /\
    ~ In j (se_got se) /\ find_resp (g_resps g) i (se_epoch se) j = Some rp /\
    (c_voting (se_c se) = true -> wfu s -> exists n' ls, cand_move n s (Some (j, rp)) n' ls [] /\
       g1 = mkG (upd_node (g_nodes g) i n') (g_resps g) (ls ++ g_leaders g) (g_grants g)).
Proof.
  intros H. destruct (gstep_voteresp_inv _ _ _ _ _ H) as (n & s & se & rp & x & tr & Hf & Hr & Hse & Hgot & Hrp & Hx & ->).
  exists n, s, se, rp. do 5 (split; [assumption|]). intros Hv [Hwd Hvt]. unfold wfd in Hwd. destruct (find_node_in _ _ _ Hf) as [_ <-].
  pose proof (sess_vote_cases (gn_P n) s (se_c se) (mkVR (rp_term rp) (rp_granted rp)) Hv) as Hcs.
  rewrite Hx in Hcs. cbn [fst vr_term vr_granted] in Hcs.
  destruct (N.ltb_spec (v_term s) (rp_term rp)) as [Hlt|Hge].
  - (* the equation first: it says which state sF is *)
    subst x. eexists _, _. split; [eapply CM_down|]; [..|reflexivity]; try reflexivity; [apply wfu_intro| |apply live_old]; simpl; lia.
  - pose proof (CC_vote (gn_P n) s (gn_next n) (gn_sess n) se j rp Hse Hge) as Hcc. cbv zeta in Hcs.
    destruct (N.leb_spec (c_needed (se_c se)) (if rp_granted rp then c_granted (se_c se) + 1 else c_granted (se_c se))) as [Hq|Hq];
      subst x; eexists _, _.
    + destruct (loop_won_state s (p_self (gn_P n)) (p_self (gn_P n))) as (A & B & D & F).
      split; [exact (CM_won n s _ _ _ _ _ _ Hcc Hq A B D F)|reflexivity].
    + split; [eapply CM_stay; [exact Hcc|exact Hq]|reflexivity].
Qed.

Section Steps.
  Variable cfgs : list config.

  (* a step replaces server i, which moved by vmove and sess_next, and adds to the ghost lists: what is left to
     show is the new server's session and whatever response or leadership is new *)
  Lemma ginv_move g g' i n n' E :
    ginv cfgs g -> find_node (g_nodes g) i = Some n ->
    g_nodes g' = upd_node (g_nodes g) i n' -> g_grants g' = map (tag i) E ++ g_grants g ->
    sess_next n n' -> vmove (gn_run n) E (gn_run n') -> sess_ok cfgs g' n' ->
    (forall rp, In rp (g_resps g') -> In rp (g_resps g) \/
       (resp_grant g' rp /\ resp_node n' rp /\ forall m, In m (g_nodes g) -> gn_id m <> i -> resp_node m rp)) ->
    (forall x, In x (g_leaders g') -> In x (g_leaders g) \/ leader_ok cfgs g' x) ->
    ginv cfgs g'.
  Proof.
    intros [Hids Hnodes Hresps Hleaders Hgids] Hfind Hn' Hg' Hnext Hmove Hsok Hrs Hls.
    destruct (find_node_in _ _ _ Hfind) as [Hin Hid].
    assert (Hid' : gn_id n' = i) by (unfold gn_id; rewrite (proj1 Hnext); exact Hid).
    assert (Hmono : incl (g_grants g) (g_grants g')) by (rewrite Hg'; apply incl_appr, incl_refl).
    constructor.
    - rewrite Hn', upd_node_ids; assumption.
    - intros m Hm. rewrite Hn' in Hm. destruct (upd_node_in _ _ _ _ Hm) as [[-> _]|[Hm' Hne]].
      + split; [|exact Hsok]. destruct (Hnodes n Hin) as [(_ & Hig & Hfun) _]. rewrite Hid in Hig, Hfun.
        unfold node_ok. rewrite Hid', (Gof_tag g g' i E i Hg'), N.eqb_refl.
        split; [apply Hmove|]. apply (vmove_grants _ _ _ _ Hmove Hig Hfun).
      + destruct (Hnodes m Hm') as [Hok Hs]. split.
        * unfold node_ok. rewrite (Gof_tag g g' i E _ Hg'). destruct (N.eqb_spec i (gn_id m)); [congruence|exact Hok].
        * unfold sess_ok in *. destruct (gn_sess m) as [se|]; [|exact I].
          destruct Hs as (c & s & Hc & E1 & E2 & E3 & E4 & E5 & E6 & E7 & E8 & W & HW & HL & HI).
          exists c, s. repeat split; auto. exists W. split; [eapply tally_mono; eassumption|auto].
    - intros rp Hrp. destruct (Hrs rp Hrp) as [Hold|(Hgr & Hnew & Hoth)].
      + destruct (Hresps rp Hold) as [Hgr Hall]. split; [intros Hg; apply Hmono, Hgr, Hg|].
        intros m Hm. rewrite Hn' in Hm. destruct (upd_node_in _ _ _ _ Hm) as [[-> _]|[Hm' _]]; [|apply Hall, Hm'].
        eapply resp_node_next; [exact Hnext|apply Hall, Hin].
      + split; [exact Hgr|]. intros m Hm. rewrite Hn' in Hm.
        destruct (upd_node_in _ _ _ _ Hm) as [[-> _]|[Hm' Hne]]; [exact Hnew|apply Hoth; assumption].
    - intros x Hx. destruct (Hls x Hx) as [Hold|Hnew]; [|exact Hnew].
      destruct (Hleaders x Hold) as (c & W & Hc & HW & HQ). exists c, W. split; [exact Hc|]. split; [eapply tally_mono; eassumption|exact HQ].
    - intros w T c Hw. rewrite Hn'. destruct (N.eq_dec w i) as [->|Hne].
      + exists n'. split; [|exact Hid']. unfold upd_node. apply in_map_iff. exists n. rewrite Hid, N.eqb_refl. auto.
      + rewrite Hg' in Hw. apply in_app_iff in Hw. destruct Hw as [Hw|Hw].
        * apply in_map_iff in Hw. destruct Hw as (y & Hy & _). inversion Hy. congruence.
        * destruct (Hgids w T c Hw) as (m & Hm & Hmid). exists m. split; [|exact Hmid]. unfold upd_node. apply in_map_iff.
          exists m. destruct (N.eqb_spec (gn_id m) i); [congruence|auto].
  Qed.

  (* a step that sends no response: runCandidate at i, or the leader loop *)
  Lemma ginv_local g i n r' se' next' E ls :
    ginv cfgs g -> find_node (g_nodes g) i = Some n ->
    let n' := mkGN (gn_P n) r' se' next' in
    let g' := mkG (upd_node (g_nodes g) i n') (g_resps g) (ls ++ g_leaders g) (map (tag i) E ++ g_grants g) in
    sess_next n n' -> vmove (gn_run n) E r' -> sess_ok cfgs g' n' -> (forall x, In x ls -> leader_ok cfgs g' x) ->
    ginv cfgs g'.
  Proof.
    intros Hinv Hfind n' g' Hnext Hmove Hsok Hls. apply (ginv_move g g' i n n' E); auto.
    intros x Hx. apply in_app_iff in Hx. destruct Hx; auto.
  Qed.

  (* a handler runs at j (a vote request of some invocation, or any other input) *)
  Lemma handler_case g g' j nj e cut fs r' ob out :
    ginv cfgs g -> find_node (g_nodes g) j = Some nj -> e <> NElect ->
    step_full (gn_P nj) (gn_run nj) e cut fs = (r', ob, out) ->
    g_nodes g' = upd_node (g_nodes g) j (mkGN (gn_P nj) r' (keep_sess r' (gn_sess nj)) (gn_next nj)) ->
    g_grants g' = grant_ghost j ob ++ g_grants g -> g_leaders g' = g_leaders g ->
    (forall rp, In rp (g_resps g') -> In rp (g_resps g) \/
       (rp_cand rp <> j /\ resp_grant g' rp /\ forall m, In m (g_nodes g) -> resp_node m rp)) ->
    ginv cfgs g'.
  Proof.
    intros Hinv Hfind Hne Hstep Hn' Hg' Hl' Hrs.
    destruct (find_node_in _ _ _ Hfind) as [Hin Hid].
    destruct (gi_nodes cfgs g Hinv nj Hin) as [(Hw & _) Hs].
    eapply (ginv_move g g' j nj _ (ob_grant ob)); try eassumption.
    - rewrite Hg', grant_ghost_tag. reflexivity.
    - split; [reflexivity|]. split; [apply N.le_refl|]. cbn [gn_sess]. intros se' Hse'. right.
      apply keep_sess_some in Hse'. exists se'. tauto.
    - eapply vmove_step; eassumption.
    - unfold sess_ok in *. cbn [gn_sess gn_run gn_next]. destruct (keep_sess r' (gn_sess nj)) as [se|] eqn:Hk; [|exact I].
      apply keep_sess_some in Hk. destruct Hk as (Hse & s' & -> & Hrole). rewrite Hse in Hs.
      destruct Hs as (c & s & Hc & E1 & E2 & E3 & E4 & E5 & E6 & E7 & E8 & W & HW & HL & HI).
      rewrite E1 in Hstep. exists c, s'. split; [exact Hc|]. split; [reflexivity|].
      split; [rewrite <- E2; eapply step_keeps_term; eassumption|].
      repeat split; auto. exists W. split; [|auto].
      eapply tally_mono; [|exact HW]. rewrite Hg'. apply incl_appr, incl_refl.
    - intros rp Hrp. destruct (Hrs rp Hrp) as [Hold|(Hc & Hg & Hall)]; [left; exact Hold|right].
      split; [exact Hg|]. split; [|intros m Hm _; apply Hall, Hm].
      intros E. exfalso. apply Hc. rewrite <- E. exact Hid.
    - intros x Hx. left. rewrite <- Hl'. exact Hx.
  Qed.

  Lemma tally_self c g T i : In i (voters c) -> In (i, T, i) (g_grants g) -> tally c g T i [i].
  Proof.
    intros Hv Hg. split; [constructor; [intros []|constructor]|]. split; intros w [<-|[]]; assumption.
  Qed.

  (* the loop's state after electSelf or after counting an answer that is in flight to this invocation: the server
     moved by vmove, and the votes counted are on record *)
  Lemma cand_count_ok g n s ev sc se' nx' E :
    ginv cfgs g -> In n (g_nodes g) -> gn_run n = Up s -> (ev = None -> In (v_latest s) cfgs) ->
    (forall j rp se, ev = Some (j, rp) -> gn_sess n = Some se ->
       ~ In j (se_got se) /\ find_resp (g_resps g) (gn_id n) (se_epoch se) j = Some rp) ->
    cand_count (gn_P n) s (gn_next n) (gn_sess n) ev sc se' nx' E ->
    let n' := mkGN (gn_P n) (Up sc) (Some se') nx' in
    vmove (Up s) E (Up sc) /\ sess_next n n' /\
    forall ns rs ls, sess_ok cfgs (mkG ns rs ls (map (tag (gn_id n)) E ++ g_grants g)) n'.
  Proof.
    intros Hinv Hin Hrun Hcfg Hev Hcc n'.
    destruct (gi_nodes cfgs g Hinv n Hin) as [(Hw & _) Hs]. rewrite Hrun in Hw.
    inversion Hcc as [se vt sc0 Hk Hwc Hdt Hrole Hlive Hvoter|sess se j rp Hse Hge]; subst.
    - (* electSelf: the term is new, the own vote (if any) is the only one counted *)
      assert (Hl : v_latest sc = v_latest s) by (injection Hk; auto). pose proof (proj2 Hw) as Hvt.
      split; [|split; [apply sess_next_fresh; lia|]].
      + apply vmove_up; [exact Hwc|simpl; lia|]. intros T c HT. destruct vt; [|destruct HT]. destruct HT as [HT|[]]. inversion HT; subst. exact Hlive.
      + intros ns rs ls. destruct (req_of_fields (gn_P n) sc) as [Rt Ra]. destruct (peers_incl (gn_P n) sc) as [Pi Pn].
        exists (v_latest sc), sc. unfold n'. cbn [gn_sess gn_run gn_next se_req se_c se_asked se_epoch se_got c_voting c_needed c_granted].
        rewrite Rt, Ra. split; [rewrite Hl; auto|]. repeat split; auto; try lia.
        exists (if vt then [gn_id n] else []). destruct vt; (split; [|split; [reflexivity|]]).
        * apply tally_self; [apply Hvoter, eq_refl|]. left. rewrite (proj2 Hwc), Hdt. reflexivity.
        * apply incl_refl.
        * split; [constructor|]. split; intros x [].
        * intros x [].
    - (* the tally after counting this response *)
      destruct (Hev j rp se eq_refl Hse) as [Hgot Hfr]. clear Hev.
      unfold sess_ok in Hs. rewrite Hse, Hrun in Hs.
      destruct Hs as (c & s0 & Hc & E1 & E2 & E3 & E4 & E5 & E6 & E7 & E8 & W & (HWn & HWi & HWg) & HL & HI).
      inversion E1; subst s0. clear E1.
      destruct (find_resp_in _ _ _ _ _ Hfr) as (Hrin & Hrc & Hre & Hrv).
      destruct (gi_resps cfgs g Hinv rp Hrin) as [Hrg Hrn].
      destruct (Hrn n Hin (eq_sym Hrc)) as [_ Hrse]. destruct (Hrse se Hse Hre) as [Hrt Hra]. rewrite Hrv in Hra.
      split; [apply vmove_refl, Hw|]. split.
      { split; [reflexivity|]. split; [apply N.le_refl|]. intros se0 Hse0. right. inversion Hse0. exists se. auto. }
      assert (HI' : incl W (gn_id n :: j :: se_got se)) by (intros x Hx; destruct (HI x Hx); [left|right; right]; assumption).
      intros ns rs ls. exists c, sc. unfold n'. cbn [gn_sess gn_run gn_next se_req se_c se_asked se_epoch se_got c_voting c_needed c_granted map app].
      repeat split; auto.
      destruct (rp_granted rp) eqn:Eg.
      + exists (j :: W). split; [|split].
        * split; [|split].
          -- constructor; [|exact HWn]. intros Hj. apply HI in Hj. destruct Hj as [Hj|Hj]; [|contradiction].
             apply E7. rewrite Hj. exact Hra.
          -- intros x [<-|Hx]; [apply E6; exact Hra|apply HWi; exact Hx].
          -- intros w [<-|Hw']; [|apply HWg; exact Hw'].
             specialize (Hrg Eg). rewrite Hrv, Hrt, Hrc in Hrg. exact Hrg.
        * simpl length. rewrite Nat2N.inj_succ, HL. lia.
        * intros x [<-|Hx]; [right; left; reflexivity|apply HI', Hx].
      + exists W. split; [repeat split; auto|]. split; [exact HL|exact HI'].
  Qed.

  (* the loop's state is in a new term, or it is the state before, in the same invocation *)
  Lemma cand_count_term g n s ev sc se' nx' E : ginv cfgs g -> In n (g_nodes g) -> gn_run n = Up s ->
    cand_count (gn_P n) s (gn_next n) (gn_sess n) ev sc se' nx' E ->
    rest sc = rest s /\ wfu sc /\ d_term s <= d_term sc /\ vq_term (se_req se') = v_term sc /\
    ((d_term s < d_term sc /\ v_role sc = Candidate) \/
     (sc = s /\ exists se, gn_sess n = Some se /\ se_req se' = se_req se)).
  Proof.
    intros Hinv Hin Hrun Hcc. pose proof (ginv_wfr Hinv Hin) as Hw. rewrite Hrun in Hw.
    inversion Hcc as [se vt sc0 Hk Hwc Hdt Hrole _ _|sess se j rp Hse _]; subst.
    - destruct Hw. split; [exact Hk|]. split; [exact Hwc|]. split; [lia|]. split; [apply req_of_fields|]. left. split; [lia|exact Hrole].
    - destruct (ginv_sess cfgs g n se Hinv Hin Hse) as (s0 & E1 & E2 & _). rewrite Hrun in E1. inversion E1; subst s0.
      split; [reflexivity|]. split; [exact Hw|]. split; [apply N.le_refl|]. split; [symmetry; exact E2|]. right. split; [reflexivity|]. exists se. auto.
  Qed.

  (* a step of runCandidate at i *)
  Lemma cand_case g i n s ev n' ls E :
    ginv cfgs g -> find_node (g_nodes g) i = Some n -> gn_run n = Up s -> (ev = None -> In (v_latest s) cfgs) ->
    (forall j rp se, ev = Some (j, rp) -> gn_sess n = Some se ->
       ~ In j (se_got se) /\ find_resp (g_resps g) i (se_epoch se) j = Some rp) ->
    cand_move n s ev n' ls E ->
    ginv cfgs (mkG (upd_node (g_nodes g) i n') (g_resps g) (ls ++ g_leaders g) (map (tag i) E ++ g_grants g)).
  Proof.
    intros Hinv Hfind Hrun Hcfg Hev Hm. destruct (find_node_in _ _ _ Hfind) as [Hin <-].
    pose proof (ginv_wfr Hinv Hin) as Hw. rewrite Hrun in Hw.
    destruct Hm as [sF Hk Hwf Hlt _ _|sc se' nx' E Hcc Hq|sc se' nx' E sL Hcc Hq _ Hd Hv _];
      [|destruct (cand_count_ok g n s ev sc se' nx' E Hinv Hin Hrun Hcfg Hev Hcc) as (Hmv & Hnx & Hok)..].
    - apply (ginv_local g _ n _ _ _ [] [] Hinv Hfind); [apply sess_next_none, N.le_refl| |exact I|intros x []].
      rewrite Hrun. apply vmove_up; [exact Hwf|exact Hlt|intros T c []].
    - apply (ginv_local g _ n _ _ _ E [] Hinv Hfind); [exact Hnx|rewrite Hrun; exact Hmv|apply Hok|intros x []].
    - apply (ginv_local g _ n _ _ _ E [_] Hinv Hfind); [apply sess_next_none, Hnx| |exact I|].
      + rewrite Hrun. apply vmove_become_leader. eapply vmove_ext; [exact Hmv|eapply wfu_dproj; [apply Hmv|exact Hd|exact Hv]|exact Hd].
      + (* the votes counted are a quorum *)
        intros x [<-|[]]. destruct (Hok (g_nodes g) (g_resps g) (g_leaders g)) as (c & s0 & Hc & E1 & E2 & _ & _ & E5 & _ & _ & _ & W & HW & HL & _).
        cbn [gn_run gn_sess] in *. inversion E1; subst s0. exists c, W. split; [exact Hc|]. cbn [fst snd]. rewrite E2.
        split; [exact HW|rewrite HL, <- E5; exact Hq].
  Qed.

  Lemma timeout_case g i g' : ginv cfgs g -> gstep cfgs g (GTimeout i) = Some g' -> ginv cfgs g'.
  Proof.
    intros Hinv Hstep. destruct (gstep_timeout_move _ _ _ _ Hstep) as (n & s & Hfind & Hrun & Hcfg & _ & Hm).
    pose proof (ginv_wfr Hinv (proj1 (find_node_in _ _ _ Hfind))) as Hw. rewrite Hrun in Hw.
    destruct (Hm Hw) as (n' & ls & E & Hcm & ->). apply (cand_case g i n s None n' ls E Hinv Hfind Hrun); [auto|discriminate|exact Hcm].
  Qed.

  (* the response of j is consumed by the invocation of i *)
  Lemma resp_case g i j g' : ginv cfgs g -> gstep cfgs g (GVoteResp i j) = Some g' -> ginv cfgs g'.
  Proof.
    intros Hinv Hstep.
    destruct (gstep_voteresp_move _ _ _ _ _ Hstep) as (n & s & se & rp & Hfind & Hrun & Hsess & Hgot & Hfr & Hm).
    destruct (find_node_in _ _ _ Hfind) as [Hin Hid].
    destruct (ginv_sess cfgs g n se Hinv Hin Hsess) as (s0 & E1 & _ & E4 & _). rewrite Hrun in E1. inversion E1; subst s0.
    pose proof (ginv_wfr Hinv Hin) as Hw. rewrite Hrun in Hw.
    destruct (Hm E4 Hw) as (n' & ls & Hcm & ->). apply (cand_case g i n s (Some (j, rp)) n' ls [] Hinv Hfind Hrun); [discriminate| |exact Hcm].
    intros j0 rp0 se0 Hev Hse0. inversion Hev; subst j0 rp0. rewrite Hsess in Hse0. inversion Hse0; subst se0. auto.
  Qed.
End Steps.

(* any set of servers with distinct identities, each in a state a boot produces or any other
   well-formed state, nobody in the candidate loop, nothing in flight *)
Definition ginit_ok (g : gstate) : Prop :=
  NoDup (map gn_id (g_nodes g)) /\ (forall n, In n (g_nodes g) -> wfr (gn_run n) /\ gn_sess n = None) /\
  g_resps g = [] /\ g_leaders g = [] /\ g_grants g = [].

Section Main.
  Variable cfgs : list config.

  Theorem gstep_inv g l g' : ginv cfgs g -> gstep cfgs g l = Some g' -> ginv cfgs g'.
  Proof.
    intros Hinv Hstep. destruct l as [i|i j cut fs|i j|j e cut fs].
    - eapply timeout_case; eassumption.
    - destruct (gstep_votereq_inv _ _ _ _ _ _ _ Hstep) as (ni & nj & se & r' & ob & out & Hfi & Hfj & Hse & Hmem & Hsf & ->).
      destruct (find_node_in _ _ _ Hfi) as [Hini Hidi].
      destruct (ginv_sess cfgs g ni se Hinv Hini Hse) as (s & _ & _ & _ & E3 & E7 & E8).
      eapply (handler_case cfgs g _ j nj (NVote (se_req se))); try reflexivity; try eassumption; [discriminate|].
      (* the response is the one this invocation of i is waiting for, and a grant was recorded *)
      intros rp Hrp. cbn [g_resps] in Hrp. apply in_app_iff in Hrp. destruct Hrp as [Hold|Hnew]; [left; exact Hold|right].
      destruct ob as [q' t gr| | | | | |]; try contradiction. destruct Hnew as [<-|[]].
      apply vote_obs_request in Hsf as ->.
      split; [cbn; intros <-; apply E7; rewrite Hidi; exact Hmem|]. split.
      + intros Hgr. cbn in Hgr. subst gr. left. cbn. rewrite E3, Hidi. reflexivity.
      + intros m Hm Hc. cbn in Hc |- *.
        assert (m = ni) by (eapply nodup_id_eq; [apply (gi_ids cfgs g Hinv)|exact Hm|exact Hini|congruence]). subst m.
        split; [exact E8|]. intros se0 Hse0 _. rewrite Hse in Hse0. inversion Hse0; subst se0. auto.
    - eapply resp_case; eassumption.
    - destruct (gstep_input_inv _ _ _ _ _ _ _ Hstep) as (nj & r' & ob & out & Hfj & Hsf & -> & Hne & _).
      eapply (handler_case cfgs g _ j nj e); try reflexivity; try eassumption. intros rp Hrp. left. exact Hrp.
  Qed.

  Theorem grun_inv ls : forall g g', ginv cfgs g -> grun cfgs g ls = Some g' -> ginv cfgs g'.
  Proof.
    induction ls as [|l r IH]; intros g g' Hinv H; simpl in H.
    - inversion H; subst. exact Hinv.
    - destruct (gstep cfgs g l) as [g1|] eqn:E; [|discriminate]. eapply IH; [eapply gstep_inv; eassumption|exact H].
  Qed.

  Lemma ginit_inv g : ginit_ok g -> ginv cfgs g.
  Proof.
    intros (Hnd & Hn & Hr & Hl & Hg). constructor.
    - exact Hnd.
    - intros n Hin. destruct (Hn n Hin) as [Hw Hs]. split.
      + unfold node_ok, Gof. rewrite Hg. simpl. split; [exact Hw|]. split; [intros T c []|intros T c c' []].
      + unfold sess_ok. rewrite Hs. exact I.
    - rewrite Hr. intros rp [].
    - rewrite Hl. intros x [].
    - rewrite Hg. intros w T c [].
  Qed.

  (* ELECTION SAFETY: for elections held under configurations whose majorities pairwise intersect *)
  Definition quorums_intersect : Prop :=
    forall c1 c2, In c1 cfgs -> In c2 cfgs -> forall W1 W2,
      majority (voters c1) W1 -> majority (voters c2) W2 -> exists x, In x W1 /\ In x W2.

  (* two quorums share a voter, and it voted once in the term *)
  Lemma leaders_fun g T i i' : quorums_intersect -> ginv cfgs g ->
    In (T, i) (g_leaders g) -> In (T, i') (g_leaders g) -> i = i'.
  Proof.
    intros HQ Hinv H1 H2.
    destruct (gi_leaders cfgs g Hinv _ H1) as (c1 & W1 & Hc1 & HW1 & Q1).
    destruct (gi_leaders cfgs g Hinv _ H2) as (c2 & W2 & Hc2 & HW2 & Q2).
    destruct (HQ c1 c2 Hc1 Hc2 W1 W2 (tally_majority _ _ _ _ _ HW1 Q1) (tally_majority _ _ _ _ _ HW2 Q2)) as (w & Hw1 & Hw2).
    apply (grants_fun cfgs g w T i i' Hinv); [apply HW1, Hw1|apply HW2, Hw2].
  Qed.

  Theorem election_safety_gen g0 ls g T i i' : quorums_intersect ->
    ginit_ok g0 -> grun cfgs g0 ls = Some g ->
    In (T, i) (g_leaders g) -> In (T, i') (g_leaders g) -> i = i'.
  Proof. intros HQ H0 Hrun. apply (leaders_fun g T i i' HQ), (grun_inv ls g0 g (ginit_inv g0 H0) Hrun). Qed.
End Main.

Lemma quorums_intersect_one cfg : NoDup (voters cfg) -> quorums_intersect [cfg].
Proof.
  intros HV c1 c2 [<-|[]] [<-|[]] W1 W2 M1 M2. apply (majorities_intersect (voters cfg)); assumption.
Qed.

Theorem election_safety cfg g0 ls g T i i' : NoDup (voters cfg) ->
  ginit_ok g0 -> grun [cfg] g0 ls = Some g ->
  In (T, i) (g_leaders g) -> In (T, i') (g_leaders g) -> i = i'.
Proof. intros HV. apply election_safety_gen, quorums_intersect_one, HV. Qed.

(* elections that straddle one membership change: some servers still campaign under the old
   configuration, others already under the new one (one voter added, removed, promoted or demoted) *)
Theorem election_safety_across_change cur idx q new g0 ls g T i i' :
  check_config cur = true -> next_config cur idx q = Some new -> NoDup (voters cur) -> NoDup (voters new) ->
  ginit_ok g0 -> grun [cur; new] g0 ls = Some g ->
  In (T, i) (g_leaders g) -> In (T, i') (g_leaders g) -> i = i'.
Proof.
  intros Hc Hn HV1 HV2. apply election_safety_gen.
  intros c1 c2 H1 H2 W1 W2 M1 M2.
  destruct H1 as [<-|[<-|[]]], H2 as [<-|[<-|[]]].
  - apply (majorities_intersect (voters cur)); assumption.
  - eapply next_config_majorities_intersect; eassumption.
  - destruct (next_config_majorities_intersect cur idx q new W2 W1 Hc Hn M2 M1) as (x & A & B). exists x. auto.
  - apply (majorities_intersect (voters new)); assumption.
Qed.
