(* ClusterQuorumMono.v — every step from a state that satisfies zinvg of
   Proofs/ClusterCommitSnapInv2.v keeps or raises the commit index of every server that runs before and
   after it, unless the step restarts that server: by label (NRestart) or because the process died
   inside the handler the step ran at it (commit_monotone_step_crash, Proofs/ClusterQuorumMonoSpec.v).

   A step changes one server, in one of the ways of Proofs/ClusterCommitMove.v (cmove).  Every handler
   that returns keeps the commit index, except that appendEntries may raise it (Proofs/ClusterLeaderNode.v);
   a process that dies inside a handler is restarted by the same model step, and NewRaft starts at 0
   (Proofs/ClusterQuorumMonoCex.v); runCandidate, dispatchLogs and a step-down keep it; the leader loop
   moves it to the commitment's, which is not below it when commitCh was notified. *)
From Coq Require Import List NArith Bool Lia.
From stdpp Require Import gmap.
From RaftModel Require Import Base Config Commitment Node NodeCodec Candidate Leader Cluster ClusterLog ClusterCommit.
From RaftProofs Require Import ClusterProofs ClusterStepInv ClusterLogChain ClusterCommitLog ClusterCommitNode
  ClusterCommitGhost ClusterLogCut ClusterCommitUpd ClusterCommitSnapInv2 ClusterCommitSnapStepA ClusterQuorumSpec
  ClusterQuorumMonoSpec NodeFrame NodeEvent ClusterLeaderNode ClusterCommitMove.
Open Scope N_scope.

Section Mono.
  Variable cfg : config.
  Variable Ps : list params.
  Variable fsm : bool.
  Variables (g : cgstate) (C : chain) (LL : LLt) (A : At) (V : Vt).
  Hypothesis HI : zinvg cfg Ps fsm g C LL A V.

  Let Hnd : NoDup (map gn_id (cnodes g)) := zinvg_nodup HI.

  (* leaderLoop, case commitCh: a notified leader's commitment is not below its commit index *)
  Lemma notified_commit_le n s ld : In n (cnodes g) -> find_lead (cg_lead g) (gn_id n) = Some ld ->
    gn_run n = Up s -> v_role s = Leader -> ld_notified ld = true -> v_commit s <= cm_commit (ld_cm ld).
  Proof.
    intros Hin Hfl Hr Hrole Hnot.
    destruct (zlead_inv_at (zg_lead HI n s Hin Hr Hrole) Hfl) as (tl & L & _).
    pose proof (li_vc L). destruct (li_QA L (li_notified L Hnot)). lia.
  Qed.

  Lemma cmove_commit sn l n r' L' s s' : In n (cnodes g) -> gn_run n = Up s -> cmove sn g l n r' L' -> r' = Up s' ->
    v_commit s <= v_commit s' \/ is_restart_of l (gn_id n) \/ dies_in_handler g l (gn_id n).
  Proof.
    intros Hin Hs Ht. destruct Ht as [e cut fs r' ob out Hh He Hsf|s0 x Hr Hx|s0 ty data fs Hr _|s0 Hr _|s0 ld ls2 tr res Hr Hrole Hfl Hnot Hlc];
      intros Hs'; rewrite Hs in *; try (inversion Hr; subst s0).
    - (* the process was started again - by the label, or because it died inside the handler -, or the handler returned *)
      destruct (step_full_inv _ _ _ _ _ _ _ _ Hsf) as [(img & oo & _ & [->| ->])|[(s0 & Hd & _)|(s0 & s1 & E0 & E1 & Hret)]].
      + right. left. apply (handler_of_restart _ _ _ _ _ Hh).
      + right. right. exists n, e, cut, fs, r', out. rewrite (find_node_self _ n Hnd Hin), Hs. auto.
      + discriminate Hd.
      + left. inversion E0; subst s0. rewrite Hs' in E1. inversion E1; subst s1.
        apply (returned_commit_up _ _ _ _ _) in Hret; [exact Hret|]. destruct e; try exact I; destruct He.
    - left. assert (Hc : v_commit (sess_state x) = v_commit s) by (apply (loop_result_frame v_commit) with (P := gn_P n); auto).
      destruct (loop_run_up _ _ _ Hs') as [->|(s1 & -> & ->)]; [lia|].
      destruct (become_leader_adv (gn_P n) s1) as (_ & Hb & _). cbn [sess_state] in Hc. lia.
    - left. inversion Hs'; subst s'.
      destruct (dispatch_adv (gn_P n) (leader_setup s) fs [(ty, data, 0)]) as (_ & Hc & _). cbn [leader_setup l_node] in Hc. lia.
    - left. inversion Hs'; subst s'. apply N.le_refl.
    - left. inversion Hs'; subst s'. destruct (leader_commit_ckeep _ _ _ _ Hlc) as (_ & -> & _). cbn [l_cm].
      apply (notified_commit_le n s ld Hin Hfl Hs Hrole Hnot).
  Qed.

  Theorem cstep_mono sn l g' : cstep sn [cfg] g l = Some g' -> commit_monotone_step_crash g l g'.
  Proof.
    intros H n n' s s' Hn Hn' Hid Hr Hr'.
    destruct (proj2 (cstep_nodes sn [cfg] g l g' H) n' Hn') as (x & Hx & Hidx & Hrun).
    assert (E : x = n) by (apply (nodup_id_eq _ _ _ Hnd Hx Hn); congruence). subst x.
    destruct Hrun as [Hk|Ht]; [left; rewrite Hk, Hr in Hr'; inversion Hr'; apply N.le_refl|].
    apply (cmove_commit sn l n _ _ s s' Hn Hr Ht Hr').
  Qed.
End Mono.
