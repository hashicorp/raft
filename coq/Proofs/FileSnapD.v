(* FileSnapD.v — the history vocabulary under append, Q is monotone in the history. *)
From Coq Require Import List Arith NArith Bool Lia Permutation.
From RaftModel Require Import FileSnap FileSnapSpec.
From RaftProofs Require Import FileSnapA FileSnapB FileSnapC.
Import ListNotations.
Open Scope N_scope.

Lemma created_as_app : forall s s2 sid, created_as (s ++ s2) sid =
  match created_as s sid with Some x => Some x | None => created_as s2 sid end.
Proof.
  induction s as [|[c t i|c b|c|c] s IH]; intros s2 sid; simpl; auto.
  destruct (c =? sid); auto.
Qed.

Lemma created_as_app_some : forall s s2 sid x, created_as s sid = Some x -> created_as (s ++ s2) sid = Some x.
Proof. intros s s2 sid x H. rewrite created_as_app, H. reflexivity. Qed.

Lemma ended_app : forall s s2 sid, ended (s ++ s2) sid =
  match ended s sid with Some b => Some b | None => ended s2 sid end.
Proof.
  induction s as [|[c t i|c b|c|c] s IH]; intros s2 sid; simpl; auto;
    destruct (c =? sid); auto.
Qed.

Lemma written_aux_app : forall s s2 sid acc, written_aux (s ++ s2) sid acc =
  match ended s sid with
  | Some _ => written_aux s sid acc
  | None => written_aux s2 sid (written_aux s sid acc)
  end.
Proof.
  induction s as [|[c t i|c b|c|c] s IH]; intros s2 sid acc; simpl; auto;
    destruct (c =? sid); auto.
Qed.

Lemma written_app : forall s s2 sid, written (s ++ s2) sid =
  match ended s sid with Some _ => written s sid | None => written_aux s2 sid (written s sid) end.
Proof. intros. apply written_aux_app. Qed.

Lemma created_app : forall s s2, created (s ++ s2) = created s ++ created s2.
Proof. induction s as [|[c t i|c b'|c|c] s IH]; simpl; intros; auto. rewrite IH. reflexivity. Qed.

Lemma created_as_in : forall s sid, In sid (created s) <-> exists x, created_as s sid = Some x.
Proof.
  induction s as [|[c t i|c b'|c|c] s IH]; simpl; intros sid; try apply IH.
  - split; [intros []|intros [x H]; discriminate].
  - destruct (N.eqb_spec c sid) as [E|E].
    + split; [eauto|intros; left; exact E].
    + rewrite <- IH. split; [intros [H|H]; [contradiction|exact H]|intros; right; assumption].
Qed.

Lemma Complete_mono : forall s s2 d, Complete s d -> Complete (s ++ s2) d.
Proof.
  intros s s2 d [Ht [t [i [Hc [He [Hm Hs]]]]]]. split; [exact Ht|]. exists t, i.
  rewrite (created_as_app_some _ _ _ _ Hc), ended_app, written_app, He. auto.
Qed.

Lemma Q_mono : forall r s s2 h f, Q r s h f -> Q r (s ++ s2) h f.
Proof.
  intros r s s2 h f HQ. constructor.
  - apply (q_nodup _ _ _ _ HQ).
  - apply (q_ren _ _ _ _ HQ).
  - apply (q_clean _ _ _ _ HQ).
  - intros d Hd Ht. destruct (q_shape _ _ _ _ HQ d Hd Ht) as [Hc|Ho]; [left; apply Complete_mono; exact Hc|right; exact Ho].
  - intros sid Hin. destruct (q_closed _ _ _ _ HQ sid Hin) as [He [t [i [Hc Hd]]]].
    rewrite ended_app, written_app, He. split; [reflexivity|]. exists t, i. split; [eapply created_as_app_some; eauto|].
    destruct Hd as [[d [Hd [Hs HC]]]|Ho]; [left|right; exact Ho].
    exists d. split; [exact Hd|split; [exact Hs|apply Complete_mono; exact HC]].
Qed.
