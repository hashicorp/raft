(* FileSnapProofs.v — C15: what List / Open return after a crash of the FileSnapshotStore. *)
From Coq Require Import List Arith NArith Bool Lia.
From RaftModel Require Import FileSnap FileSnapSpec.
From RaftProofs Require Import FileSnapA FileSnapB FileSnapC FileSnapD FileSnapE FileSnapF FileSnapG FileSnapH FileSnapI FileSnapJ.
Import ListNotations.
Open Scope N_scope.

Lemma list_eqb_refl : forall l, list_eqb l l = true.
Proof. induction l as [|x l IH]; simpl; [reflexivity|]. rewrite N.eqb_refl, IH. reflexivity. Qed.

Lemma find_final_in : forall f d, NoDup (map d_sid f) -> In d f -> d_tmp d = false ->
  find_final f (d_sid d) = Some d.
Proof.
  induction f as [|d0 f IH]; simpl; intros d Hnd Hd Ht; [contradiction|].
  destruct ((d_sid d0 =? d_sid d) && negb (d_tmp d0)) eqn:E.
  - apply andb_prop in E. destruct E as [E _]. apply N.eqb_eq in E.
    f_equal. apply (nodup_sid_eq (d0 :: f)); simpl; auto.
  - destruct Hd as [->|Hd].
    + rewrite N.eqb_refl, Ht in E. discriminate.
    + inversion Hnd; subst. apply IH; auto.
Qed.

Section Crash.
  Variables (sfirst : bool) (retain : N) (script : list sop) (k j : nat).
  Variables (jm : N -> mcontent -> mcontent -> mcontent) (js : N -> list N -> list N -> list N).
  Hypothesis Hwf : well_formed script.   (* implies NoDup (created script) *)
  Let ops := program sfirst retain script.
  Hypothesis Hcrash : crash_ok ops k j = true.
  Let tree := crash_tree ops k j jm js.
  Let L := list_snaps retain tree.

  Let r := N.to_nat retain.
  Let hj := firstn j ops.
  Let hk := firstn k ops.
  Let fj := fs_run [] hj.

  Lemma aux_Qj : Q r script hj fj.
  Proof. apply prog_Q. exact Hwf. Qed.

  Lemma aux_Qk : Q r script hk (fs_run [] hk).
  Proof. apply prog_Q. exact Hwf. Qed.

  Lemma aux_jk : forall x, In x hj -> In x hk.
  Proof.
    intros x. apply in_firstn_le. apply (crash_ok_facts _ _ _ Hcrash).
  Qed.

  Lemma aux_clean : forall d, In d fj -> d_tmp d = false ->
    forall b, dirty_after hk (d_sid d) b false = false.
  Proof.
    intros d Hd Ht b. apply (q_clean _ _ _ _ aux_Qk). apply aux_jk.
    apply (q_ren _ _ _ _ aux_Qj); assumption.
  Qed.

  Lemma aux_L : L = firstn r (get_snapshots fj).
  Proof.
    unfold L, list_snaps, get_snapshots, tree. rewrite crash_tree_eq.
    fold hk hj fj. rewrite (proj1 (junk_blind hk jm js fj aux_clean)). reflexivity.
  Qed.

  Lemma aux_open : forall sid, open_snap tree sid = open_snap fj sid.
  Proof.
    intros sid. unfold tree, open_snap. rewrite crash_tree_eq. fold hk hj fj.
    rewrite (proj2 (junk_blind hk jm js fj aux_clean)). reflexivity.
  Qed.

  Lemma aux_sorted : sorted_desc (get_snapshots fj).
  Proof. apply snaps_sorted. apply (q_nodup _ _ _ _ aux_Qj). Qed.

  (* a listed snapshot is a complete directory of the tree before the cut *)
  Lemma aux_listed : forall sid m, In (sid, m) L ->
    exists d, In d fj /\ d_sid d = sid /\ eligible d = Some m /\ Complete script d.
  Proof.
    intros sid m Hin. rewrite aux_L in Hin.
    assert (Hc : In (sid, m) (candidates fj)).
    { apply in_firstn in Hin. apply (proj1 (sort_in _ _)) in Hin. exact Hin. }
    apply cand_iff in Hc. destruct Hc as [d [Hd [Hs He]]].
    exists d. split; [exact Hd|split; [exact Hs|split; [exact He|]]].
    assert (Ht := eligible_nontmp d m He).
    destruct (q_shape _ _ _ _ aux_Qj d Hd Ht) as [HC|Ho]; [exact HC|exfalso].
    destruct (Outr_top r fj _ (q_nodup _ _ _ _ aux_Qj) (Ho m He)) as [_ Hb]. rewrite Hs in Hb.
    specialize (Hb _ Hin). rewrite key_lt_irrefl in Hb. discriminate.
  Qed.

  (* 1. everything listed opens, with exactly the bytes written to that sink, carries the (term, index) it was
        created with, came from a Close (not a Cancel) and had been renamed before the crash *)
  Theorem listed_opens : forall sid m, In (sid, m) L ->
    open_snap tree sid = Some (written script sid) /\
    created_as script sid = Some (mv_term m, mv_index m) /\
    ended script sid = Some true /\
    In (FRename sid) (firstn k ops).
  Proof.
    intros sid m Hin. destruct (aux_listed sid m Hin) as [d [Hd [Hs [He HC]]]].
    assert (HC' := HC). destruct HC' as [Ht [t [i [Hc [Hen [[x [Hx Hm]] [y [Hy Hcy]]]]]]]].
    rewrite Hs in *.
    assert (Em : m = mkMV 1 t i (Some (written script sid))).
    { pose proof (complete_eligible script d t i HC) as H. rewrite Hs in H. specialize (H Hc).
      rewrite He in H. inversion H. reflexivity. }
    split; [|split; [|split]].
    - rewrite aux_open. unfold open_snap. rewrite <- Hs.
      rewrite (find_final_in fj d (q_nodup _ _ _ _ aux_Qj) Hd Ht).
      rewrite Hx, Hy, Hm. simpl. rewrite Hcy, Hs, list_eqb_refl. reflexivity.
    - rewrite Em. simpl. exact Hc.
    - exact Hen.
    - apply aux_jk. rewrite <- Hs. apply (q_ren _ _ _ _ aux_Qj); assumption.
  Qed.

  (* 2. newest first, no duplicates, at most retain *)
  Theorem listed_sorted : sorted_desc L /\ NoDup (map fst L) /\ (length L <= N.to_nat retain)%nat.
  Proof.
    rewrite aux_L. split; [|split].
    - apply sorted_firstn. exact aux_sorted.
    - apply firstn_nodup_fst. apply snaps_nodup. apply (q_nodup _ _ _ _ aux_Qj).
    - rewrite firstn_length. fold r. clear. lia.
  Qed.

  (* 3. a snapshot whose Close had returned nil is listed, unless retain listed snapshots are all newer *)
  Theorem closed_is_listed : forall sid t i, close_returned sfirst retain script sid k ->
    created_as script sid = Some (t, i) ->
    In sid (map fst L) \/
    (length L = N.to_nat retain /\ forall x, In x L -> key_lt (sid, mkMV 1 t i (Some (written script sid))) x = true).
  Proof.
    intros sid t i Hcr Hca.
    assert (Hren : In (FRename sid) hj) by (apply (renamed_before_cut sfirst retain script sid k j); assumption).
    destruct (q_closed _ _ _ _ aux_Qj sid Hren) as [Hen [t' [i' [Hc' Hcase]]]].
    rewrite Hca in Hc'. inversion Hc'; subst t' i'. clear Hc'.
    rewrite aux_L. fold r. set (c := (sid, mkMV 1 t i (Some (written script sid)))) in *.
    destruct Hcase as [[d [Hd [Hs HC]]]|Ho].
    - assert (Hc : In c (get_snapshots fj)).
      { apply (proj2 (sort_in _ _)). apply cand_iff. exists d. split; [exact Hd|split; [exact Hs|]].
        rewrite <- Hs. apply complete_eligible; [exact HC|]. rewrite Hs. exact Hca. }
      destruct (in_dec N.eq_dec sid (map fst (firstn r (get_snapshots fj)))) as [Hi|Hn]; [left; exact Hi|right].
      apply below_top; [exact aux_sorted|exact Hc|].
      intro Hi. apply Hn. change sid with (fst c). apply in_map. exact Hi.
    - right. apply Outr_top; [apply (q_nodup _ _ _ _ aux_Qj)|exact Ho].
  Qed.

  (* 4. cancelled, or not yet renamed when the crash happened: never listed *)
  Theorem unfinished_not_listed : forall sid,
    (ended script sid = Some false \/ ~ In (FRename sid) (firstn k ops)) -> ~ In sid (map fst L).
  Proof.
    intros sid H Hin. apply in_map_iff in Hin. destruct Hin as [[s m] [E Hin]]. simpl in E. subst s.
    destruct (listed_opens sid m Hin) as [_ [_ [He Hr]]].
    destruct H as [H|H]; [congruence|contradiction].
  Qed.

End Crash.

Print Assumptions listed_opens.
Print Assumptions listed_sorted.
Print Assumptions closed_is_listed.
Print Assumptions unfinished_not_listed.
