(* ClusterLogInv.v — the cluster-level invariant of the Log Matching proof without takeSnapshot.
   Proofs/ClusterLogSnapInv.v has the invariant the proof works with; at h = false it gives this one
   (Proofs/ClusterLogMain.v sinv_linv), which is what the statements without snapshots are read off. *)
From Coq Require Import List NArith Bool Lia.
From stdpp Require Import gmap.
From RaftModel Require Import Base Config Node NodeCodec Cluster ClusterLog.
From RaftProofs Require Import ConfigProofs VoteProofs ClusterProofs ClusterLogChain ClusterLogNode.
Open Scope N_scope.

Definition dt (n : gnode) : N := d_term (image (gn_run n)).

(* a term nobody can become leader of any more *)
Definition dead_term (g : gstate) (T : N) : Prop :=
  forall n, In n (g_nodes g) -> T <= dt n /\ forall se, gn_sess n = Some se -> T < vq_term (se_req se).

(* where the entries of term T come from *)
Definition term_src (g : gstate) (T : N) : Prop := (exists id, In (T, id) (g_leaders g)) \/ dead_term g T.

(* a server in role Leader is recorded, is outside runCandidate, and every entry of its term that
   was ever created lies at or below its cached last index *)
Definition lead_ok (g : gstate) (C : chain) (n : gnode) : Prop :=
  forall s, gn_run n = Up s -> v_role s = Leader ->
    In (v_term s, gn_id n) (g_leaders g) /\ gn_sess n = None /\
    forall x p, In (x, p) C -> e_term x = v_term s -> e_idx x <= v_lastLogIdx s.

(* a recorded leadership (T, i) is in i's past *)
Definition leader_rec_ok (g : gstate) (T i : N) : Prop :=
  forall n, In n (g_nodes g) -> gn_id n = i ->
    T <= dt n /\ forall se, gn_sess n = Some se -> T < vq_term (se_req se).

Definition msg_ok (g : gstate) (C : chain) (m : amsg) : Prop :=
  am_from m <> am_to m /\ In (aq_term (am_req m), am_from m) (g_leaders g) /\
  mchain C (aq_prevIdx (am_req m), aq_prevTerm (am_req m)) (aq_entries (am_req m)) /\
  forall e, In e (aq_entries (am_req m)) -> e_term e <= aq_term (am_req m).

Record linv (cfgs : list config) (g : lgstate) (C : chain) : Prop := {
  li_g : ginv cfgs (lg_g g);
  li_chain : chain_ok C;
  li_nodes : forall n, In n (g_nodes (lg_g g)) -> nlog C (gn_run n) /\ lead_ok (lg_g g) C n;
  li_src : forall e p, In (e, p) C -> term_src (lg_g g) (e_term e);
  li_leaders : forall T i, In (T, i) (g_leaders (lg_g g)) -> leader_rec_ok (lg_g g) T i;
  li_msgs : forall m, In m (lg_msgs g) -> msg_ok (lg_g g) C m;
}.

(* how runCandidate sessions may change at the touched server *)
Definition sess_step_ok (n n' : gnode) : Prop :=
  forall se', gn_sess n' = Some se' ->
    (exists se, gn_sess n = Some se /\ vq_term (se_req se') = vq_term (se_req se)) \/ dt n < vq_term (se_req se').

Lemma in_upd_node l i n n' : find_node l i = Some n -> In n' (upd_node l i n').
Proof.
  intros Hf. destruct (find_node_in _ _ _ Hf) as [Hin Hidn]. unfold upd_node. apply in_map_iff.
  exists n. rewrite Hidn, N.eqb_refl. auto.
Qed.

Lemma ginv_set_run cfgs g i n s s' : ginv cfgs g -> find_node (g_nodes g) i = Some n -> gn_run n = Up s ->
  gn_sess n = None -> dproj s' = dproj s -> v_term s' = v_term s -> ginv cfgs (set_node_run g i n (Up s')).
Proof.
  intros Hg Hfind Hrun Hse Hd Hv. destruct (find_node_in _ _ _ Hfind) as [Hin _].
  destruct (gi_nodes cfgs _ Hg n Hin) as [(Hw & _) _].
  unfold set_node_run. rewrite Hse. cbn [keep_sess].
  apply (ginv_local cfgs g i n _ _ _ [] [] Hg Hfind); [apply sess_next_none, N.le_refl| |exact I|intros x []].
  rewrite Hrun in *. apply vmove_keep; assumption.
Qed.
