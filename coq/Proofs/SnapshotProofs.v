(* C11: what takeSnapshot records and what it may remove, read off NodeFrame.take_snapshot_spec. *)
From Coq Require Import List NArith Bool Lia.
From stdpp Require Import gmap.
From RaftModel Require Import Compaction Node.
From RaftProofs Require Import NodeFrame.
Open Scope N_scope.

(* a snapshot that was taken (result 0, or 5 = taken but the compaction's DeleteRange failed)
   records: the FSM goroutine's last index and term, the COMMITTED configuration and its index,
   the FSM content; its index is not below the committed configuration's index; the log loses at
   most one range of entries, all at or below the snapshot index and never the whole tail that
   TrailingLogs protects *)
Theorem take_snapshot_records P s fs s' code tr fs' :
  take_snapshot P s fs = Done s' code tr fs' -> code = 0 \/ code = 5 ->
  exists sn, d_snaps s' = d_snaps s ++ [sn] /\
    (sn_idx sn, sn_term sn) = v_fsmLast s /\ sn_cfg sn = v_committed s /\ sn_cfgidx sn = v_committedIdx s /\
    sn_data sn = v_fsm s /\ v_committedIdx s <= sn_idx sn /\ 0 < sn_idx sn /\
    v_lastSnapIdx s' = sn_idx sn /\ v_lastSnapTerm s' = sn_term sn /\
    (d_log s' = d_log s \/
     exists lo hi, d_log s' = log_delete (d_log s) lo hi /\ hi <= sn_idx sn /\
                   (p_trailing P < v_lastLogIdx s -> hi <= v_lastLogIdx s - p_trailing P)).
Proof.
  intros H Hc. pose proof (take_snapshot_spec P s fs) as Hs. cbv zeta in Hs. rewrite H in Hs.
  destruct (v_fsmLast s) as [fi ft]. cbn [fst snd] in Hs.
  destruct Hs as [(c & tr0 & fs0 & E & Hr & _)|(Hnz & Hci & Hs)]; [injection E as _ -> _ _; lia|].
  eexists (mkSnap _ _ _ _ _ true).
  destruct Hs as [(fs0 & E)|(lo & hi & ok & fs0 & Hhi & Htr & E)]; injection E as -> _ _ _.
  - cbn. repeat split; auto; lia.
  - destruct ok; cbn; repeat split; auto; try lia. right. exists lo, hi. auto.
Qed.

(* refused while the committed configuration entry has not reached the FSM goroutine; nothing to
   snapshot before the FSM goroutine has been handed anything *)
Theorem take_snapshot_refusals P s fs :
  (fst (v_fsmLast s) = 0 -> take_snapshot P s fs = Done s 2 [] fs) /\
  (fst (v_fsmLast s) <> 0 -> fst (v_fsmLast s) < v_committedIdx s -> take_snapshot P s fs = Done s 3 [] fs).
Proof.
  unfold take_snapshot, fsm_index. destruct (v_fsmLast s) as [fi ft]. simpl. split.
  - intros ->. reflexivity.
  - intros Hn Hlt. destruct (N.eqb_spec fi 0); [contradiction|]. destruct (N.ltb_spec fi (v_committedIdx s)); [reflexivity|lia].
Qed.
