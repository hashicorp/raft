(* ClusterCommitGhost.v — the ghost state of the commitment proof and the invariants that speak
   about it alone.
     C  : every entry ever created, with the key it was appended after (Proofs/ClusterLogChain.v);
     LL : per recorded leadership (term, leader, the leader's last key when it was elected);
     A  : (server, key): the server accepted an AppendEntries of term T that ended with that key, of
          term T (or created it as the leader of T);
     V  : (voter, term, candidate, the voter's last key when it granted, the request's last key).
   tchain T k: k lies on the branch of the history that the leader of T extends: it is a created
   key of term T, or an ancestor of the leader's last key at its election. *)
From Coq Require Import List NArith Bool Lia.
From stdpp Require Import gmap.
From RaftModel Require Import Base Config.
From RaftProofs Require Import ConfigProofs ClusterLogSpec ClusterLogChain ClusterCommitChain.
Open Scope N_scope.

Definition LLt : Type := list (N * N * (N * N)).
Definition At : Type := list (N * (N * N)).
Definition Vt : Type := list (N * N * N * (N * N) * (N * N)).

Definition tchain (C : chain) (LL : LLt) (T : N) (k : N * N) : Prop :=
  exists c tl, In (T, c, tl) LL /\ ((snd k = T /\ created C k) \/ anc C k tl).

Record chain_inv (C : chain) (LL : LLt) : Prop := {
  ci_ok : chain_ok C;
  ci_pred : forall e p, In (e, p) C -> p = (0, 0) \/ created C p;
  ci_uniq : forall T c tl c' tl', In (T, c, tl) LL -> In (T, c', tl') LL -> c = c' /\ tl = tl';
  (* every entry of term T descends from the leader's last key at its election *)
  ci_root : forall T c tl x p, In (T, c, tl) LL -> In (x, p) C -> e_term x = T -> anc C tl p;
  ci_step : forall T c tl x p, In (T, c, tl) LL -> In (x, p) C -> e_term x = T -> p = tl \/ (snd p = T /\ created C p);
  (* the entries of one term lie on one branch *)
  ci_lin : forall x p y q, In (x, p) C -> In (y, q) C -> e_term x = e_term y -> e_idx x <= e_idx y -> anc C (key x) (key y);
  ci_tl : forall T c tl, In (T, c, tl) LL -> snd tl < T /\ (tl = (0, 0) \/ created C tl);
  (* the no-op of the new leader *)
  ci_noop : forall T c tl, In (T, c, tl) LL -> exists x, In (x, tl) C /\ e_term x = T;
  (* an entry of a term without recorded leader comes from the initial history: its term is below every recorded term *)
  ci_base : forall x p, In (x, p) C -> (exists c tl, In (e_term x, c, tl) LL) \/ (forall T c tl, In (T, c, tl) LL -> e_term x < T);
}.
Arguments ci_ok {C LL}.
Arguments ci_pred {C LL}.
Arguments ci_uniq {C LL}.
Arguments ci_root {C LL}.
Arguments ci_step {C LL}.
Arguments ci_lin {C LL}.
Arguments ci_tl {C LL}.
Arguments ci_noop {C LL}.
Arguments ci_base {C LL}.

Section Tchain.
  Variable C : chain.
  Variable LL : LLt.
  Hypothesis HI : chain_inv C LL.

  Lemma tchain_anc T k k0 : tchain C LL T k -> anc C k0 k -> tchain C LL T k0.
  Proof.
    intros (c & tl & Hl & Hk) Ha. exists c, tl. split; [exact Hl|].
    induction Ha as [|e p k Hin Hke Hap IH]; [exact Hk|].
    destruct Hk as [[Ht _]|Hk].
    - assert (Het : e_term e = T) by (rewrite <- Ht, <- Hke; reflexivity).
      destruct (ci_step HI T c tl e p Hl Hin Het) as [->|[Hs Hc]]; [apply IH; right; apply anc_refl|apply IH; left; auto].
    - right. eapply anc_trans; [exact Hap|]. eapply anc_trans; [|exact Hk].
      eapply anc_up; [exact Hin|exact Hke|apply anc_refl].
  Qed.

  Lemma tchain_linear T k1 k2 : tchain C LL T k1 -> tchain C LL T k2 -> fst k1 <= fst k2 -> anc C k1 k2.
  Proof.
    intros (c & tl & Hl & H1) (c' & tl' & Hl' & H2) Hle.
    destruct (ci_uniq HI T c tl c' tl' Hl Hl') as [<- <-]. pose proof (ci_ok HI) as HC.
    destruct H1 as [[T1 (x & p & Hx & Ex)]|A1], H2 as [[T2 (y & q & Hy & Ey)]|A2].
    - rewrite <- Ex, <- Ey. apply (ci_lin HI x p y q Hx Hy).
      + rewrite <- Ex in T1. rewrite <- Ey in T2. simpl in T1, T2. congruence.
      + rewrite <- Ex, <- Ey in Hle. exact Hle.
    - exfalso. assert (Het : e_term x = T) by (rewrite <- T1, <- Ex; reflexivity).
      pose proof (ci_root HI T c tl x p Hl Hx Het) as Hr.
      destruct (anc_le C tl p HC Hr) as [L1 _]. destruct (anc_le C k2 tl HC A2) as [L2 _].
      destruct (co_idx C HC x p Hx) as [L3 _]. rewrite <- Ex in Hle. unfold key in Hle. simpl in Hle. lia.
    - assert (Het : e_term y = T) by (rewrite <- T2, <- Ey; reflexivity).
      pose proof (ci_root HI T c tl y q Hl Hy Het) as Hr.
      eapply anc_trans; [exact A1|]. eapply anc_trans; [exact Hr|]. eapply anc_up; [exact Hy|exact Ey|apply anc_refl].
    - apply (anc_linear C k1 k2 tl HC A1 A2 Hle).
  Qed.

  Lemma tchain_same_idx T k1 k2 : tchain C LL T k1 -> tchain C LL T k2 -> fst k1 = fst k2 -> k1 = k2.
  Proof.
    intros H1 H2 E. apply (anc_idx_eq C k1 k2 (ci_ok HI)); [apply (tchain_linear T); auto; lia|exact E].
  Qed.

  Lemma tchain_created T c tl k : In (T, c, tl) LL -> created C k -> snd k = T -> tchain C LL T k.
  Proof. intros Hl Hc Ht. exists c, tl. split; [exact Hl|left; auto]. Qed.

  Lemma tchain_tl T c tl : In (T, c, tl) LL -> tchain C LL T tl.
  Proof. intros Hl. exists c, tl. split; [exact Hl|right; apply anc_refl]. Qed.
End Tchain.

(* the vote of w for c in term T is recorded, unless the term already has its leader *)
Definition recorded (LL : LLt) (V : Vt) (w T c : N) : Prop :=
  (exists kw rq, In (w, T, c, kw, rq) V) \/ (exists c' tl', In (T, c', tl') LL).

Lemma recorded_mono LL LL' V V' w T c : incl LL LL' -> incl V V' -> recorded LL V w T c -> recorded LL' V' w T c.
Proof. intros HL HV [(kw & rq & H)|(c' & tl' & H)]; [left; exists kw, rq; apply HV, H|right; exists c', tl'; apply HL, H]. Qed.

(* the leader of a term T above lo with hi T did not hold k0 *)
Definition passed (C : chain) (LL : LLt) (lo : N) (hi : N -> Prop) (k0 : N * N) : Prop :=
  exists T c tl, In (T, c, tl) LL /\ lo < T /\ hi T /\ ~ anc C k0 tl.

Lemma passed_weaken C LL lo lo' (hi hi' : N -> Prop) k0 :
  (forall T c tl, In (T, c, tl) LL -> lo < T -> hi T -> lo' < T /\ hi' T) -> passed C LL lo hi k0 -> passed C LL lo' hi' k0.
Proof. intros H (T & c & tl & H1 & H2 & H3 & H4). exists T, c, tl. destruct (H T c tl H1 H2 H3). auto. Qed.

Definition uptodate (rq kw : N * N) : Prop := snd kw < snd rq \/ (snd kw = snd rq /\ fst kw <= fst rq).

Section LC.
  Variable cfg : config.
  Variable C : chain.
  Variable LL : LLt.
  Variable A : At.
  Variable V : Vt.

  Definition QA (q T : N) : Prop :=
    exists W, majority (voters cfg) W /\ forall w, In w W -> exists v, q <= v /\ In (w, (v, T)) A.

  Record vote_inv : Prop := {
    (* a key accepted in term T is still below the voter's last key when it votes in a later term T',
       unless a leader of a term in between did not hold it *)
    vi_va : forall w T' c kw rq k k0, In (w, T', c, kw, rq) V -> In (w, k) A -> snd k < T' -> anc C k0 k -> 1 <= fst k0 ->
              anc C k0 kw \/ exists T3 c3 tl3, In (T3, c3, tl3) LL /\ snd k < T3 /\ T3 < T' /\ ~ anc C k0 tl3;
    (* a leader was elected by a majority that had checked its last key *)
    vi_lv : forall T' c tl', In (T', c, tl') LL -> exists W, majority (voters cfg) W /\ forall w, In w W -> exists kw, In (w, T', c, kw, tl') V;
    vi_up : forall w T' c kw rq, In (w, T', c, kw, rq) V -> uptodate rq kw /\ (kw = (0, 0) \/ created C kw);
    vi_ac : forall w k, In (w, k) A -> created C k /\ exists c tl, In (snd k, c, tl) LL;
  }.

  Hypothesis HV : NoDup (voters cfg).
  Hypothesis HI : chain_inv C LL.
  Hypothesis HVI : vote_inv.

  (* LEADER COMPLETENESS, the core: a key of term T that a majority accepted in term T is below the
     last key every leader of a later term had when it was elected *)
  Lemma lc_term_key T kq : snd kq = T -> created C kq ->
    (exists W, majority (voters cfg) W /\ forall w, In w W -> exists v, fst kq <= v /\ In (w, (v, T)) A) ->
    forall T' c' tl', In (T', c', tl') LL -> T < T' -> anc C kq tl'.
  Proof.
    intros Hkt Hkc (W & HW & HA) T'. pattern T'. apply (well_founded_induction N.lt_wf_0). clear T'.
    intros T' IH c' tl' Hl' Hlt. pose proof (ci_ok HI) as HC.
    destruct (vi_lv HVI T' c' tl' Hl') as (W' & HW' & HVr).
    destruct (majorities_intersect (voters cfg) W W' HV HW HW') as (w & Hw & Hw').
    destruct (HA w Hw) as (v & Hv & Hacc). destruct (HVr w Hw') as (kw & Hvote).
    destruct (vi_ac HVI w (v, T) Hacc) as [Hcv (cT & tlT & HlT)]. simpl in HlT.
    assert (Hpos : 1 <= fst kq) by (apply (created_pos C kq HC Hkc)).
    assert (Hanc : anc C kq (v, T)).
    { apply (tchain_linear C LL HI T); [eapply tchain_created; eauto|eapply tchain_created; eauto|exact Hv]. }
    destruct (vi_va HVI w T' c' kw tl' (v, T) kq Hvote Hacc Hlt Hanc Hpos) as [Hkw|(T3 & c3 & tl3 & Hl3 & H3a & H3b & Hn3)].
    2:{ exfalso. apply Hn3. apply (IH T3 H3b c3 tl3 Hl3 H3a). }
    destruct (vi_up HVI w T' c' kw tl' Hvote) as [Hup Hkwc].
    destruct (anc_le C kq kw HC Hkw) as [_ Hterm]. rewrite Hkt in Hterm.
    destruct (ci_tl HI T' c' tl' Hl') as [Htl' Htlc].
    destruct (ci_tl HI T cT tlT HlT) as [HT1 _].
    assert (Htlc' : created C tl').
    { destruct Htlc as [->|H]; [|exact H]. exfalso. unfold uptodate in Hup. simpl in Hup. lia. }
    destruct (N.lt_trichotomy (snd tl') T) as [Hc|[Hc|Hc]].
    - exfalso. destruct Hup as [H|[H _]]; lia.
    - (* the candidate's last entry is of term T too: same branch, and at least as long *)
      assert (Ekw : snd kw = T) by (destruct Hup as [H|[H _]]; lia).
      assert (Hkwc' : created C kw) by (destruct Hkwc as [->|H]; [simpl in Ekw; lia|exact H]).
      eapply anc_trans; [exact Hkw|].
      apply (tchain_linear C LL HI T); [eapply tchain_created; eauto|eapply tchain_created; eauto|].
      destruct Hup as [H|[_ H]]; [lia|exact H].
    - (* the candidate's last entry is of a later term, whose leader held kq *)
      destruct Htlc' as (x & p & Hx & Ex).
      assert (Ext : e_term x = snd tl') by (rewrite <- Ex; reflexivity).
      destruct (ci_base HI x p Hx) as [(c3 & tl3 & Hl3)|Hb].
      + rewrite Ext in Hl3. pose proof (IH (snd tl') Htl' c3 tl3 Hl3 Hc) as H3.
        eapply anc_trans; [exact H3|]. eapply anc_trans; [apply (ci_root HI _ c3 tl3 x p Hl3 Hx Ext)|].
        eapply anc_up; [exact Hx|exact Ex|apply anc_refl].
      + specialize (Hb T cT tlT HlT). lia.
  Qed.

  Theorem lc_core q T k0 : QA q T -> tchain C LL T k0 -> fst k0 <= q ->
    forall T' c' tl', In (T', c', tl') LL -> T < T' -> anc C k0 tl'.
  Proof.
    intros (W & HW & HA) Htc Hle T' c' tl' Hl' Hlt. pose proof (ci_ok HI) as HC.
    destruct Htc as (c & tl & Hl & [[Ht Hc]|Ha]).
    - apply (lc_term_key T k0 Ht Hc) with (T' := T') (c' := c'); [|exact Hl'|exact Hlt]. exists W. split; [exact HW|].
      intros w Hw. destruct (HA w Hw) as (v & Hv & Hin). exists v. split; [lia|exact Hin].
    - destruct (ci_noop HI T c tl Hl) as (x & Hx & Ext).
      destruct (co_idx C HC x tl Hx) as [Hxi _].
      eapply anc_trans; [exact Ha|]. eapply anc_trans; [eapply anc_up; [exact Hx|reflexivity|apply anc_refl]|].
      apply (lc_term_key T (key x)) with (T' := T') (c' := c'); [exact Ext|exists x, tl; auto| |exact Hl'|exact Hlt].
      exists W. split; [exact HW|]. intros w Hw. destruct (HA w Hw) as (v & Hv & Hin). exists v. split; [|exact Hin].
      destruct (vi_ac HVI w (v, T) Hin) as [(y & p & Hy & Ey) _].
      assert (Eyt : e_term y = T) by (change T with (snd (v, T)); rewrite <- Ey; reflexivity).
      pose proof (ci_root HI T c tl y p Hl Hy Eyt) as Hr. destruct (anc_le C tl p HC Hr) as [L1 _].
      destruct (co_idx C HC y p Hy) as [L2 _]. inversion Ey. unfold key. simpl. lia.
  Qed.
End LC.
Arguments vi_va {cfg C LL A V}.
Arguments vi_lv {cfg C LL A V}.
Arguments vi_up {cfg C LL A V}.
Arguments vi_ac {cfg C LL A V}.

(* dispatchLogs at the leader of T, whose last key ck is of term T *)
Lemma chain_inv_propose C LL e ck T j tl : chain_inv C LL -> chain_ok ((e, ck) :: C) ->
  In (T, j, tl) LL -> e_term e = T -> created C ck -> snd ck = T ->
  (forall x p, In (x, p) C -> e_term x = T -> anc C (key x) ck) ->
  chain_inv ((e, ck) :: C) LL.
Proof.
  intros HI HC' Hl Het Hck Hckt Hall. pose proof (ci_ok HI) as HC.
  assert (Hup : anc ((e, ck) :: C) ck (key e)) by (eapply anc_up; [left; reflexivity|reflexivity|apply anc_refl]).
  assert (Htlck : anc C tl ck).
  { destruct Hck as (y & q & Hy & Ey). assert (Eyt : e_term y = T) by (rewrite <- Hckt, <- Ey; reflexivity).
    eapply anc_trans; [apply (ci_root HI T j tl y q Hl Hy Eyt)|]. eapply anc_up; [exact Hy|exact Ey|apply anc_refl]. }
  constructor.
  - exact HC'.
  - intros x p [E|H]; [inversion E; subst; right; apply created_cons, Hck|].
    destruct (ci_pred HI x p H) as [->|Hc]; [left; reflexivity|right; apply created_cons, Hc].
  - apply (ci_uniq HI).
  - intros T2 c2 tl2 x p Hl2 [E|H] Hxt.
    + inversion E; subst x p. rewrite Het in Hxt. subst T2. destruct (ci_uniq HI _ _ _ _ _ Hl2 Hl) as [_ ->].
      apply anc_cons, Htlck.
    + apply anc_cons, (ci_root HI T2 c2 tl2 x p Hl2 H Hxt).
  - intros T2 c2 tl2 x p Hl2 [E|H] Hxt.
    + inversion E; subst x p. rewrite Het in Hxt. subst T2. right. split; [exact Hckt|apply created_cons, Hck].
    + destruct (ci_step HI T2 c2 tl2 x p Hl2 H Hxt) as [->|[A B]]; [left; reflexivity|right; split; [exact A|apply created_cons, B]].
  - intros x p y q [Ex|Hx] [Ey|Hy] Ht Hle.
    + inversion Ex; inversion Ey; subst. apply anc_refl.
    + exfalso. inversion Ex; subst x p. rewrite Het in Ht. pose proof (Hall y q Hy (eq_sym Ht)) as Ha.
      destruct (anc_le C _ _ HC Ha) as [L1 _]. destruct (co_idx _ HC' e ck (or_introl eq_refl)) as [L2 _].
      unfold key in L1. simpl in L1. lia.
    + inversion Ey; subst y q. rewrite Het in Ht. eapply anc_trans; [apply anc_cons, (Hall x p Hx Ht)|exact Hup].
    + apply anc_cons, (ci_lin HI x p y q Hx Hy Ht Hle).
  - intros T2 c2 tl2 Hl2. destruct (ci_tl HI T2 c2 tl2 Hl2) as [A [B|B]]; (split; [exact A|]); [left; exact B|right; apply created_cons, B].
  - intros T2 c2 tl2 Hl2. destruct (ci_noop HI T2 c2 tl2 Hl2) as (x & Hx & Ext). exists x. split; [right; exact Hx|exact Ext].
  - intros x p [E|H]; [inversion E; subst x p; left; rewrite Het; eauto|apply (ci_base HI x p H)].
Qed.

(* a new leader of T stores its no-op after its last key ck: no entry of term T existed, entries of
   terms without recorded leader are older *)
Lemma chain_inv_become C LL e ck T j : chain_inv C LL -> chain_ok ((e, ck) :: C) ->
  e_term e = T -> (ck = (0, 0) \/ created C ck) -> snd ck < T ->
  (forall c tl, ~ In (T, c, tl) LL) ->
  (forall x p, In (x, p) C -> e_term x <> T) ->
  (forall x p, In (x, p) C -> (forall c tl, ~ In (e_term x, c, tl) LL) -> e_term x < T) ->
  chain_inv ((e, ck) :: C) ((T, j, ck) :: LL).
Proof.
  intros HI HC' Het Hck Hckt Hnol Hnone Hold. pose proof (ci_ok HI) as HC.
  constructor.
  - exact HC'.
  - intros x p [E|H]; [inversion E; subst; destruct Hck as [->|Hc]; [left; reflexivity|right; apply created_cons, Hc]|].
    destruct (ci_pred HI x p H) as [->|Hc]; [left; reflexivity|right; apply created_cons, Hc].
  - intros T2 c tl c' tl' [E|H] [E'|H'].
    + inversion E; inversion E'; subst. auto.
    + inversion E; subst. exfalso. apply (Hnol _ _ H').
    + inversion E'; subst. exfalso. apply (Hnol _ _ H).
    + apply (ci_uniq HI T2 c tl c' tl' H H').
  - intros T2 c2 tl2 x p [El|Hl2] [E|H] Hxt.
    + injection El as <- <- <-; injection E as <- <-. apply anc_refl.
    + injection El as <- <- <-. exfalso. apply (Hnone x p H Hxt).
    + inversion E; subst x p. rewrite Het in Hxt. subst T2. exfalso. apply (Hnol _ _ Hl2).
    + apply anc_cons, (ci_root HI T2 c2 tl2 x p Hl2 H Hxt).
  - intros T2 c2 tl2 x p [El|Hl2] [E|H] Hxt.
    + injection El as <- <- <-; injection E as <- <-. left. reflexivity.
    + injection El as <- <- <-. exfalso. apply (Hnone x p H Hxt).
    + inversion E; subst x p. rewrite Het in Hxt. subst T2. exfalso. apply (Hnol _ _ Hl2).
    + destruct (ci_step HI T2 c2 tl2 x p Hl2 H Hxt) as [->|[A B]]; [left; reflexivity|right; split; [exact A|apply created_cons, B]].
  - intros x p y q [Ex|Hx] [Ey|Hy] Ht Hle.
    + inversion Ex; inversion Ey; subst. apply anc_refl.
    + exfalso. inversion Ex; subst x p. rewrite Het in Ht. apply (Hnone y q Hy (eq_sym Ht)).
    + exfalso. inversion Ey; subst y q. rewrite Het in Ht. apply (Hnone x p Hx Ht).
    + apply anc_cons, (ci_lin HI x p y q Hx Hy Ht Hle).
  - intros T2 c2 tl2 [El|Hl2].
    + injection El as <- <- <-. split; [exact Hckt|]. destruct Hck as [->|Hc]; [left; reflexivity|right; apply created_cons, Hc].
    + destruct (ci_tl HI T2 c2 tl2 Hl2) as [A [B|B]]; (split; [exact A|]); [left; exact B|right; apply created_cons, B].
  - intros T2 c2 tl2 [El|Hl2].
    + injection El as <- <- <-. exists e. split; [left; reflexivity|exact Het].
    + destruct (ci_noop HI T2 c2 tl2 Hl2) as (x & Hx & Ext). exists x. split; [right; exact Hx|exact Ext].
  - intros x p [E|H].
    + inversion E; subst x p. left. exists j, ck. left. rewrite Het. reflexivity.
    + destruct (ci_base HI x p H) as [(c & tl & Hl)|Hb]; [left; exists c, tl; right; exact Hl|].
      right. intros T2 c2 tl2 [El|Hl2]; [|apply (Hb T2 c2 tl2 Hl2)]. injection El as <- <- <-.
      apply (Hold x p H). intros c tl Hc. specialize (Hb _ _ _ Hc). lia.
Qed.
