(* ClusterLogSnapCex.v — WITH takeSnapshot (lrun true) the statement of Log Matching is FALSE for the
   initial states of Proofs/ClusterLogSpec.v.  linit_ok leaves the volatile commit index of a
   running server free, and in Model/ClusterLog.v nothing ties a leader's commit index to a quorum
   (a leader sends its own v_commit, which no step of the system ever moves).  With a bogus commit
   index a follower applies entries that are NOT committed; a later leader truncates them; the
   follower's snapshot boundary (lastSnapIdx, lastSnapTerm), taken from the FSM goroutine's last
   applied entry, then names an entry that is no ancestor of the follower's log any more, and the
   handler's snapshot-boundary check (prevLogIndex == lastSnapIdx, the "fix:" commit) accepts a
   request that continues the OLD branch.  Five servers, one configuration (under the commit rule
   after the fix: commit, commitIndex <= index of the last entry of the accepted request, the follower can
   only be made to apply entries it shares with the sender of the request):

     every server holds entry 1; server 2 starts with v_commit = 1000; server 1 = A.
     2 is elected in term 2 by 4 and 5 (no-op 2'), appends 3', 4' (term 2) and replicates 2',3',4' to A
     with "commit 1000": A commits and applies 2..4 (held by 2 and A only); A takes a snapshot:
     boundary (4, term 2).
     3 is elected in term 3 by 4 and 5 (whose logs are short), writes 2,3,4,5 (term 3) and replicates
     them to A: A truncates 2'..4' (conflict) and stores 2..5.  A heartbeat of 3 makes 2 a follower.
     2 is elected in term 4 by 4 and 5 and writes its no-op at index 5.
     2 sends prev = (4, term 2), [5 (term 4)] to A: index 4 is not A's last index, but it IS A's
     snapshot index and the terms agree: accepted; A replaces 5 (term 3) by 5 (term 4).
     Now A = 1, 2, 3, 4, 5'' and server 2 = 1, 2', 3', 4', 5'': the same entry at index 5, different ones at 4. *)
From Coq Require Import List NArith Bool Lia.
From stdpp Require Import gmap.
From RaftModel Require Import Base Config Node NodeCodec Cluster ClusterLog.
From RaftProofs Require Import ConfigProofs VoteProofs ClusterProofs ClusterLogSpec ClusterLogChain ClusterLogExample.
Open Scope N_scope.

Definition bump_commit (c : N) (n : gnode) : gnode :=
  mkGN (gn_P n) (match gn_run n with Up s => Up (set_commit s c) | Down s => Down s end) (gn_sess n) (gn_next n).

Lemma bump_commit_init c base n : wfr (gn_run n) /\ node_init base n ->
  wfr (gn_run (bump_commit c n)) /\ node_init base (bump_commit c n).
Proof.
  unfold node_init, bump_commit. cbn [gn_run]. destruct (gn_run n) as [s|s]; intros H; exact H.
Qed.

Lemma linit_ok_map f nodes :
  (forall n, gn_id (f n) = gn_id n /\ gn_sess (f n) = gn_sess n) ->
  (forall n base, wfr (gn_run n) /\ node_init base n -> wfr (gn_run (f n)) /\ node_init base (f n)) ->
  linit_ok (mkLG (mkG nodes [] [] []) []) -> linit_ok (mkLG (mkG (map f nodes) [] [] []) []).
Proof.
  intros Hf Hi ((Hnd & Hn & _) & _ & base & Hh & Hb). cbn [lg_g g_nodes] in *.
  split; [|split; [reflexivity|]].
  - split; [|split; [|auto]]; cbn [lg_g g_nodes].
    + rewrite map_map. rewrite (map_ext _ gn_id); [exact Hnd|]. intros a. apply Hf.
    + intros n Hin. apply in_map_iff in Hin. destruct Hin as (n0 & <- & Hin).
      destruct (Hn n0 Hin) as [Hw Hs]. split; [apply (Hi n0 base); auto|].
      destruct (Hf n0) as [_ ->]. exact Hs.
  - exists base. split; [exact Hh|]. cbn [lg_g g_nodes]. intros n Hin.
    apply in_map_iff in Hin. destruct Hin as (n0 & <- & Hin).
    destruct (Hn n0 Hin) as [Hw _]. apply (Hi n0 base). auto.
Qed.

Definition cex_nodes : list gnode :=
  map (fun n => if gn_id n =? 2 then bump_commit 1000 n else n)
      (map (fun p => mk_node (mk_cfg 5) (N.of_nat (fst p)) (snd p)) (combine (seq 1 5) [0; 0; 0; 0; 0])).

Definition cex_g0 : lgstate := mkLG (mkG cex_nodes [] [] []) [].

Definition cex_labels : list llabel :=
  [LElect (GTimeout 2); LElect (GVoteReq 2 4 0 []); LElect (GVoteResp 2 4); LElect (GVoteReq 2 5 0 []); LElect (GVoteResp 2 5);
   LPropose 2 LogCommand 77 []; LPropose 2 LogCommand 78 []; LSend 2 1 2 4; LDeliver 0 0 [];
   LElect (GInput 1 NSnapshot 0 []);
   LElect (GTimeout 3); LElect (GTimeout 3); LElect (GVoteReq 3 4 0 []); LElect (GVoteResp 3 4);
   LElect (GVoteReq 3 5 0 []); LElect (GVoteResp 3 5);
   LPropose 3 LogCommand 87 []; LPropose 3 LogCommand 88 []; LPropose 3 LogCommand 89 [];
   LSend 3 1 2 5; LDeliver 1 0 [];
   LHeartbeat 3 2; LDeliver 2 0 [];
   LElect (GTimeout 2); LElect (GVoteReq 2 4 0 []); LElect (GVoteResp 2 4); LElect (GVoteReq 2 5 0 []); LElect (GVoteResp 2 5);
   LSend 2 1 5 5; LDeliver 3 0 []].

Lemma cex_init_ok : linit_ok cex_g0.
Proof.
  unfold cex_g0, cex_nodes. apply linit_ok_map.
  - intros n. destruct (gn_id n =? 2); split; reflexivity.
  - intros n base H. destruct (gn_id n =? 2); [apply bump_commit_init|]; exact H.
  - apply mk_nodes_linit.
Qed.

Lemma cex_quorums : quorums_intersect [mk_cfg 5].
Proof. apply quorums_intersect_one, nodup_voters_mk_cfg. Qed.

Definition node_of (g : lgstate) (i : N) : option gnode := find_node (g_nodes (lg_g g)) i.

Definition lm_violation (g : lgstate) (ia ib i k : N) : bool :=
  match node_of g ia, node_of g ib with
  | Some a, Some b =>
    match log_of a !! i, log_of b !! i, log_of a !! k, log_of b !! k with
    | Some ea, Some eb, Some ka, Some kb => (e_term ea =? e_term eb) && (k <=? i) && negb (entry_eqb ka kb)
    | _, _, _, _ => false
    end
  | _, _ => false
  end.

Lemma lm_violation_parts g ia ib i k : lm_violation g ia ib i k = true ->
  exists a b ea eb ka kb, In a (g_nodes (lg_g g)) /\ In b (g_nodes (lg_g g)) /\ node_of g ia = Some a /\ node_of g ib = Some b /\
    log_of a !! i = Some ea /\ log_of b !! i = Some eb /\ e_term ea = e_term eb /\ k <= i /\
    log_of a !! k = Some ka /\ log_of b !! k = Some kb /\ ka <> kb.
Proof.
  unfold lm_violation, node_of. intros H.
  destruct (find_node (g_nodes (lg_g g)) ia) as [a|] eqn:Fa; [|discriminate].
  destruct (find_node (g_nodes (lg_g g)) ib) as [b|] eqn:Fb; [|discriminate].
  destruct (log_of a !! i) as [ea|] eqn:Ea; [|discriminate]. destruct (log_of b !! i) as [eb|] eqn:Eb; [|discriminate].
  destruct (log_of a !! k) as [ka|] eqn:Ka; [|discriminate]. destruct (log_of b !! k) as [kb|] eqn:Kb; [|discriminate].
  apply andb_prop in H. destruct H as [H Hne]. apply andb_prop in H. destruct H as [Ht Hk].
  apply N.eqb_eq in Ht. apply N.leb_le in Hk.
  destruct (find_node_in _ _ _ Fa) as [Ia _]. destruct (find_node_in _ _ _ Fb) as [Ib _].
  exists a, b, ea, eb, ka, kb. repeat (split; [first [assumption|reflexivity]|]).
  intros ->. rewrite entry_eqb_refl in Hne. discriminate.
Qed.

Lemma lm_violation_sound g ia ib i k : lm_violation g ia ib i k = true -> ~ log_matching g.
Proof.
  intros H LM. destruct (lm_violation_parts g ia ib i k H) as (a & b & ea & eb & ka & kb & Ia & Ib & _ & _ & Ea & Eb & Ht & Hk & Ka & Kb & Hne).
  exact (Hne (LM a b Ia Ib i ea eb Ea Eb Ht k ka kb Hk Ka Kb)).
Qed.

(* LOG MATCHING WITH takeSnapshot IS FALSE under the hypotheses of log_matching_no_snapshots (lrun true) *)
Theorem log_matching_with_snapshots_refuted :
  exists cfgs g0 ls g,
    quorums_intersect cfgs /\ linit_ok g0 /\ lrun true cfgs g0 ls = Some g /\ ~ log_matching g.
Proof.
  destruct (opt_witness (lrun true [mk_cfg 5] cex_g0 cex_labels) (fun g => lm_violation g 1 2 5 4)) as (g & E & Hc); [vm_compute; reflexivity|].
  exists [mk_cfg 5], cex_g0, cex_labels, g.
  split; [exact cex_quorums|]. split; [exact cex_init_ok|]. split; [exact E|].
  eapply lm_violation_sound; exact Hc.
Qed.

Print Assumptions log_matching_with_snapshots_refuted.
