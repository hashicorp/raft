(* FileSnapF.v — the invariant between script ops (Inv), what the segment of one script op has to satisfy
   to preserve it (Inv_step), and Create / Write. *)
From Coq Require Import List Arith NArith Bool Lia Permutation.
From RaftModel Require Import FileSnap FileSnapSpec.
From RaftProofs Require Import FileSnapA FileSnapB FileSnapC FileSnapD FileSnapE.
Import ListNotations.
Open Scope N_scope.

Lemma find_sink_sid : forall l sid k, find_sink l sid = Some k -> k_sid k = sid.
Proof.
  induction l as [|k0 l IH]; simpl; intros sid k H; [discriminate|].
  destruct (N.eqb_spec (k_sid k0) sid) as [E|E]; [inversion H as [Hk]; rewrite <- Hk; exact E|eauto].
Qed.

Lemma find_sink_app : forall l k sid, find_sink (l ++ [k]) sid =
  match find_sink l sid with Some x => Some x | None => if k_sid k =? sid then Some k else None end.
Proof.
  induction l as [|k0 l IH]; simpl; intros k sid; [reflexivity|].
  destruct (k_sid k0 =? sid); [reflexivity|apply IH].
Qed.

Lemma find_sink_upd : forall l sid g s', (forall k, k_sid (g k) = k_sid k) ->
  find_sink (upd_sink l sid g) s' =
  match find_sink l s' with Some k => Some (if k_sid k =? sid then g k else k) | None => None end.
Proof.
  induction l as [|k0 l IH]; simpl; intros sid g s' Hg; [reflexivity|].
  destruct (N.eqb_spec (k_sid k0) sid) as [E|E].
  - rewrite Hg. destruct (N.eqb_spec (k_sid k0) s'); [|apply IH; exact Hg].
    rewrite (proj2 (N.eqb_eq _ _) E). reflexivity.
  - destruct (N.eqb_spec (k_sid k0) s'); [|apply IH; exact Hg].
    rewrite (proj2 (N.eqb_neq _ _) E). reflexivity.
Qed.

Lemma find_sink_upd_other : forall l sid g y, (forall k, k_sid (g k) = k_sid k) -> y <> sid ->
  find_sink (upd_sink l sid g) y = find_sink l y.
Proof.
  intros l sid g y Hg Hne. rewrite find_sink_upd by exact Hg. destruct (find_sink l y) as [k|] eqn:E; [|reflexivity].
  rewrite (find_sink_sid _ _ _ E). destruct (N.eqb_spec y sid); [contradiction|reflexivity].
Qed.

Lemma find_sink_upd_same : forall l sid g k, (forall k, k_sid (g k) = k_sid k) -> find_sink l sid = Some k ->
  find_sink (upd_sink l sid g) sid = Some (g k).
Proof.
  intros l sid g k Hg E. rewrite find_sink_upd, E by exact Hg. rewrite (find_sink_sid _ _ _ E), N.eqb_refl. reflexivity.
Qed.

Definition OpenDir (f : fs) (sid : N) : Prop :=
  exists d, In d f /\ d_sid d = sid /\ d_tmp d = true /\ exists y, d_state d = Some y /\ sf_c y = [].

Definition SinkOK (s : list sop) (h : list fsop) (f : fs) (k : sink) : Prop :=
  created_as s (k_sid k) = Some (k_term k, k_index k) /\
  if k_done k then ended s (k_sid k) <> None
  else ended s (k_sid k) = None /\ k_buf k = written s (k_sid k) /\
       ~ In (FRename (k_sid k)) h /\ OpenDir f (k_sid k).

Definition NoTouch (s : list sop) : Prop :=
  forall sid, ~ In sid (created s) -> ended s sid = None /\ written s sid = [].

Record Inv (retain : N) (s : list sop) (st : store) (h : list fsop) : Prop := mkInv {
  i_retain : st_retain st = retain;
  i_q : Q (N.to_nat retain) s h (st_fs st);
  i_allc : forall d, In d (st_fs st) -> d_tmp d = false -> Complete s d;
  i_sids : forall d, In d (st_fs st) -> In (d_sid d) (created s);
  i_sinks : forall sid, In sid (created s) ->
    exists k, find_sink (st_sinks st) sid = Some k /\ SinkOK s h (st_fs st) k;
  i_dom : forall sid k, find_sink (st_sinks st) sid = Some k -> In sid (created s);
  i_notouch : NoTouch s
}.

Lemma Inv_init : forall retain, Inv retain [] (mkStore retain [] []) [].
Proof.
  intros retain. constructor; simpl; try (intros; contradiction); try (intros; discriminate); auto.
  - constructor; simpl; try (intros; contradiction). constructor.
  - intros sid _. split; reflexivity.
Qed.

Lemma open_sink_facts : forall retain s st h sid k, Inv retain s st h ->
  find_sink (st_sinks st) sid = Some k -> k_done k = false ->
  k_sid k = sid /\ created_as s sid = Some (k_term k, k_index k) /\ ended s sid = None /\
  k_buf k = written s sid /\ ~ In (FRename sid) h /\ OpenDir (st_fs st) sid.
Proof.
  intros retain s st h sid k HI Hfk Hnd.
  assert (Hks := find_sink_sid _ _ _ Hfk). split; [exact Hks|].
  destruct (i_sinks _ _ _ _ HI sid (i_dom _ _ _ _ HI sid k Hfk)) as [k' [Hf' [Hc Hok]]].
  rewrite Hfk in Hf'. inversion Hf'; subst k'. rewrite Hnd, Hks in *. tauto.
Qed.

Definition sop_sid (o : sop) : N :=
  match o with SCreate s _ _ | SWrite s _ | SClose s | SCancel s => s end.

Lemma ended_other : forall o sid, sop_sid o <> sid -> ended [o] sid = None.
Proof. intros [c t i|c b|c|c] sid H; simpl in *; try reflexivity; destruct (N.eqb_spec c sid); congruence. Qed.

Lemma written_other : forall o sid acc, sop_sid o <> sid -> written_aux [o] sid acc = acc.
Proof. intros [c t i|c b|c|c] sid acc H; simpl in *; try reflexivity; destruct (N.eqb_spec c sid); congruence. Qed.

Lemma NoTouch_snoc : forall s o, NoTouch s ->
  (match o with SCreate _ _ _ => True | _ => In (sop_sid o) (created s) end) -> NoTouch (s ++ [o]).
Proof.
  intros s o H Ho sid Hn. rewrite created_app in Hn.
  assert (Hn' : ~ In sid (created s)) by (intro; apply Hn; apply in_or_app; left; assumption).
  destruct (H sid Hn') as [He Hw]. rewrite ended_app, written_app, He, Hw.
  assert (Hne : sop_sid o <> sid).
  { destruct o; simpl in *; try (intro E; subst; contradiction).
    intro E; subst. apply Hn. apply in_or_app. right. left. reflexivity. }
  split; [apply ended_other|apply written_other]; exact Hne.
Qed.

Lemma SinkOK_frame : forall s h f k o h' f', SinkOK s h f k -> sop_sid o <> k_sid k ->
  (~ In (FRename (k_sid k)) h -> ~ In (FRename (k_sid k)) h') ->
  (OpenDir f (k_sid k) -> OpenDir f' (k_sid k)) -> SinkOK (s ++ [o]) h' f' k.
Proof.
  intros s h f k o h' f' [Hc Hd] Hne Hh Hf. split.
  - eapply created_as_app_some; eauto.
  - rewrite ended_app, written_app. destruct (k_done k).
    + destruct (ended s (k_sid k)); [discriminate|contradiction].
    + destruct Hd as [He [Hb [Hr Ho]]]. rewrite He, ended_other, written_other; auto.
Qed.

Lemma in_created_snoc : forall s o sid, In sid (created s) -> In sid (created (s ++ [o])).
Proof. intros. rewrite created_app. apply in_or_app. left; assumption. Qed.

Definition wf_op (s : list sop) (o : sop) : Prop :=
  match o with SCreate sid _ _ => ~ In sid (created s) | _ => In (sop_sid o) (created s) end.

Lemma created_snoc_inv : forall s o sid, In sid (created (s ++ [o])) -> sid <> sop_sid o -> In sid (created s).
Proof.
  intros s o sid H Hne. rewrite created_app in H. apply in_app_or in H. destruct H as [H|H]; [exact H|].
  destruct o; simpl in H; try contradiction. destruct H as [E|[]]. exfalso. apply Hne. symmetry. exact E.
Qed.

(* One script op o, on the sink x = sop_sid o, with segment seg.  Every directory the segment leaves was there
   before, unless it is x's, and then it is complete if it is not temporary; the open directories of the other
   sinks stay; nothing but x is renamed; the other sinks are kept and x's is in order afterwards. *)
Lemma Inv_step : forall retain s st h o seg sinks',
  Inv retain s st h -> wf_op s o ->
  QP (N.to_nat retain) (s ++ [o]) h (st_fs st) seg ->
  (forall d, In d (fs_run (st_fs st) seg) ->
     In d (st_fs st) \/ (d_sid d = sop_sid o /\ (d_tmp d = false -> Complete (s ++ [o]) d))) ->
  (forall y, y <> sop_sid o -> OpenDir (st_fs st) y -> OpenDir (fs_run (st_fs st) seg) y) ->
  (forall y, In (FRename y) seg -> y = sop_sid o) ->
  (forall y, y <> sop_sid o -> find_sink sinks' y = find_sink (st_sinks st) y) ->
  (exists k, find_sink sinks' (sop_sid o) = Some k /\
             SinkOK (s ++ [o]) (h ++ seg) (fs_run (st_fs st) seg) k) ->
  Inv retain (s ++ [o]) (mkStore (st_retain st) (fs_run (st_fs st) seg) sinks') (h ++ seg).
Proof.
  intros retain s st h o seg sinks' HI Hwf HQP Hback Hopen Hren Hothers Hown.
  assert (Hx : In (sop_sid o) (created (s ++ [o]))).
  { rewrite created_app. apply in_or_app. destruct o; simpl in *; auto. }
  constructor; cbn [st_fs st_retain st_sinks].
  - apply (i_retain _ _ _ _ HI).
  - apply QP_end. exact HQP.
  - intros d Hd Ht. destruct (Hback d Hd) as [Hin|[_ HC]]; [|auto].
    apply Complete_mono. apply (i_allc _ _ _ _ HI); assumption.
  - intros d Hd. destruct (Hback d Hd) as [Hin|[E _]]; [|rewrite E; exact Hx].
    apply in_created_snoc. apply (i_sids _ _ _ _ HI); assumption.
  - intros sid Hin. destruct (N.eq_dec sid (sop_sid o)) as [->|Hne]; [exact Hown|].
    destruct (i_sinks _ _ _ _ HI sid (created_snoc_inv _ _ _ Hin Hne)) as [k [Hf Hok]].
    exists k. rewrite Hothers by exact Hne. split; [exact Hf|].
    assert (Hks := find_sink_sid _ _ _ Hf).
    apply SinkOK_frame with (h := h) (f := st_fs st); rewrite ?Hks; auto.
    intros Hn Hi. apply in_app_or in Hi. destruct Hi as [Hi|Hi]; [contradiction|]. apply Hne, Hren, Hi.
  - intros sid k Hf. destruct (N.eq_dec sid (sop_sid o)) as [->|Hne]; [exact Hx|].
    rewrite Hothers in Hf by exact Hne. apply in_created_snoc. eapply (i_dom _ _ _ _ HI); eauto.
  - apply NoTouch_snoc; [apply (i_notouch _ _ _ _ HI)|]. destruct o; simpl in *; auto.
Qed.

Lemma Inv_write : forall sfirst retain s st h sid b, Inv retain s st h -> In sid (created s) ->
  Inv retain (s ++ [SWrite sid b]) (fst (exec_op sfirst st (SWrite sid b))) (h ++ snd (exec_op sfirst st (SWrite sid b))).
Proof.
  intros sfirst retain s st h sid b HI Hin.
  set (g := fun k => if k_done k then k else mkSink (k_sid k) (k_term k) (k_index k) (k_buf k ++ b) false).
  assert (Hg : forall k, k_sid (g k) = k_sid k) by (intros k; unfold g; destruct (k_done k); reflexivity).
  apply (Inv_step retain s st h (SWrite sid b) [] (upd_sink (st_sinks st) sid g)); simpl; auto.
  - apply QP_nil, Q_mono, (i_q _ _ _ _ HI).
  - intros y []. 
  - intros y Hne. apply find_sink_upd_other; assumption.
  - destruct (i_sinks _ _ _ _ HI sid Hin) as [k [Hf [Hc Hd]]]. assert (Hks := find_sink_sid _ _ _ Hf).
    exists (g k). split; [apply find_sink_upd_same; assumption|]. rewrite app_nil_r.
    unfold g. destruct (k_done k) eqn:Ed; (split; [eapply created_as_app_some; eauto|]); simpl; rewrite ?Ed, Hks in *.
    + rewrite ended_app. destruct (ended s sid); [discriminate|contradiction].
    + destruct Hd as [He [Hb [Hr Ho]]].
      rewrite ended_app, written_app, He. simpl. rewrite N.eqb_refl, Hb. auto.
Qed.

Definition create_ops (sid t i : N) : list fsop :=
  [FMkdir sid; FCreateMeta sid; FWriteMeta sid (mkMV 1 t i None); FSyncMeta sid; FCreateState sid].

Lemma upd_app_fresh : forall f d sid g, (forall d, In d f -> d_sid d <> sid) ->
  upd (f ++ [d]) sid g = f ++ [if d_sid d =? sid then g d else d].
Proof.
  intros f d sid g H. unfold upd. rewrite map_app. simpl. f_equal.
  rewrite <- (map_id f) at 2. apply map_ext_in. intros a Ha.
  destruct (N.eqb_spec (d_sid a) sid); [exfalso; eapply H; eauto|reflexivity].
Qed.

Lemma create_fs : forall f sid t i, (forall d, In d f -> d_sid d <> sid) ->
  fs_run f (create_ops sid t i) =
  f ++ [mkDir sid true (Some (mkMF (MFull (mkMV 1 t i None)) (MFull (mkMV 1 t i None)) false)) (Some (mkSF [] [] true))].
Proof.
  intros f sid t i H. unfold create_ops, fs_run. simpl.
  repeat (rewrite (upd_app_fresh f _ sid _ H); simpl; rewrite N.eqb_refl; simpl). reflexivity.
Qed.

Lemma Inv_fresh : forall retain s st h sid, Inv retain s st h -> ~ In sid (created s) ->
  forall d, In d (st_fs st) -> d_sid d <> sid.
Proof. intros retain s st h sid HI Hn d Hd E. apply Hn. rewrite <- E. apply (i_sids _ _ _ _ HI). exact Hd. Qed.

Lemma fresh_norename : forall retain s st h sid, Inv retain s st h -> ~ In sid (created s) -> ~ In (FRename sid) h.
Proof.
  intros retain s st h sid HI Hn Hin.
  destruct (q_closed _ _ _ _ (i_q _ _ _ _ HI) sid Hin) as [_ [t [i [Hc _]]]].
  apply Hn. apply created_as_in. eauto.
Qed.

Lemma QP_create : forall retain s st h sid t i, Inv retain s st h -> ~ In sid (created s) ->
  QP (N.to_nat retain) (s ++ [SCreate sid t i]) h (st_fs st) (create_ops sid t i).
Proof.
  intros retain s st h sid t i HI Hn.
  assert (HQ : Q (N.to_nat retain) (s ++ [SCreate sid t i]) h (st_fs st)) by (apply Q_mono, (i_q _ _ _ _ HI)).
  assert (Hfresh := Inv_fresh _ _ _ _ _ HI Hn).
  unfold create_ops. apply QP_cons; [exact HQ|].
  apply (QP_tmp _ _ sid).
  - apply Q_mkdir_step; assumption.
  - intro Hi. apply in_snoc_ne in Hi; [|discriminate]. eapply fresh_norename; eauto.
  - intros o Ho. simpl in Ho.
    repeat (destruct Ho as [Ho|Ho]; [subst o; repeat split; intros; discriminate|]). contradiction.
Qed.

Lemma Inv_create : forall sfirst retain s st h sid t i, Inv retain s st h -> ~ In sid (created s) ->
  Inv retain (s ++ [SCreate sid t i]) (fst (exec_op sfirst st (SCreate sid t i)))
      (h ++ snd (exec_op sfirst st (SCreate sid t i))).
Proof.
  intros sfirst retain s st h sid t i HI Hn.
  assert (Hfresh := Inv_fresh _ _ _ _ _ HI Hn).
  assert (Hnew : In (mkDir sid true (Some (mkMF (MFull (mkMV 1 t i None)) (MFull (mkMV 1 t i None)) false)) (Some (mkSF [] [] true)))
                    (fs_run (st_fs st) (create_ops sid t i))).
  { rewrite create_fs by exact Hfresh. apply in_or_app. right. left. reflexivity. }
  assert (Hnr : forall y, ~ In (FRename y) (create_ops sid t i)).
  { intros y Hi. simpl in Hi. repeat (destruct Hi as [Hi|Hi]; [discriminate|]). contradiction. }
  apply (Inv_step retain s st h (SCreate sid t i) (create_ops sid t i)); cbn [sop_sid].
  - exact HI.
  - exact Hn.
  - apply QP_create; assumption.
  - rewrite create_fs by exact Hfresh. intros d Hd. apply in_app_or in Hd.
    destruct Hd as [Hd|[<-|[]]]; [left; exact Hd|right]. split; [reflexivity|discriminate].
  - rewrite create_fs by exact Hfresh. intros y _ [d [Hd Hrest]]. exists d. split; [apply in_or_app; left; exact Hd|exact Hrest].
  - intros y Hi. destruct (Hnr y Hi).
  - intros y Hne. rewrite find_sink_app. destruct (find_sink (st_sinks st) y); [reflexivity|]. simpl.
    destruct (N.eqb_spec sid y); [exfalso; apply Hne; symmetry; assumption|reflexivity].
  - rewrite find_sink_app. destruct (find_sink (st_sinks st) sid) eqn:Ef.
    { exfalso. apply Hn. eapply (i_dom _ _ _ _ HI); eauto. }
    simpl. rewrite N.eqb_refl. eexists. split; [reflexivity|].
    destruct (i_notouch _ _ _ _ HI sid Hn) as [HNe HNw].
    assert (Hca : created_as s sid = None).
    { destruct (created_as s sid) eqn:E; [|reflexivity]. exfalso. apply Hn. apply created_as_in. eauto. }
    split; simpl.
    + rewrite created_as_app, Hca. simpl. rewrite N.eqb_refl. reflexivity.
    + rewrite ended_app, written_app, HNe, HNw. simpl. repeat split; auto.
      * intro Hi. apply in_app_or in Hi. destruct Hi as [Hi|Hi]; [eapply fresh_norename; eauto|destruct (Hnr _ Hi)].
      * eexists. split; [exact Hnew|]. simpl. repeat split; eauto.
Qed.
