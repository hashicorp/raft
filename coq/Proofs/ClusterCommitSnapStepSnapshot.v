(* ClusterCommitSnapStepSnapshot.v — takeSnapshot with its compaction at one server (GInput j NSnapshot) keeps the
   invariant: the snapshot is taken at a committed key of the server's branch, the compaction removes
   log entries that the new snapshot covers.  With Proofs/ClusterCommitSnapStepVote.v and
   Proofs/ClusterCommitSnapStepDeliver.v: every step that runs a handler keeps it (zinv_handler_step). *)
From Coq Require Import List NArith Bool Lia.
From stdpp Require Import gmap.
From RaftModel Require Import Base Config Node Cluster NodeCodec
  ClusterLog ClusterCommit.
From RaftProofs Require Import ClusterLogAppend VoteProofs AppendProofs ClusterProofs ClusterStepInv ClusterLogSpec ClusterLogChain
  ClusterLogNode ClusterLogShell ClusterCommitLog ClusterCommitChain ClusterCommitGhost ClusterCommitInv ClusterCommitUpd
  ClusterCommitSnapLog ClusterCommitSnapTake ClusterCommitSnapNode ClusterCommitSnapNode3 ClusterCommitSnapLinv
  ClusterCommitSnapInv ClusterCommitSnapInv2 ClusterCommitSnapTouch ClusterCommitSnapStepA ClusterCommitSpec
  ClusterCommitSnapStepVote ClusterCommitSnapStepDeliver.
Open Scope N_scope.

Section Step.
  Variable cfg : config.
  Variable Ps : list params.
  Hypothesis HVn : NoDup (voters cfg).

  (* what takeSnapshot reads: the FSM position is a committed key of the server's branch (first: what snapshot_step_z asks) *)
  Lemma fsm_facts g C LL A V n s : zinvg cfg Ps true g C LL A V -> In n (cnodes g) -> gn_run n = Up s -> fst (v_fsmLast s) <> 0 ->
    (created C (v_fsmLast s) /\ snd (v_fsmLast s) <= d_term s /\ anc C (v_fsmLast s) (last_entry s) /\
     v_lastSnapIdx s <= fst (v_fsmLast s)) /\ CK cfg C LL A (d_term s) (v_fsmLast s) /\ fst (v_fsmLast s) <= N.max (v_commit s) (v_lastSnapIdx s).
  Proof.
    intros HI Hin Hr Hnz. destruct (zg_fsm HI n s Hin Hr eq_refl) as [E|[F1 F2]]; [contradiction|].
    pose proof (zg_node HI n Hin) as (_ & _ & Hn). rewrite Hr in Hn.
    pose proof (zu_fa Hn eq_refl). pose proof (zu_ac Hn).
    assert (Hle : fst (v_fsmLast s) <= N.max (v_commit s) (v_lastSnapIdx s)) by lia.
    split; [|split; [exact F2|exact Hle]]. split; [exact F1|]. split; [apply (CK_term cfg C LL A _ _ (zg_ci HI) F2)|]. split.
    - apply (CK_below_last cfg Ps true HVn g C LL A V HI n s _ _ Hin Hr F2); [lia|exact Hle].
    - destruct (zu_fs Hn eq_refl) as [E|H']; [contradiction|exact H'].
  Qed.

  Lemma snap_last g C LL A V n s s' : zinvg cfg Ps true g C LL A V -> In n (cnodes g) -> gn_run n = Up s -> snap_done s s' ->
    last_entry s' = last_entry s.
  Proof.
    intros HI Hin Hr [->|(Hnz & m' & -> & _)]; [reflexivity|]. unfold last_entry.
    cbn [v_lastSnapIdx v_lastSnapTerm v_lastLogIdx v_lastLogTerm set_log set_lastsnap set_snaps].
    destruct (fsm_facts g C LL A V n s HI Hin Hr Hnz) as ((_ & _ & _ & F4) & F5 & F6).
    destruct (zg_kc HI n s Hin Hr) as [K1 _]. unfold last_index in K1.
    destruct (N.leb_spec (v_lastSnapIdx s) (v_lastLogIdx s)) as [Ho|Ho].
    - destruct (N.leb_spec (fst (v_fsmLast s)) (v_lastLogIdx s)); [reflexivity|lia].
    - assert (Ei : fst (v_fsmLast s) = v_lastSnapIdx s) by lia.
      destruct (bk_CK cfg Ps true g C LL A V HI n s Hin Hr) as [E0|Hb]; [lia|].
      pose proof (zCK_same_idx cfg Ps true HVn g C LL A V HI _ _ _ _ F5 Hb Ei) as E. rewrite bk_pos in E by lia. rewrite E. simpl.
      destruct (N.leb_spec (v_lastSnapIdx s) (v_lastLogIdx s)); [lia|reflexivity].
  Qed.

  Lemma snap_covers g C LL A V n s m' sns' k0 : zinvg cfg Ps true g C LL A V -> In n (cnodes g) -> gn_run n = Up s ->
    snap_eff s m' sns' -> 1 <= fst k0 -> covers C s k0 ->
    holds m' k0 \/ exists sn, In sn sns' /\ anc C k0 (sk sn).
  Proof.
    intros HI Hin Hr He Hpos Hc. pose proof (ci_ok (zg_ci HI)) as HC.
    destruct He as [[-> ->]|(Hnz & -> & Hm)]; [exact Hc|].
    destruct Hc as [(x & Hx & Ex)|(sn & Hsn & Ha)]; [|right; exists sn; split; [apply in_app_iff; left; exact Hsn|exact Ha]].
    destruct Hm as [->|(lo & hi & -> & Hhi)]; [left; exists x; auto|].
    destruct (m_lookup_del (d_log s) lo hi (fst k0) x Hx) as [H|[H1 H2]]; [left; exists x; auto|right].
    exists (snap_of s). split; [apply in_app_iff; right; left; reflexivity|].
    destruct (fsm_facts g C LL A V n s HI Hin Hr Hnz) as ((_ & _ & F3 & _) & _).
    destruct (znode_zup_wfu HI n s Hin Hr) as [Hz _].
    pose proof (sk_snap_of s) as Esk.
    rewrite Esk. rewrite last_entry_lk in F3. rewrite <- Ex.
    apply (anc_linear C (key x) (v_fsmLast s) _ HC (zshape_log_lk C _ _ _ _ _ Hz _ x Hx) F3).
    destruct (zs_in Hz _ x Hx) as (Ix & _). unfold key. simpl. lia.
  Qed.

  Lemma zinv_snapshot_up g C LL A V j nj s cut fs r' ob out g1 hb' :
    zinvg cfg Ps true g C LL A V -> find_node (cnodes g) j = Some nj -> gn_run nj = Up s ->
    step_full (gn_P nj) (Up s) NSnapshot cut fs = (r', ob, out) -> ginv [cfg] g1 ->
    g_nodes g1 = upd_node (cnodes g) j (mkGN (gn_P nj) r' (keep_sess r' (gn_sess nj)) (gn_next nj)) ->
    g_leaders g1 = g_leaders (gof g) -> g_grants g1 = grant_ghost j ob ++ g_grants (gof g) ->
    zinvg cfg Ps true (mkCG (mkLG g1 (lg_msgs (cg_l g))) (refresh_leads (cnodes g) (g_nodes g1) (cg_lead g)) hb' (cg_ans g)) C LL A V.
  Proof.
    intros HI Hf Hr Hsf Hg1 Hn1 Hl1 Hgr.
    destruct (find_node_in _ _ _ Hf) as [Hin Hid].
    pose proof (zg_ci HI) as Hci. pose proof (ci_ok Hci) as HC.
    pose proof (zinv_pclosed cfg Ps true g C LL A V HI) as Hp.
    destruct (znode_zup_wfu HI nj s Hin Hr) as [Hz Hw].
    pose proof (zg_node HI nj Hin) as Hcn. rewrite Hr in Hcn.
    assert (Hfsm : fsm_on_branch C s) by (intros Hnz; apply (fsm_facts g C LL A V nj s HI Hin Hr Hnz)).
    destruct (snapshot_step_z cfg Ps C (gn_P nj) s cut fs r' ob out HC Hp Hz Hcn Hfsm Hsf) as (Hnl' & Hcn' & Hdt' & Heff & Hcase & Hob).
    assert (Hgg : grant_ghost j ob = []) by (destruct Hob as [-> | ->]; reflexivity).
    pose proof (step_role_kept (gn_P nj) (Up s) NSnapshot cut fs r' ob out Hw I Hsf) as Hrk. rewrite <- Hr in Hsf, Hrk.
    destruct (handler_touch cfg Ps true HVn g C LL A V j nj NSnapshot cut fs r' ob out g1 hb' (cg_ans g) [] HI Hf Hsf Hg1 Hn1 Hl1 Hgr
                (eq_sym (app_nil_r _)) Hnl' Hrk) as (Ht & Hleads & Hld & Hl').
    change V with ([] ++ V). change A with ([] ++ A).
    apply (zinv_handler cfg Ps true HVn g _ C LL A [] V [] j nj NSnapshot cut fs r' ob out [] HI Hf Hsf Ht Hleads Hld Hl' (gext_nil cfg C LL A V Hci) Hcn').
    - (* commit knowledge *)
      intros s' ->. destruct Hcase as [(Hc0 & _)|[->|(Hnz & m' & -> & Hm)]].
      + rewrite Hc0. split; [lia|]. intros i e He Hi. exfalso. simpl in Hnl'. pose proof (log_in_pos C _ _ i e HC (zs_in Hnl') He). lia.
      + apply (zg_kc HI nj s Hin Hr).
      + destruct (zg_kc HI nj s Hin Hr) as [K1 K2]. unfold last_index in *.
        cbn [v_commit v_lastLogIdx v_lastSnapIdx d_log d_term set_log set_lastsnap set_snaps]. split.
        * destruct (Hfsm Hnz) as (_ & _ & _ & F4). lia.
        * intros i e He Hi. apply (K2 i e); [|exact Hi]. cbn [image d_log set_log set_lastsnap set_snaps] in Heff. apply (snap_eff_sub s _ _ Heff i e He).
    - (* the snapshots: the new one is taken at the position of the FSM *)
      intros sn Hsn. rewrite Hdt'. cbn [image]. destruct Heff as [[_ E]|(Hnz & E & _)]; rewrite E in Hsn.
      + pose proof (zg_sk HI nj sn Hin) as H. unfold dtn in H. rewrite Hr in H. apply H, Hsn.
      + apply in_app_iff in Hsn. destruct Hsn as [Hsn|[<-|[]]].
        * pose proof (zg_sk HI nj sn Hin) as H. unfold dtn in H. rewrite Hr in H. apply H, Hsn.
        * destruct (fsm_facts g C LL A V nj s HI Hin Hr Hnz) as (_ & F5 & _).
          pose proof (sk_snap_of s) as Esk.
          rewrite Esk. exact F5.
    - (* the position of the FSM *)
      intros s' -> _. destruct Hcase as [(_ & _ & Hf0 & _)|[->|(Hnz & m' & -> & Hm)]]; [left; rewrite Hf0; reflexivity|apply (zg_fsm HI nj s Hin Hr eq_refl)|].
      cbn [v_fsmLast d_term set_log set_lastsnap set_snaps]. apply (zg_fsm HI nj s Hin Hr eq_refl).
    - (* what the server accepted before *)
      intros k k0 Ha Hanc Hpos. rewrite <- Hid in Ha.
      destruct (zg_av HI (gn_id nj) k nj k0 Ha Hin eq_refl Hanc Hpos) as [H|H].
      + left. rewrite Hr in H. simpl in H. apply (snap_covers g C LL A V nj s _ _ k0 HI Hin Hr Heff Hpos H).
      + right. unfold dtn in H. rewrite Hr in H. rewrite Hdt'. exact H.
    - intros w k [].
    - (* still a leader *)
      intros s' -> Hrole'. destruct Hcase as [(_ & Hf0 & _)|Hsd]; [rewrite Hf0 in Hrole'; discriminate|].
      exists s. split; [exact Hr|].
      destruct Hsd as [->|(Hnz & m' & -> & _)]; [destruct (zg_lead HI nj s Hin Hr Hrole') as (_ & Z1 & _); auto 10|].
      cbn in Hrole' |- *. destruct (zg_lead HI nj s Hin Hr Hrole') as (_ & Z1 & _).
      destruct (fsm_facts g C LL A V nj s HI Hin Hr Hnz) as (_ & _ & F6).
      destruct (zg_kc HI nj s Hin Hr) as [K1 _]. unfold last_index in K1. split; [exact Hrole'|]. repeat (split; [reflexivity|]). lia.
    - (* a runCandidate invocation that goes on *)
      intros s0 s' se Hs0 -> Hrc Hse. left. rewrite Hr in Hs0. inversion Hs0; subst s0.
      destruct Hcase as [(_ & Hf0 & _)|Hsd]; [rewrite Hf0 in Hrc; discriminate|].
      apply (snap_last g C LL A V nj s s' HI Hin Hr Hsd).
    - intros T' c Hlv. rewrite <- Hid. apply (zg_live HI nj T' c Hin).
      apply (step_no_vote _ _ _ _ _ _ _ _ (ginv_wfr (zl_g [cfg] _ C (zg_l HI)) Hin) Hsf); [discriminate|discriminate|exact Hlv].
    - rewrite Hgg. apply votes_none.
    - intros x [].
  Qed.
End Step.

(* a step that runs a handler at one server (Proofs/ClusterCommitLog.v handler_label) keeps the invariant *)
Section Handler.
  Variable cfg : config.
  Variable Ps : list params.
  Variable fsm : bool.
  Hypothesis HVn : NoDup (voters cfg).

  Theorem zinv_handler_step sn g l g' C LL A V : (sn = true -> fsm = true) -> zinvg cfg Ps fsm g C LL A V ->
    label_no_stray_vote l -> cstep sn [cfg] g l = Some g' -> handler_label l -> exists An V', zinvg cfg Ps fsm g' C LL (An ++ A) V'.
  Proof.
    intros Hsn HI Hnv Hstep Hh. pose proof (zl_g [cfg] _ C (zg_l HI)) as Hg0.
    destruct (cstep_handler_inv _ _ _ _ _ Hstep Hh) as (j & e & cut & fs & nj & r' & ob & out & g1 & ans' & _ & Hfj & Hsf & Hg1 & Hn1 & Hl1 & Hgr & -> & Hev).
    specialize (Hg1 Hg0).
    destruct Hev as [(Hok & -> & Hcand)|(k & m & Hk & -> & -> & ->)].
    1: pose proof (fun He => zinv_simple_handler cfg Ps fsm HVn g C LL A V j nj e cut fs r' ob out g1 (cg_hb g) HI Hfj He Hsf Hg1 Hn1 Hl1 Hgr
                               (Hcand Hg0 Hnv)) as Hsimple; destruct e; try discriminate Hok.
    1-4: destruct (Hsimple I) as [Vn Hn]; exists [], (Vn ++ V); exact Hn.
    all: destruct (gn_run nj) as [s|sd] eqn:Hr.
    (* the server is down: nothing happens *)
    2, 4: pose proof Hsf as Hd; rewrite <- Hr in Hd; simpl in Hsf; inversion Hsf; subst r' ob out; exists [], V;
      apply (zinv_handler_down cfg Ps fsm HVn g C LL A V _ nj sd _ cut fs [0] g1 _ HI Hfj Hr Hd); assumption.
    - exists [], V. rewrite (Hsn Hok) in HI |- *. apply (zinv_snapshot_up cfg Ps HVn g C LL A V j nj s cut fs r' ob out g1 _ HI Hfj Hr Hsf Hg1 Hn1 Hl1 Hgr).
    - exists (accept_of (am_to m) (am_req m) ob), V.
      apply (zinv_deliver_up cfg Ps fsm HVn g C LL A V k m nj s cut fs r' ob out g1 _ HI Hk Hfj Hr Hsf Hg1 Hn1 Hl1 Hgr).
  Qed.
End Handler.
