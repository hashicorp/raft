(* Proofs about Model/LogCache.v : the cache is transparent over any backend whose
   StoreLogs is atomic (all-or-nothing) and whose GetLog is a function of its state. *)
From Coq Require Import List NArith Bool Lia.
From stdpp Require Import gmap.
From RaftModel Require Import Base LogCache.
Open Scope N_scope.

Definition find_last (i : N) (es : list entry) : option entry :=
  List.find (fun e => e_idx e =? i) (rev es).
Definition find_last_slot (cap k : N) (es : list entry) : option entry :=
  List.find (fun e => e_idx e mod cap =? k) (rev es).

Lemma find_imp {A} (P Q : A -> bool) l e :
  List.find P l = Some e -> Q e = true -> (forall x, Q x = true -> P x = true) ->
  List.find Q l = Some e.
Proof.
  induction l as [|x l IH]; simpl; intros Hf Hq Himp; [discriminate|].
  destruct (P x) eqn:HP.
  - inversion Hf; subst. rewrite Hq. reflexivity.
  - destruct (Q x) eqn:HQ.
    + apply Himp in HQ. congruence.
    + apply IH; assumption.
Qed.

Lemma find_none_imp {A} (P Q : A -> bool) l :
  List.find P l = None -> (forall x, Q x = true -> P x = true) -> List.find Q l = None.
Proof.
  induction l as [|x l IH]; simpl; intros Hf Himp; [reflexivity|].
  destruct (P x) eqn:HP; [discriminate|].
  destruct (Q x) eqn:HQ.
  - apply Himp in HQ. congruence.
  - apply IH; assumption.
Qed.

Lemma find_app_last {A} (P : A -> bool) l x :
  List.find P (l ++ [x]) = match List.find P l with Some y => Some y | None => if P x then Some x else None end.
Proof.
  induction l as [|y l IH]; simpl.
  - destruct (P x); reflexivity.
  - destruct (P y); [reflexivity|exact IH].
Qed.

(* a batch of inserts keyed by k: the last entry of the batch with key i wins *)
Lemma fold_insert_lookup (k : entry -> N) es : forall (m : gmap N entry) i,
  fold_left (fun s e => <[ k e := e ]> s) es m !! i =
  match List.find (fun e => k e =? i) (rev es) with Some e => Some e | None => m !! i end.
Proof.
  induction es as [|a es IH]; intros m i; simpl; [reflexivity|].
  rewrite IH. rewrite find_app_last.
  destruct (List.find _ (rev es)) as [y|]; [reflexivity|].
  destruct (N.eqb_spec (k a) i) as [<-|Hne].
  - rewrite lookup_insert. reflexivity.
  - rewrite lookup_insert_ne by exact Hne. reflexivity.
Qed.

Lemma fill_slots_lookup cap es slots k :
  fill_slots cap slots es !! k =
  match find_last_slot cap k es with Some e => Some e | None => slots !! k end.
Proof. apply (fold_insert_lookup (fun e => e_idx e mod cap)). Qed.

Lemma store_entries_lookup es m i :
  store_entries m es !! i = match find_last i es with Some e => Some e | None => m !! i end.
Proof. apply (fold_insert_lookup e_idx). Qed.

Lemma find_last_idx i es e : find_last i es = Some e -> e_idx e = i.
Proof.
  unfold find_last. intros H. apply find_some in H. destruct H as [_ H].
  apply N.eqb_eq in H. exact H.
Qed.

Section Transparent.
  Variable bk : backend.

  (* The two laws asked of the wrapped store (DeleteRange, FirstIndex, LastIndex and the
     error behaviour are arbitrary): *)
  Definition store_atomic : Prop :=
    forall b es b', bstore bk b es = (b', false) -> forall i, bget bk b' i = bget bk b i.
  Definition store_writes : Prop :=
    forall b es b', bstore bk b es = (b', true) ->
      forall i, bget bk b' i = match find_last i es with Some e => Some e | None => bget bk b i end.

  Hypothesis Hatomic : store_atomic.
  Hypothesis Hwrites : store_writes.

  Definition cache_inv (c : cache bk) : Prop :=
    forall k e, c_slots c !! k = Some e ->
      k = e_idx e mod c_cap c /\ bget bk (c_back c) (e_idx e) = Some e.

  Lemma cache_new_inv cap b : cache_inv (cache_new cap b).
  Proof. intros k e H. simpl in H. rewrite lookup_empty in H. discriminate. Qed.

  Lemma cache_step_sim c o :
    cache_inv c ->
    let '(c', r) := cache_step c o in
    let '(b', r') := backend_step bk (c_back c) o in
    cache_inv c' /\ c_back c' = b' /\ r = r'.
  Proof.
    intros Hinv. destruct o as [i|es|lo hi| |]; simpl.
    - destruct (c_slots c !! (i mod c_cap c)) as [e|] eqn:Hs.
      + destruct (N.eqb_spec (e_idx e) i) as [Heq|Hne]; simpl.
        * apply Hinv in Hs. destruct Hs as [_ Hg]. rewrite Heq in Hg. rewrite Hg.
          auto.
        * auto.
      + auto.
    - destruct (bstore bk (c_back c) es) as [b' ok] eqn:Hst. destruct ok; simpl.
      + split; [|split; reflexivity]. intros k e. simpl.
        rewrite fill_slots_lookup. unfold find_last_slot.
        destruct (List.find _ (rev es)) as [y|] eqn:Hf.
        * intros Hy. inversion Hy; subst y. clear Hy.
          pose proof (find_some _ _ Hf) as [_ Hk]. apply N.eqb_eq in Hk.
          split; [symmetry; exact Hk|].
          rewrite (Hwrites _ _ _ Hst). unfold find_last.
          rewrite (find_imp _ (fun x => e_idx x =? e_idx e) _ _ Hf).
          -- reflexivity.
          -- apply N.eqb_refl.
          -- intros x Hx. apply N.eqb_eq in Hx. apply N.eqb_eq. rewrite Hx. exact Hk.
        * intros Hold. destruct (Hinv _ _ Hold) as [Hk Hg]. split; [exact Hk|].
          rewrite (Hwrites _ _ _ Hst). unfold find_last.
          rewrite (find_none_imp _ (fun x => e_idx x =? e_idx e) _ Hf).
          -- exact Hg.
          -- intros x Hx. apply N.eqb_eq in Hx. apply N.eqb_eq. rewrite Hx. symmetry. exact Hk.
      + split; [|split; reflexivity]. intros k e Hs. simpl in *.
        destruct (Hinv _ _ Hs) as [Hk Hg]. split; [exact Hk|].
        rewrite (Hatomic _ _ _ Hst). exact Hg.
    - destruct (bdelete bk (c_back c) lo hi) as [b' ok]. simpl.
      split; [|split; reflexivity].
      intros k e H. simpl in H. rewrite lookup_empty in H. discriminate.
    - auto.
    - auto.
  Qed.

  Lemma run_sim ops : forall c, cache_inv c ->
    snd (run cache_step c ops) = snd (run (backend_step bk) (c_back c) ops).
  Proof.
    induction ops as [|o ops IH]; intros c Hinv; simpl; [reflexivity|].
    pose proof (cache_step_sim c o Hinv) as Hs.
    destruct (cache_step c o) as [c' r]. destruct (backend_step bk (c_back c) o) as [b' r'].
    destruct Hs as (Hinv' & Hb & Hr). subst b' r'.
    specialize (IH c' Hinv').
    destruct (run cache_step c' ops) as [c'' rs].
    destruct (run (backend_step bk) (c_back c') ops) as [b'' rs'].
    simpl in *. subst. reflexivity.
  Qed.

  Theorem logcache_transparent cap b0 ops :
    snd (run cache_step (cache_new cap b0) ops) = snd (run (backend_step bk) b0 ops).
  Proof. apply (run_sim ops (cache_new cap b0)). apply cache_new_inv. Qed.
End Transparent.

Lemma ms_store_atomic : store_atomic ms_backend.
Proof.
  intros b es b' H i. simpl in *. unfold next_fail in H.
  destruct (ms_fail b) as [|f fs]; [discriminate|].
  destruct f; inversion H; subst; reflexivity.
Qed.

Lemma ms_store_writes : store_writes ms_backend.
Proof.
  intros b es b' H i. simpl in *. unfold next_fail in H.
  destruct (ms_fail b) as [|f fs].
  - inversion H; subst. simpl. apply store_entries_lookup.
  - destruct f; inversion H; subst. simpl. apply store_entries_lookup.
Qed.

Theorem logcache_transparent_ms cap s0 ops :
  snd (run (@cache_step ms_backend) (cache_new cap s0) ops) = snd (run (backend_step ms_backend) s0 ops).
Proof. apply logcache_transparent; [exact ms_store_atomic | exact ms_store_writes]. Qed.

(* The hypothesis "a failed StoreLogs has no effect" is necessary: a backend whose failing
   StoreLogs nevertheless writes the batch makes the cache return a stale entry. *)
Definition leaky_backend : backend := {|
  B := mstore;
  bget := fun s i => ms_map s !! i;
  bstore := fun s es =>
    let '(f, fs) := next_fail s in
    (mkMS (store_entries (ms_map s) es) fs, negb f);
  bdelete := bdelete ms_backend;
  bfirst := bfirst ms_backend;
  blast := blast ms_backend;
|}.

Lemma atomic_failure_needed :
  exists cap s0 ops,
    snd (run (@cache_step leaky_backend) (cache_new cap s0) ops)
    <> snd (run (backend_step leaky_backend) s0 ops).
Proof.
  exists 4, (mkMS ∅ [false; true]),
    [OStore [mkE 1 1 0 7]; OStore [mkE 1 2 0 8]; OGet 1].
  vm_compute. intros H. discriminate.
Qed.

(* run_logcache / run_barestore (the functions the driver executes) agree on every input *)
Theorem run_logcache_eq_barestore inp : run_logcache inp = run_barestore inp.
Proof.
  unfold run_logcache, run_barestore.
  destruct inp as [|cap [|nf r]]; try reflexivity.
  f_equal. apply logcache_transparent_ms.
Qed.
