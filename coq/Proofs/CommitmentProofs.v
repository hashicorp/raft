(* Model/Commitment.v (commitment.go): the sorted-median index is the largest index matched by a strict
   majority; the commit index is monotone, at or above startIndex and quorum-backed; only voter slots
   are counted; the follower-side commit update. *)
From Coq Require Import List NArith Bool Lia Sorted Permutation Arith.
From stdpp Require Import gmap.
From RaftModel Require Import Base Config Commitment.
From RaftProofs Require Import ConfigProofs.
Open Scope N_scope.

Definition count_ge (q : N) (l : list N) : nat := length (List.filter (fun m => q <=? m) l).

Lemma insert_sorted_perm x l : Permutation (insert_sorted x l) (x :: l).
Proof.
  induction l as [|y r IH]; simpl; [reflexivity|].
  destruct (x <=? y); [reflexivity|].
  rewrite IH. apply perm_swap.
Qed.

Lemma sort_N_perm l : Permutation (sort_N l) l.
Proof.
  induction l as [|x r IH]; simpl; [reflexivity|].
  rewrite insert_sorted_perm. constructor. exact IH.
Qed.

Lemma insert_sorted_sorted x l :
  StronglySorted N.le l -> StronglySorted N.le (insert_sorted x l).
Proof.
  induction l as [|y r IH]; simpl; intros Hs.
  - constructor; constructor.
  - destruct (N.leb_spec x y) as [Hle|Hgt].
    + constructor; [exact Hs|]. inversion Hs; subst.
      constructor; [exact Hle|].
      eapply Forall_impl; [|eassumption]. intros a Ha. simpl in Ha. lia.
    + inversion Hs as [|? ? Hr Hall]; subst. constructor; [apply IH; exact Hr|].
      eapply Permutation_Forall; [symmetry; apply insert_sorted_perm|].
      constructor; [lia|exact Hall].
Qed.

Lemma sort_N_sorted l : StronglySorted N.le (sort_N l).
Proof.
  induction l as [|x r IH]; simpl; [constructor|]. apply insert_sorted_sorted, IH.
Qed.

Lemma count_ge_perm q l l' : Permutation l l' -> count_ge q l = count_ge q l'.
Proof.
  unfold count_ge. induction 1; simpl; try lia.
  - destruct (q <=? x); simpl; lia.
  - destruct (q <=? x), (q <=? y); simpl; lia.
Qed.

Lemma count_ge_le_length q l : (count_ge q l <= length l)%nat.
Proof.
  unfold count_ge. induction l as [|x r IH]; simpl; [lia|]. destruct (q <=? x); simpl; lia.
Qed.

Lemma count_ge_all q l : Forall (fun m => q <= m) l -> count_ge q l = length l.
Proof.
  unfold count_ge. induction 1 as [|x r Hx _ IH]; simpl; [reflexivity|].
  destruct (N.leb_spec q x); simpl; lia.
Qed.

Lemma sorted_nth_ge x r k :
  Forall (fun m => x <= m) r -> (k < length r)%nat -> x <= nth k r 0.
Proof.
  intros Hall Hk. rewrite Forall_forall in Hall. apply Hall. apply nth_In. exact Hk.
Qed.

Lemma sorted_count_ge_lower s : StronglySorted N.le s ->
  forall k, (k < length s)%nat -> (length s - k <= count_ge (nth k s 0%N) s)%nat.
Proof.
  induction 1 as [|x r Hr IH Hall]; intros k Hk; simpl in *; [lia|].
  destruct k as [|k'].
  - assert (count_ge x (x :: r) = length (x :: r)) as ->.
    { apply count_ge_all. constructor; [lia|exact Hall]. }
    simpl. lia.
  - assert (Hk' : (k' < length r)%nat) by lia. specialize (IH k' Hk').
    unfold count_ge in *. simpl. destruct (nth k' r 0 <=? x); simpl; lia.
Qed.

Lemma sorted_count_ge_upper s : StronglySorted N.le s ->
  forall k i, (k < length s)%nat -> nth k s 0 < i -> (count_ge i s <= length s - k - 1)%nat.
Proof.
  induction 1 as [|x r Hr IH Hall]; intros k i Hk Hi; simpl in *; [lia|].
  destruct k as [|k'].
  - pose proof (count_ge_le_length i r). unfold count_ge in *. simpl.
    destruct (N.leb_spec i x); simpl; lia.
  - assert (Hk' : (k' < length r)%nat) by lia.
    pose proof (sorted_nth_ge x r k' Hall Hk') as Hx.
    specialize (IH k' i Hk' Hi). unfold count_ge in *. simpl.
    destruct (N.leb_spec i x); simpl; lia.
Qed.

Definition quorum_idx_of (vals : list N) : N :=
  let s := sort_N vals in nth ((length s - 1) / 2)%nat s 0.

Theorem quorum_index_spec vals : vals <> [] ->
  let q := quorum_idx_of vals in
  (2 * count_ge q vals > length vals)%nat /\
  (forall i, q < i -> (2 * count_ge i vals <= length vals)%nat).
Proof.
  intros Hne. unfold quorum_idx_of.
  pose proof (sort_N_perm vals) as Hp. pose proof (sort_N_sorted vals) as Hs.
  pose proof (Permutation_length Hp) as Hl.
  set (s := sort_N vals) in *.
  assert (Hn : (0 < length s)%nat).
  { rewrite Hl. destruct vals; [congruence|simpl; lia]. }
  set (k := ((length s - 1) / 2)%nat).
  assert (Hk : (k < length s)%nat).
  { subst k. pose proof (Nat.div_le_upper_bound (length s - 1) 2 (length s - 1)). lia. }
  split.
  - rewrite <- (count_ge_perm _ _ _ Hp). pose proof (sorted_count_ge_lower s Hs k Hk). subst k. lia.
  - intros i Hi. rewrite <- (count_ge_perm _ _ _ Hp).
    pose proof (sorted_count_ge_upper s Hs k i Hk Hi). subst k. lia.
Qed.

Definition quorum_ok (m : gmap N N) (q : N) : Prop :=
  (2 * count_ge q (match_vals m) > size m)%nat.

Lemma size_match_vals (m : gmap N N) : size m = length (match_vals m).
Proof. unfold match_vals. rewrite map_length. reflexivity. Qed.

Lemma quorum_match_ok m : size m <> 0%nat -> quorum_ok m (quorum_match m).
Proof.
  intros Hs. unfold quorum_ok, quorum_match. rewrite size_match_vals in *.
  apply (quorum_index_spec (match_vals m)). intros E. rewrite E in Hs. simpl in Hs. lia.
Qed.

Lemma quorum_match_max m i : size m <> 0%nat -> quorum_match m < i -> ~ quorum_ok m i.
Proof.
  intros Hs Hi. unfold quorum_ok. rewrite size_match_vals in *.
  assert (Hne : match_vals m <> []) by (intros E; rewrite E in Hs; simpl in Hs; lia).
  pose proof (proj2 (quorum_index_spec (match_vals m) Hne) i Hi). lia.
Qed.

Lemma recalculate_spec c :
  let c' := recalculate c in
  cm_match c' = cm_match c /\ cm_start c' = cm_start c /\
  (cm_commit c' = cm_commit c \/
   (cm_commit c < cm_commit c' /\ cm_start c <= cm_commit c' /\ quorum_ok (cm_match c) (cm_commit c'))).
Proof.
  unfold recalculate. destruct (Nat.eqb_spec (size (cm_match c)) 0) as [Hz|Hnz]; simpl.
  - auto.
  - destruct (N.ltb_spec (cm_commit c) (quorum_match (cm_match c))) as [Hlt|Hge]; simpl; [|auto].
    destruct (N.leb_spec (cm_start c) (quorum_match (cm_match c))) as [Hle|Hgt]; simpl; [|auto].
    split; [reflexivity|]. split; [reflexivity|]. right.
    split; [exact Hlt|]. split; [exact Hle|]. apply quorum_match_ok. exact Hnz.
Qed.

Lemma cm_step_spec c o :
  let c' := cm_step c o in
  cm_start c' = cm_start c /\
  (cm_commit c' = cm_commit c \/
   (cm_commit c < cm_commit c' /\ cm_start c <= cm_commit c' /\ quorum_ok (cm_match c') (cm_commit c'))).
Proof.
  destruct o as [id idx|cfg]; simpl.
  - destruct (cm_match c !! id) as [prev|]; [|auto].
    destruct (prev <? idx); [|auto].
    match goal with |- context [recalculate ?x] => pose proof (recalculate_spec x) as H end.
    simpl in H. destruct H as (Hm & Hst & Hc). rewrite Hm. auto.
  - match goal with |- context [recalculate ?x] => pose proof (recalculate_spec x) as H end.
    simpl in H. destruct H as (Hm & Hst & Hc). rewrite Hm. auto.
Qed.

Theorem commit_monotone c o : cm_commit c <= cm_commit (cm_step c o).
Proof. pose proof (cm_step_spec c o) as [_ [H|H]]; lia. Qed.

Lemma cm_run_start c ops : cm_start (cm_run c ops) = cm_start c.
Proof.
  revert c. induction ops as [|o r IH]; intros c; simpl; [reflexivity|].
  unfold cm_run in *. rewrite IH. apply cm_step_spec.
Qed.

Theorem commit_run_monotone c ops : cm_commit c <= cm_commit (cm_run c ops).
Proof.
  revert c. induction ops as [|o r IH]; intros c; simpl; [lia|].
  unfold cm_run in *. pose proof (commit_monotone c o). specialize (IH (cm_step c o)). lia.
Qed.

Lemma cm_run_snoc c ops o : cm_run c (ops ++ [o]) = cm_step (cm_run c ops) o.
Proof. unfold cm_run. rewrite fold_left_app. reflexivity. Qed.

(* Whatever the configuration changes and match reports, a non-zero commit index is at or
   above startIndex and was, at the moment it was set, matched by a strict majority of the
   voter slots then in force. *)
Theorem commit_sound cfg start ops :
  let c := cm_run (cm_new cfg start) ops in
  cm_commit c = 0 \/
  (start <= cm_commit c /\
   exists k, (k <= length ops)%nat /\
     quorum_ok (cm_match (cm_run (cm_new cfg start) (firstn k ops))) (cm_commit c)).
Proof.
  induction ops as [|o ops IH] using rev_ind; simpl.
  - left. reflexivity.
  - rewrite cm_run_snoc. simpl in IH.
    pose proof (cm_step_spec (cm_run (cm_new cfg start) ops) o) as [Hst [Heq|(Hlt & Hle & Hq)]].
    + rewrite Heq. destruct IH as [IH|(Hs & k & Hk & Hq)]; [left; exact IH|right].
      split; [exact Hs|]. exists k. split; [rewrite app_length; simpl; lia|].
      rewrite firstn_app. replace (k - length ops)%nat with 0%nat by lia.
      simpl. rewrite app_nil_r. exact Hq.
    + right. rewrite cm_run_start in Hle. simpl in Hle. split; [exact Hle|].
      exists (length (ops ++ [o])). split; [lia|].
      rewrite firstn_all. rewrite cm_run_snoc. exact Hq.
Qed.

Lemma voter_slots_get cfg old id :
  voter_slots cfg old !! id = if mem id (voters cfg) then Some (default 0 (old !! id)) else None.
Proof.
  unfold voter_slots, voters.
  enough (G : forall acc : gmap N N,
    fold_left (fun m s => if is_voter s then <[ s_id s := default 0 (old !! s_id s) ]> m else m) cfg acc !! id =
    if mem id (map s_id (List.filter is_voter cfg)) then Some (default 0 (old !! id)) else acc !! id)
    by (rewrite G, lookup_empty; reflexivity).
  induction cfg as [|s r IH]; intros acc; simpl; [reflexivity|].
  rewrite IH. destruct (is_voter s); simpl; [|reflexivity].
  destruct (N.eqb_spec id (s_id s)) as [->|Hne]; simpl.
  - rewrite lookup_insert. destruct (mem _ _); reflexivity.
  - rewrite lookup_insert_ne by congruence. reflexivity.
Qed.

Lemma voter_slots_lookup cfg old id : is_Some (voter_slots cfg old !! id) <-> In id (voters cfg).
Proof.
  rewrite voter_slots_get, <- mem_In.
  destruct (mem id (voters cfg)); split; intros H; [reflexivity|eauto|destruct H; discriminate|discriminate].
Qed.

Fixpoint cfg_in_force (cfg : config) (ops : list cop) : config :=
  match ops with
  | [] => cfg
  | CSetCfg c :: r => cfg_in_force c r
  | _ :: r => cfg_in_force cfg r
  end.

Lemma recalculate_match c : cm_match (recalculate c) = cm_match c.
Proof. apply recalculate_spec. Qed.

(* the match table after a step, slot by slot *)
Lemma cm_step_match c i x j : cm_match (cm_step c (CMatch i x)) !! j =
  (fun prev => if i =? j then N.max prev x else prev) <$> cm_match c !! j.
Proof.
  simpl. destruct (N.eqb_spec i j) as [<-|Hne].
  - destruct (cm_match c !! i) as [prev|] eqn:E; [|rewrite E; reflexivity].
    destruct (N.ltb_spec prev x); [rewrite recalculate_match; simpl; rewrite lookup_insert|rewrite E; simpl]; f_equal; lia.
  - destruct (cm_match c !! j) eqn:Ej; simpl; (destruct (cm_match c !! i) as [prev|]; [destruct (prev <? x)|]);
      rewrite ?recalculate_match; simpl; rewrite ?lookup_insert_ne by exact Hne; exact Ej.
Qed.

Lemma cm_step_cfg_match c cfg : cm_match (cm_step c (CSetCfg cfg)) = voter_slots cfg (cm_match c).
Proof. simpl. apply recalculate_match. Qed.

Theorem slots_are_voters ops : forall cfg c,
  (forall id, is_Some (cm_match c !! id) <-> In id (voters cfg)) ->
  forall id, is_Some (cm_match (cm_run c ops) !! id) <-> In id (voters (cfg_in_force cfg ops)).
Proof.
  induction ops as [|o r IH]; intros cfg c Hc id; [apply Hc|]. destruct o as [i x|cfg']; apply IH; intros id'.
  - rewrite cm_step_match, fmap_is_Some. apply Hc.
  - rewrite cm_step_cfg_match. apply voter_slots_lookup.
Qed.

Theorem only_voters_counted cfg start ops id :
  is_Some (cm_match (cm_run (cm_new cfg start) ops) !! id) <-> In id (voters (cfg_in_force cfg ops)).
Proof. apply slots_are_voters. intros id'. apply voter_slots_lookup. Qed.

(* a report for a server without a slot (non-voter, staging, removed, unknown) changes nothing *)
Theorem match_nonvoter_ignored c id idx : cm_match c !! id = None -> cm_step c (CMatch id idx) = c.
Proof. intros H. simpl. rewrite H. reflexivity. Qed.

Lemma voter_slots_value cfg old id v : voter_slots cfg old !! id = Some v -> v = 0 \/ old !! id = Some v.
Proof.
  rewrite voter_slots_get. destruct (mem _ _); [|discriminate].
  destruct (old !! id); simpl; intros H; inversion H; auto.
Qed.

Theorem slot_values_reported ops : forall c id v,
  cm_match (cm_run c ops) !! id = Some v ->
  v = 0 \/ cm_match c !! id = Some v \/ In (CMatch id v) ops.
Proof.
  induction ops as [|o r IH]; intros c id v H; [auto|]. apply IH in H. simpl.
  destruct H as [H|[H|H]]; [auto| |auto]. destruct o as [i x|cfg].
  - rewrite cm_step_match in H. destruct (cm_match c !! id) as [prev|]; [|discriminate]. injection H as <-.
    destruct (N.eqb_spec i id) as [->|]; [|auto]. destruct (N.max_spec prev x) as [[_ ->]|[_ ->]]; auto.
  - rewrite cm_step_cfg_match in H. apply voter_slots_value in H. destruct H; auto.
Qed.

Theorem follower_commit_spec commit lc ln last :
  let c' := follower_commit commit lc ln last in
  commit <= c' /\ (c' = commit \/ (c' <= lc /\ c' <= ln /\ c' <= last)).
Proof.
  unfold follower_commit.
  destruct (N.ltb_spec 0 lc); destruct (N.ltb_spec commit lc); simpl; try (split; [lia|left; reflexivity]).
  cbv zeta. destruct (N.ltb_spec commit (N.min lc (N.min ln last))).
  - split; [lia|right; lia].
  - split; [lia|left; reflexivity].
Qed.

(* the current-term rule (Figure 8): entries below startIndex on a majority do not commit *)
Theorem current_term_rule c o : cm_commit (cm_step c o) <> cm_commit c -> cm_start c <= cm_commit (cm_step c o).
Proof. intros H. pose proof (cm_step_spec c o) as [_ [E|(_ & Hle & _)]]; [congruence|exact Hle]. Qed.
