(* C12, leader side: catch-up makes progress - a rejected AppendEntries strictly lowers nextIndex
   (down to 1, where the previous entry is (0,0) and cannot be refused), an accepted one strictly
   raises it, a successful InstallSnapshot moves it past the snapshot.  setupAppendEntries in closed form
   (setup_send_spec, prev_of_cases), for every file that reasons about the requests a leader builds. *)
From Coq Require Import List NArith Bool Lia.
From stdpp Require Import gmap.
From RaftModel Require Import Base Node Replicate.
Open Scope N_scope.

(* a rejection that is not a stale-term answer: nextIndex strictly decreases while above 1, and
   never goes below 1 *)
Theorem reject_lowers_next term rs snd t lastLog noRetry last pi pt es c :
  snd = SendAE pi pt es c -> t <= term -> 1 < r_next rs ->
  let rs' := fst (round_step term rs snd (FAppend t lastLog false noRetry) last) in
  1 <= r_next rs' /\ r_next rs' < r_next rs /\ r_next rs' <= lastLog + 1.
Proof.
  intros -> Ht Hn. unfold round_step. destruct (N.ltb_spec term t); [lia|]. cbn [fst r_next]. lia.
Qed.

Theorem reject_at_one_stays term rs snd t lastLog noRetry last pi pt es c :
  snd = SendAE pi pt es c -> t <= term -> r_next rs = 1 ->
  r_next (fst (round_step term rs snd (FAppend t lastLog false noRetry) last)) = 1.
Proof.
  intros -> Ht Hn. unfold round_step. destruct (N.ltb_spec term t); [lia|]. cbn [fst r_next]. lia.
Qed.

Definition keys_ok (m : gmap N entry) : Prop := forall i e, m !! i = Some e -> e_idx e = i.

Lemma get_range_last m : keys_ok m -> forall n from es, get_range m from n = Some es -> es <> [] ->
  last_idx_of es = from + N.of_nat (length es) - 1 /\ length es = n.
Proof.
  intros Hk. induction n as [|n IH]; intros from es H Hne; simpl in H.
  - inversion H; subst. contradiction.
  - destruct (m !! from) as [e|] eqn:E; [|discriminate].
    destruct (get_range m (from + 1) n) as [r|] eqn:Er; [|discriminate]. inversion H; subst. clear H.
    destruct r as [|e1 r1].
    + unfold last_idx_of. simpl. rewrite (Hk _ _ E). destruct n; simpl in Er; [split; [lia|reflexivity]|].
      destruct (m !! (from + 1)); [|discriminate]. destruct (get_range m (from + 1 + 1) n); discriminate.
    + destruct (IH (from + 1) (e1 :: r1) Er ltac:(discriminate)) as [A B]. split.
      * unfold last_idx_of in *. change (last (e :: e1 :: r1) (mkE 0 0 0 0)) with (last (e1 :: r1) (mkE 0 0 0 0)).
        rewrite A. simpl length. lia.
      * simpl length in *. lia.
Qed.

(* setupAppendEntries in closed form: a request is built exactly when the previous entry is found (setPreviousLog)
   and every entry from nextIndex up to min(nextIndex + MaxAppendEntries - 1, lastIndex) is in the log store *)
Lemma setup_send_spec P s next last pi pt es c : setup_send P s next last = SendAE pi pt es c <->
  prev_of s next = Some (pi, pt) /\
  get_range (d_log s) next (N.to_nat (N.min (next + p_maxappend P - 1) last + 1 - next)) = Some es /\ c = v_commit s.
Proof.
  unfold setup_send. split.
  - destruct (prev_of s next) as [[pi' pt']|]; [|destruct (newest_snap s); discriminate].
    destruct (get_range (d_log s) next _) as [es'|]; [|destruct (newest_snap s); discriminate].
    intros H; inversion H; subst. auto.
  - intros (-> & -> & ->). reflexivity.
Qed.

(* setPreviousLog: nothing before index 1, the snapshot boundary, or the stored entry before nextIndex *)
Lemma prev_of_cases s next p : prev_of s next = Some p ->
  (p = (0, 0) /\ next = 1) \/ (p = (v_lastSnapIdx s, v_lastSnapTerm s) /\ next - 1 = v_lastSnapIdx s /\ next <> 1) \/
  (exists pe, d_log s !! (next - 1) = Some pe /\ p = (e_idx pe, e_term pe) /\ next <> 1).
Proof.
  unfold prev_of. destruct (N.eqb_spec next 1) as [->|Hne]; [intros H; inversion H; auto|].
  destruct (N.eqb_spec (next - 1) (v_lastSnapIdx s)) as [E|_]; [intros H; inversion H; auto|].
  destruct (d_log s !! (next - 1)) as [pe|]; [|discriminate]. intros H; inversion H; subst. right. right. exists pe. auto.
Qed.

(* an accepted AppendEntries that carried entries moves nextIndex strictly up, to just past what
   was sent, and reports exactly that index to the commitment *)
Theorem success_raises_next P s rs last t lastLog noRetry pi pt es c :
  keys_ok (d_log s) -> setup_send P s (r_next rs) last = SendAE pi pt es c -> es <> [] -> t <= v_term s ->
  let rs' := fst (round_step (v_term s) rs (SendAE pi pt es c) (FAppend t lastLog true noRetry) last) in
  r_next rs < r_next rs' /\ r_next rs' = r_next rs + N.of_nat (length es) /\ r_match rs' = N.max (r_match rs) (r_next rs' - 1) /\ r_failures rs' = 0.
Proof.
  intros Hk Hs Hne Ht. apply setup_send_spec in Hs. destruct Hs as (_ & Eg & _). destruct (get_range_last _ Hk _ _ _ Eg Hne) as [A B].
  unfold round_step. destruct (N.ltb_spec (v_term s) t); [lia|].
  destruct es as [|e0 r0]; [contradiction|]. cbn [fst r_next r_match r_failures].
  rewrite A. assert (0 < N.of_nat (length (e0 :: r0))) by (simpl; lia). lia.
Qed.

Theorem snapshot_moves_next term rs idx st t last :
  t <= term ->
  r_next (fst (round_step term rs (SendSnap idx st) (FSnap t true) last)) = idx + 1.
Proof.
  intros Ht. unfold round_step. destruct (N.ltb_spec term t); [lia|]. reflexivity.
Qed.

(* what is sent: at most MaxAppendEntries entries (when that bound is not 0), none beyond last *)
Theorem send_shape P s next last pi pt es c :
  keys_ok (d_log s) -> setup_send P s next last = SendAE pi pt es c -> es <> [] ->
  (N.of_nat (length es) <= p_maxappend P \/ p_maxappend P = 0) /\ last_idx_of es <= last.
Proof.
  intros Hk Hs Hne. apply setup_send_spec in Hs. destruct Hs as (_ & Eg & _). destruct (get_range_last _ Hk _ _ _ Eg Hne) as [A B].
  assert (Hpos : (0 < length es)%nat) by (destruct es; [contradiction|simpl; lia]).
  rewrite A, B, N2Nat.id. rewrite B in Hpos.
  set (x := N.min (next + p_maxappend P - 1) last + 1 - next) in *.
  assert (0 < x) by (destruct x; [simpl in Hpos; lia|lia]).
  split; [destruct (N.eq_dec (p_maxappend P) 0); [right; assumption|left; unfold x; lia]|unfold x; lia].
Qed.
