(* ClusterCommitChain.v — more about the ghost history of created entries (Proofs/ClusterLogChain.v):
   created keys, stability of the ancestor relation when the history grows, what a log that lies
   below a key holds. *)
From Coq Require Import List NArith Bool Lia.
From stdpp Require Import gmap.
From RaftModel Require Import Base.
From RaftProofs Require Import ClusterLogSpec ClusterLogChain ClusterLogNode.
Open Scope N_scope.

Definition created (C : chain) (k : N * N) : Prop := exists x p, In (x, p) C /\ key x = k.

Lemma created_mono C C' k : incl C C' -> created C k -> created C' k.
Proof. intros Hi (x & p & H & E). exists x, p. auto. Qed.

Lemma created_cons C e p k : created C k -> created ((e, p) :: C) k.
Proof. apply created_mono. intros x Hx. right. exact Hx. Qed.

Lemma created_pos C k : chain_ok C -> created C k -> 1 <= fst k.
Proof. intros HC (x & p & H & <-). destruct (co_idx C HC x p H). unfold key. simpl. lia. Qed.

Lemma anc_inv C a k : anc C a k -> a = k \/ exists e p, In (e, p) C /\ key e = k /\ anc C a p.
Proof. intros H. destruct H as [|e p k Hin Hk Hap]; [left; reflexivity|right; eauto]. Qed.

Lemma anc_root C a : anc C a (0, 0) -> chain_ok C -> a = (0, 0).
Proof.
  intros H HC. destruct (anc_inv C a _ H) as [E|(e & p & Hin & Hk & _)]; [exact E|].
  destruct (co_idx C HC e p Hin) as [A _]. unfold key in Hk. inversion Hk. lia.
Qed.

Lemma anc_stable C C' a k : chain_ok C' -> incl C C' ->
  (created C k \/ k = (0, 0)) ->
  (forall e p, In (e, p) C -> p = (0, 0) \/ created C p) ->
  anc C' a k -> anc C a k.
Proof.
  intros HC' Hi Hk Hpred H. induction H as [|e p k Hin Hke Hap IH]; [apply anc_refl|].
  destruct Hk as [(x & q & Hx & Ex)|Ek].
  - assert (E : e = x /\ p = q).
    { apply (co_fun C' HC' e p x q Hin (Hi _ Hx)). congruence. }
    destruct E as [-> ->]. eapply anc_up; [exact Hx|exact Ex|].
    apply IH. destruct (Hpred x q Hx) as [->|Hc]; auto.
  - subst k. exfalso. destruct (co_idx C' HC' e p Hin) as [A _]. unfold key in Hke. inversion Hke. lia.
Qed.

Definition holds (m : gmap N entry) (k : N * N) : Prop := exists x, m !! fst k = Some x /\ key x = k.

Lemma holds_sub m m' k : log_sub m m' -> holds m k -> holds m' k.
Proof. intros Hs (x & H & E). exists x. auto. Qed.

Definition lcontig (m : gmap N entry) : Prop := forall i, 1 < i -> is_Some (m !! i) -> is_Some (m !! (i - 1)).

Lemma lcontig_down m : lcontig m -> forall i j, is_Some (m !! j) -> 1 <= i -> i <= j -> is_Some (m !! i).
Proof.
  intros Hc i j Hj Hi Hij. remember (N.to_nat (j - i)) as d eqn:Ed. revert j Hj Hij Ed.
  induction d as [|d IH]; intros j Hj Hij Ed.
  - assert (i = j) by lia. subst. exact Hj.
  - apply (IH (j - 1)); [apply Hc; [lia|exact Hj]|lia|lia].
Qed.

Lemma holds_below C m dt top k i y : chain_ok C -> log_in C m dt -> log_below C m top ->
  holds m k -> m !! i = Some y -> i <= fst k -> anc C (key y) k.
Proof.
  intros HC Hin Hbel (x & Hx & Ex) Hy Hle. rewrite <- Ex.
  destruct (Hin _ y Hy) as (Iy & _). destruct (Hin _ x Hx) as (Ix & _).
  apply (anc_linear C (key y) (key x) top HC (Hbel _ y Hy) (Hbel _ x Hx)). unfold key. simpl. rewrite Iy, Ix. rewrite <- Ex in Hle. simpl in Hle. lia.
Qed.

Lemma key_eq_entry C x p y q : chain_ok C -> In (x, p) C -> In (y, q) C -> key x = key y -> x = y.
Proof. intros HC H1 H2 E. apply (co_fun C HC x p y q H1 H2 E). Qed.
