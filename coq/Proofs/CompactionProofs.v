(* Model/Compaction.v (snapshot.go compactLogsWithTrailing / removeOldLogs): the DeleteRange issued. *)
From Coq Require Import List NArith Bool Lia.
From RaftModel Require Import Compaction.
Open Scope N_scope.

Theorem compaction_range f s l t lo hi :
  compact f s l t = Some (lo, hi) ->
  lo = f /\ hi <= s /\ hi + t <= l /\ f <= hi.
Proof.
  unfold compact. destruct (N.leb_spec l t); [discriminate|].
  destruct (N.ltb_spec (N.min s (l - t)) f); [discriminate|].
  intros E; inversion E; subst. lia.
Qed.

Theorem compaction_none f s l t :
  compact f s l t = None -> l <= t \/ N.min s (l - t) < f.
Proof.
  unfold compact. destruct (N.leb_spec l t); [auto|].
  destruct (N.ltb_spec (N.min s (l - t)) f); [auto|discriminate].
Qed.

Lemma compaction_empty f s t : compact f s 0 t = None.
Proof. unfold compact. destruct t; reflexivity. Qed.

(* when something is deleted it is as much as the bound allows *)
Theorem compaction_max f s l t lo hi :
  compact f s l t = Some (lo, hi) -> hi = N.min s (l - t).
Proof.
  unfold compact. destruct (N.leb_spec l t); [discriminate|].
  destruct (N.ltb_spec (N.min s (l - t)) f); [discriminate|].
  intros E; inversion E; reflexivity.
Qed.

(* the wholesale reset removes everything a non-empty store holds *)
Theorem remove_old_all f l : 0 < f -> f <= l -> remove_old f l = Some (f, l).
Proof.
  intros Hf Hl. unfold remove_old, compact.
  destruct (N.leb_spec l 0); [lia|]. rewrite N.sub_0_r, N.min_id.
  destruct (N.ltb_spec l f); [lia|reflexivity].
Qed.
