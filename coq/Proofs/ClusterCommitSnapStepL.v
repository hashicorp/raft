(* ClusterCommitSnapStepL.v — with snapshots: dispatchLogs at a leader and the no-op of a new leader
   keep the Log Matching part; the new entry is appended after getLastEntry (the last log entry or
   the snapshot boundary), with the extended history made explicit: what znlog needs for shell_propose_ok and
   shell_become of Proofs/ClusterLogShell.v (znp_append), and their instances.  What dispatchLogs of
   one entry returns is ClusterLogLeader.dispatch_one_cases / dispatch_one_ls. *)
From Coq Require Import List NArith Bool Lia.
From stdpp Require Import gmap.
From RaftModel Require Import Base Config Commitment Node NodeCodec Leader Cluster ClusterLog.
From RaftProofs Require Import VoteProofs LeaderProofs ClusterProofs ClusterLogSpec ClusterLogChain ClusterLogVote
  ClusterLogLeader ClusterLogInv ClusterLogShell ClusterCommitInv ClusterCommitSnapLog ClusterCommitSnapLeader
  ClusterCommitSnapLeader2 ClusterCommitSnapLinv.
Open Scope N_scope.

Lemma last_entry_facts C s : chain_ok C -> zup C s ->
  fst (last_entry s) = last_index s /\ snd (last_entry s) <= d_term s /\ (fst (last_entry s) = 0 -> last_entry s = (0, 0)).
Proof.
  intros HC Hz. rewrite last_entry_lk, last_index_lk. split; [reflexivity|]. split.
  - unfold lk. destruct (fst (bk s) <=? fst (topk s)); [apply (zs_tkt Hz)|apply (zs_bt Hz)].
  - apply (rootc_zero C _ HC (zshape_lk_root C _ _ _ _ _ Hz)).
Qed.

(* dispatchLogs of one entry, for the shell of Proofs/ClusterLogShell.v *)
Lemma znp_append C P s s' ty data : chain_ok C -> znp C P (Up s) -> v_term s = d_term s ->
  (forall x p, In (x, p) C -> e_term x = v_term s -> e_idx x <= v_lastLogIdx s) ->
  appended P s s' (new_entry s ty data) ->
  chain_ok ((new_entry s ty data, last_entry s) :: C) /\ znp ((new_entry s ty data, last_entry s) :: C) P (Up s').
Proof.
  intros HC HnL Hvt Hown Happ. unfold znp in *. cbn [znlog] in *.
  destruct (last_entry_facts C s HC HnL) as (Hle1 & Hle2 & Hle3).
  assert (HC' : chain_ok ((new_entry s ty data, last_entry s) :: C)) by (apply new_entry_chain; auto; lia).
  split; [exact HC'|]. apply (leader_append_zup C P s s' ty data HC' HnL (N.eq_le_incl _ _ Hvt) Happ).
Qed.

Section Explicit.
  Variable cfgs : list config.
  Hypothesis HQ : quorums_intersect cfgs.

  (* dispatchLogs stored the entry *)
  Lemma propose_zlinv_ok g C i n s ty data fs :
    zlinv cfgs g C -> find_node (g_nodes (lg_g g)) i = Some n -> gn_run n = Up s -> v_role s = Leader ->
    fst (next_fail fs) = false ->
    let s' := l_node (fst (fst (fst (dispatch (gn_P n) (leader_setup s) fs [(ty, data, 0)])))) in
    zlinv cfgs (mkLG (set_node_run (lg_g g) i n (Up s')) (lg_msgs g)) ((new_entry s ty data, last_entry s) :: C).
  Proof.
    intros Hinv Hfind Hrun Hrole Hok. apply zlinv_shell. apply zlinv_shell in Hinv.
    exact (shell_propose_ok cfgs HQ _ _ _ znp_mono lrq_mono znp_append g C i n s ty data fs Hinv Hfind Hrun Hrole Hok).
  Qed.

  (* runLeader: the server is recorded as leader of its term and stores the no-op *)
  Lemma become_leader_zlinv_ok g C g1 j n s sL next' :
    zlinv cfgs g C -> ginv cfgs g1 ->
    find_node (g_nodes (lg_g g)) j = Some n -> gn_run n = Up s ->
    g_nodes g1 = upd_node (g_nodes (lg_g g)) j (mkGN (gn_P n) (Up (become_leader (gn_P n) sL)) None next') ->
    g_leaders g1 = (v_term sL, j) :: g_leaders (lg_g g) ->
    zup C sL -> d_term s <= d_term sL -> v_term sL = d_term sL ->
    (forall T', T' <= dt n -> (forall se, gn_sess n = Some se -> T' < vq_term (se_req se)) -> T' <> v_term sL) ->
    zlinv cfgs (mkLG g1 (lg_msgs g)) ((new_entry sL LogNoop 0, last_entry sL) :: C) /\
    (forall x p, In (x, p) C -> e_term x <> v_term sL) /\
    (forall T c, In (T, c) (g_leaders (lg_g g)) -> T <> v_term sL).
  Proof.
    intros Hinv Hg1 Hfind Hrun Hn1 Hl1 HnL Hdt Hvt Hfresh. rewrite zlinv_shell. apply zlinv_shell in Hinv.
    exact (shell_become cfgs HQ _ _ _ znp_mono lrq_mono znp_append g C g1 j n s sL next' Hinv Hg1 Hfind Hrun Hn1 Hl1 HnL Hdt Hvt Hfresh).
  Qed.
End Explicit.
