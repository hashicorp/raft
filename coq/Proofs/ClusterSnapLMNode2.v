(* ClusterSnapLMNode2.v — one server of the system with snapshot transfer (Model/ClusterSnap.v): the per-server
   ("Node") part of the proof of Log Matching above all snapshots ("SnapLM", Proofs/ClusterSnapLMSpec.v), whose
   cluster-level part is Proofs/ClusterSnapLMMain.v.  The 2 is part of the name; there is no ClusterSnapLMNode.

   The per-server invariant: B is an upper bound of the index of every snapshot stored anywhere.  At or
   below B a log store may hold anything that was ever created (stale entries kept below an installed
   snapshot, finding F3-ii, and whatever was replicated from them); ABOVE B every stored entry is an
   ancestor of the cached last-log key tk.

   Then what the handlers do to it.  appendEntries WITHOUT the assumption that nothing is stored above the
   cached last index (after installSnapshot reset the cache to (0, 0) stale entries below the snapshot
   remain above it), on requests that are chains only above B; the requests setupAppendEntries builds are
   of this kind.  installSnapshot: the log store only loses entries, the snapshot store gains the
   request's snapshot, lastSnapshot and the FSM position are the request's (finding F12).

   Last, one event at one server keeps the invariant whether the handler returns or the process dies
   inside it: NewRaft, the handlers that do not touch the stores, a delivered AppendEntries, takeSnapshot,
   a delivered InstallSnapshot. *)
From Coq Require Import List NArith Bool Lia.
From stdpp Require Import gmap.
From RaftModel Require Import Base Compaction Node NodeCodec Replicate.
From RaftProofs Require Import NodeEvent LeaderProofs ReplicateProofs NodeFrame VoteProofs AppendProofs ClusterLogSpec ClusterLogChain ClusterLogNode ClusterLogLeader
  ClusterLogVote ClusterCommitChain ClusterCommitInv ClusterCommitSnapLog RecoverProofs ClusterLogCut ClusterLogAppend NodeStep ClusterCommitSnapAE ClusterCommitAE2 ClusterCommitSnapAE2 ClusterCommitSnapAE3 CompactionProofs ClusterCommitSnapCut ClusterLogSnapBoot
  ClusterCommitNode ClusterCommitSnapBoot ClusterCommitSnapAE5 ClusterCommitSnapTake ClusterCommitSnapNode
  ClusterCommitSnapNode3 ClusterSnapLMSpec.
Open Scope N_scope.

(* lastSnapshotIndex / lastSnapshotTerm as stored *)
Definition rawb (s : nstate) : N * N := (v_lastSnapIdx s, v_lastSnapTerm s).

Record yshape (C : chain) (B T : N) (m : gmap N entry) (sns : list snapshot) (tk b fl : N * N) : Prop := {
  ys_in : log_in C m T;
  ys_above : forall i e, m !! i = Some e -> B < i -> anc C (key e) tk;
  ys_tkt : snd tk <= T;
  ys_tkz : fst tk = 0 -> tk = (0, 0);
  ys_sns : forall sn, In sn sns -> sn_idx sn <= B /\ sn_term sn <= T;
  ys_b : fst b <= B /\ (fst b <> 0 -> snd b <= T);
  ys_fl : fst fl <> 0 -> snd fl <= T;
}.

Record yimgS (C : chain) (B T : N) (m : gmap N entry) (sns : list snapshot) : Prop := {
  yi_in : log_in C m T;
  yi_above : exists top, forall i e, m !! i = Some e -> B < i -> anc C (key e) top;
  yi_sns : forall sn, In sn sns -> sn_idx sn <= B /\ sn_term sn <= T;
}.

Arguments ys_in {C B T m sns tk b fl}.
Arguments ys_above {C B T m sns tk b fl}.
Arguments ys_tkt {C B T m sns tk b fl}.
Arguments ys_tkz {C B T m sns tk b fl}.
Arguments ys_sns {C B T m sns tk b fl}.
Arguments ys_b {C B T m sns tk b fl}.
Arguments ys_fl {C B T m sns tk b fl}.

Definition yup (C : chain) (B : N) (s : nstate) : Prop :=
  yshape C B (d_term s) (d_log s) (d_snaps s) (topk s) (rawb s) (v_fsmLast s).
Definition yimg (C : chain) (B : N) (s : nstate) : Prop := yimgS C B (d_term s) (d_log s) (d_snaps s).
Definition ynlog (C : chain) (B : N) (r : nrun) : Prop := match r with Up s => yup C B s | Down s => yimg C B s end.

Lemma yshape_mono C C' B B' T T' m sns tk b fl : incl C C' -> B <= B' -> T <= T' ->
  yshape C B T m sns tk b fl -> yshape C' B' T' m sns tk b fl.
Proof.
  intros Hi HB HT [A1 A2 A3 A4 A5 A6 A7]. constructor.
  - eapply log_in_mono; [exact Hi|]. eapply log_in_sub; [apply log_sub_refl|exact HT|exact A1].
  - intros i e He Hb. eapply anc_mono; [exact Hi|]. apply (A2 i e He). lia.
  - lia.
  - exact A4.
  - intros sn Hsn. destruct (A5 sn Hsn). lia.
  - destruct A6 as [X Y]. split; [lia|]. intros H. specialize (Y H). lia.
  - intros H. specialize (A7 H). lia.
Qed.

Lemma yimgS_mono C C' B B' T T' m sns : incl C C' -> B <= B' -> T <= T' -> yimgS C B T m sns -> yimgS C' B' T' m sns.
Proof.
  intros Hi HB HT [A1 (top & A2) A3]. constructor.
  - eapply log_in_mono; [exact Hi|]. eapply log_in_sub; [apply log_sub_refl|exact HT|exact A1].
  - exists top. intros i e He Hb. eapply anc_mono; [exact Hi|]. apply (A2 i e He). lia.
  - intros sn Hsn. destruct (A3 sn Hsn). lia.
Qed.

Lemma ynlog_mono C C' B B' r : incl C C' -> B <= B' -> ynlog C B r -> ynlog C' B' r.
Proof. intros Hi HB. destruct r as [s|s]; simpl; [apply yshape_mono|apply yimgS_mono]; auto; lia. Qed.

Lemma yshape_img C B T m sns tk b fl : yshape C B T m sns tk b fl -> yimgS C B T m sns.
Proof. intros [A1 A2 _ _ A5 _ _]. constructor; [exact A1|exists tk; exact A2|exact A5]. Qed.

Lemma ynlog_image C B r : ynlog C B r -> yimg C B (image r).
Proof. destruct r as [s|s]; simpl; [apply yshape_img|auto]. Qed.

Lemma yshape_bound C B T m sns tk b fl i e : chain_ok C -> yshape C B T m sns tk b fl -> m !! i = Some e -> B < i -> i <= fst tk.
Proof.
  intros HC H He Hb. destruct (ys_in H i e He) as (Hi & _).
  destruct (anc_le C _ _ HC (ys_above H i e He Hb)) as [X _]. unfold key in X. simpl in X. lia.
Qed.

Lemma yimgS_sub C B T m m' sns : log_sub m' m -> yimgS C B T m sns -> yimgS C B T m' sns.
Proof.
  intros Hs [A1 (top & A2) A3]. constructor; [eapply log_in_sub; [exact Hs|apply N.le_refl|exact A1]| |exact A3].
  exists top. intros i e He. apply (A2 i e (Hs i e He)).
Qed.

(* getLastEntry: its term is bounded, its index is 0 only for the root *)
Lemma y_last_entry C B s : yup C B s ->
  fst (last_entry s) = last_index s /\ snd (last_entry s) <= d_term s /\ (fst (last_entry s) = 0 -> last_entry s = (0, 0)).
Proof.
  intros H. unfold last_entry, last_index. destruct (N.leb_spec (v_lastSnapIdx s) (v_lastLogIdx s)) as [Hle|Hgt]; simpl.
  - split; [lia|]. split; [apply (ys_tkt H)|]. intros E. apply (ys_tkz H). exact E.
  - split; [lia|]. destruct (ys_b H) as [_ Hb]. simpl in Hb. split; [apply Hb; lia|lia].
Qed.

(* the stores and cached keys are kept; the FSM position may move to a key of a term not above the server's *)
Lemma yup_lkeep C B s s' : yup C B s -> lkeep s' s -> v_lastSnapTerm s' = v_lastSnapTerm s ->
  (fst (v_fsmLast s') <> 0 -> snd (v_fsmLast s') <= d_term s') -> d_term s <= d_term s' -> yup C B s'.
Proof.
  intros H (K1 & K2 & K3 & K4 & K5) K6 Hf Ht. unfold yup, topk, rawb in *. rewrite K1, K2, K3, K4, K5, K6.
  pose proof (yshape_mono C C B B _ _ _ _ _ _ _ (incl_refl _) (N.le_refl _) Ht H) as [A1 A2 A3 A4 A5 A6 A7].
  constructor; assumption.
Qed.

(* the conflict as the scan reports it when entries may be stored above the cached last index: the stored entry at c
   has another term than the first new one.  With it the handler's operations are those of ClusterCommitSnapAE.v. *)
Definition KY (m : gmap N entry) (a : areq) (c : N) (news : list entry) : Prop :=
  exists se, m !! c = Some se /\ e_term (hd (mkE 0 0 0 0) news) <> e_term se.
Definition ae_logY := ae_logK KY.
Definition ae_reachY := ae_reachK KY.

Lemma scan_okY m top a : contig (aq_prevIdx a) (aq_entries a) -> scan_okK KY m top a.
Proof.
  intros Hc. pose proof (scan_split m top (aq_entries a) (aq_prevIdx a) Hc) as Hs. unfold scan_okK.
  destruct (scan_entries m top (aq_entries a)) as [news|c news| |]; [exact Hs| |exact I|exact I].
  destruct Hs as (dup & Hes & Hnn & Hc0 & Hcl & Hdup & Hse). split; [exact Hse|]. exists dup. auto.
Qed.

Theorem append_reachY P s fs a : wfu s -> contig (aq_prevIdx a) (aq_entries a) ->
  (forall j, exists k, ae_reachY s a (fold_left tl_apply (firstn j (tlf (trace_of (append_entries P s fs a)))) (tlp s)) k) /\
  (forall st, done_st (append_entries P s fs a) = Some st -> ae_reachY s a (tlp st) (topk st)).
Proof. intros Hw Hc. apply (append_reachK KY), scan_okY; assumption. Qed.

(* every entry whose predecessor position lies above B was created after its predecessor in the list *)
Fixpoint ychain (C : chain) (B : N) (p : N * N) (es : list entry) : Prop :=
  match es with
  | [] => True
  | e :: r => (B < fst p -> In (e, p) C) /\ ychain C B (key e) r
  end.

Lemma ychain_mono C C' B B' p es : incl C C' -> B <= B' -> ychain C B p es -> ychain C' B' p es.
Proof.
  intros Hi HB. revert p. induction es as [|e r IH]; intros p H; simpl in *; [exact I|].
  destruct H as [H1 H2]. split; [intros Hb; apply Hi, H1; lia|apply IH, H2].
Qed.

Lemma ychain_app C B p a b : ychain C B p (a ++ b) ->
  ychain C B p a /\ ychain C B (match a with [] => p | _ => key (last a (mkE 0 0 0 0)) end) b.
Proof.
  revert p. induction a as [|x r IH]; intros p H; simpl in *; [auto|].
  destruct H as [H1 H2]. destruct (IH _ H2) as [A B0]. split; [auto|]. destruct r as [|y r']; exact B0.
Qed.

(* above B the list is a chain: from p (if p is above B) to each element, from each element above B to the last one *)
Lemma ychain_from C B es : forall p, contig (fst p) es -> ychain C B p es -> B < fst p -> forall e, In e es -> anc C p (key e).
Proof.
  induction es as [|x r IH]; intros p Hc H Hb e He; [contradiction|]. destruct Hc as [Hx Hr]. destruct H as [H1 H2].
  assert (Hpx : anc C p (key x)) by (eapply anc_up; [apply H1, Hb|reflexivity|apply anc_refl]).
  destruct He as [<-|He]; [exact Hpx|]. eapply anc_trans; [exact Hpx|].
  apply (IH (key x)); [unfold key; simpl; rewrite Hx; exact Hr|exact H2|unfold key; simpl; lia|exact He].
Qed.

Lemma ychain_last C B es : forall p, contig (fst p) es -> ychain C B p es -> forall e, In e es -> B < e_idx e -> anc C (key e) (key (last es (mkE 0 0 0 0))).
Proof.
  induction es as [|x r IH]; intros p Hc H e He Hb; [contradiction|]. destruct Hc as [Hx Hr]. destruct H as [H1 H2].
  destruct r as [|y r'].
  - destruct He as [<-|[]]. apply anc_refl.
  - change (last (x :: y :: r') (mkE 0 0 0 0)) with (last (y :: r') (mkE 0 0 0 0)).
    assert (Hcr : contig (fst (key x)) (y :: r')) by (unfold key; simpl; rewrite Hx; exact Hr).
    destruct He as [<-|He]; [|apply (IH (key x) Hcr H2 e He Hb)].
    assert (Hl : In (last (y :: r') (mkE 0 0 0 0)) (y :: r')) by (apply last_in; discriminate).
    apply (ychain_from C B (y :: r') (key x) Hcr H2); [unfold key; simpl; exact Hb|exact Hl].
Qed.

(* what is asked of a request: its entries are on the history, but a chain only above B *)
Definition yrq (B : N) (C : chain) (a : areq) : Prop :=
  contig (aq_prevIdx a) (aq_entries a) /\
  (forall e, In e (aq_entries a) -> (exists p, In (e, p) C) /\ e_term e <= aq_term a) /\
  ychain C B (aq_prevIdx a, aq_prevTerm a) (aq_entries a) /\
  aq_prevTerm a <= aq_term a /\ (aq_prevIdx a = 0 -> aq_prevTerm a = 0).

Lemma yrq_mono B B' : B <= B' -> forall C C' a, incl C C' -> yrq B C a -> yrq B' C' a.
Proof.
  intros HB C C' a Hc (A3 & A4 & A5 & A6 & A7). split; [exact A3|]. split.
  - intros e He. destruct (A4 e He) as [(p & Hp) Ht]. split; [exists p; apply Hc, Hp|exact Ht].
  - split; [eapply ychain_mono; eauto|]. auto.
Qed.

Lemma yrq_hb B C T i : yrq B C (mkAReq T i i 0 0 [] 0).
Proof. unfold yrq. simpl. repeat split; try exact I; try lia; contradiction. Qed.

Section Store.
  Variable C : chain.
  Hypothesis HC : chain_ok C.
  Variables (B T : N) (m : gmap N entry) (sns : list snapshot) (tk b fl : N * N).
  Hypothesis HS : yshape C B T m sns tk b fl.

  (* another log and cached key beside the same snapshots *)
  Lemma yshape_log T' m' tk' : T <= T' -> log_in C m' T' -> (forall i e, m' !! i = Some e -> B < i -> anc C (key e) tk') ->
    snd tk' <= T' -> (fst tk' = 0 -> tk' = (0, 0)) -> yshape C B T' m' sns tk' b fl.
  Proof.
    intros HT A1 A2 A3 A4.
    destruct (yshape_mono C C B B T T' _ _ _ _ _ (incl_refl C) (N.le_refl B) HT HS) as [_ _ _ _ A5 A6 A7]. constructor; assumption.
  Qed.

  (* a chain (above B) from qk is stored over a sub-log that holds nothing above B beyond qk, and there ancestors of qk *)
  Lemma yshape_store T' m0 news qk : T <= T' -> log_sub m0 m -> news <> [] -> contig (fst qk) news -> ychain C B qk news ->
    (forall e, In e news -> (exists p, In (e, p) C) /\ e_term e <= T') ->
    (forall i y, m0 !! i = Some y -> B < i -> i <= fst qk /\ anc C (key y) qk) ->
    yshape C B T' (log_store m0 news) sns (key (last_of news)) b fl.
  Proof.
    intros HT Hsub Hnn Hcn Hyn Hnc Hle.
    assert (Hlast : In (last_of news) news) by (apply last_in, Hnn).
    apply (yshape_log T' _ _ HT).
    - intros i x Hx. destruct (store_src_idx _ _ _ _ Hx) as [[Hn Hi]|Hm].
      + destruct (Hnc x Hn) as [Hp Ht]. split; [exact Hi|]. split; [exact Hp|exact Ht].
      + eapply log_in_sub; [exact Hsub|exact HT|apply (ys_in HS)|exact Hm].
    - intros i x Hx Hb. destruct (store_src_idx _ _ _ _ Hx) as [[Hn Hi]|Hm].
      + apply (ychain_last C B news qk Hcn Hyn x Hn). lia.
      + destruct (Hle i x Hm Hb) as [Hiq Ha].
        eapply anc_trans; [exact Ha|]. apply (ychain_from C B news qk Hcn Hyn ltac:(lia) _ Hlast).
    - apply (Hnc _ Hlast).
    - unfold key. simpl. intros E0. destruct (Hnc _ Hlast) as [(p & Pp) _]. destruct (co_idx C HC _ p Pp). lia.
  Qed.
End Store.

(* the leader stored the new entry e right after its last entry *)
Lemma leader_append_yup C B P s s' ty data : let e := new_entry s ty data in let C' := (e, last_entry s) :: C in
  chain_ok C' -> yup C B s -> v_term s <= d_term s -> appended P s s' e -> yup C' B s'.
Proof.
  intros e C' HC' Hz Hvt [Dd _ Hsn Dsi Hl Dci Dct Hf _ _ _ _ Dst _ _ _].
  assert (Hdt : d_term s <= d_term s') by (unfold dproj in Dd; injection Dd as -> _ _; lia).
  assert (Htk : topk s' = key (last_of [e])) by (unfold topk, key; rewrite Dci, Dct; reflexivity).
  assert (Hb : rawb s' = rawb s) by (unfold rawb; congruence).
  destruct (y_last_entry C B s Hz) as (Hli & _).
  unfold yup. rewrite Hl, Htk, Hsn, Hb, Hf.
  assert (Hz' : yup C' B s) by (eapply yshape_mono; [intros x Hx; right; exact Hx|apply N.le_refl..|exact Hz]).
  apply (yshape_store C' HC' B _ _ _ _ _ _ Hz' (d_term s') (d_log s) [e] (last_entry s) Hdt (log_sub_refl _)).
  - discriminate.
  - split; [rewrite Hli; reflexivity|exact I].
  - split; [intros _; left; reflexivity|exact I].
  - intros x [<-|[]]. split; [exists (last_entry s); left; reflexivity|]. change (e_term e) with (v_term s). lia.
  - intros i y Hy Hbi. pose proof (yshape_bound C' B _ _ _ _ _ _ i y HC' Hz' Hy Hbi) as Hle.
    unfold last_entry. destruct (N.leb_spec (v_lastSnapIdx s) (v_lastLogIdx s)) as [_|Hgt]; [split; [exact Hle|apply (ys_above Hz' i y Hy Hbi)]|].
    exfalso. destruct (ys_b Hz) as [Y _]. unfold topk in Hle. simpl in *. lia.
Qed.

Section Y.
  Variable C : chain.
  Hypothesis HC : chain_ok C.
  Variables (B : N) (s : nstate) (a : areq).
  Hypothesis HS : yup C B s.
  Hypothesis Hrq : yrq B C a.
  Hypothesis HT : d_term s <= aq_term a.
  Hypothesis Hpk : prev_ok s a.

  Section News.
  Variables dup news : list entry.
  Hypothesis Hes : aq_entries a = dup ++ news.
  Hypothesis Hdup : forall e, In e dup -> exists se, d_log s !! e_idx e = Some se /\ e_term se = e_term e.

  Let qk := pred_key a dup.

  Lemma y_news_contig : contig (fst qk) news /\ ychain C B qk news.
  Proof.
    destruct Hrq as (Hc & _ & Hy & _). rewrite Hes in Hc, Hy. destruct (contig_app _ _ _ Hc) as (Hcd & Hcn & _).
    split; [unfold qk; rewrite (pred_key_fst a dup Hcd); exact Hcn|exact (proj2 (ychain_app C B _ dup news Hy))].
  Qed.

  (* its term, its index 0 only for the root, and - if it lies above B - everything the log holds above B and at or
     below it is one of its ancestors *)
  Lemma y_qk : snd qk <= aq_term a /\ (fst qk = 0 -> qk = (0, 0)) /\
    (B < fst qk -> forall i y, d_log s !! i = Some y -> B < i -> i <= fst qk -> anc C (key y) qk).
  Proof.
    unfold qk. destruct Hrq as (_ & _ & _ & Hpt & Hpz). destruct (ys_b HS) as [Hbb _]. simpl in Hbb.
    destruct (pred_key_src s a dup (log_in_keys C _ _ (ys_in HS)) Hpk Hdup) as [[Eq Hsrc]|(x & Hx & Ex)].
    - rewrite Eq. simpl. split; [exact Hpt|]. split; [intros E; rewrite E, (Hpz E); reflexivity|]. intros Hb.
      destruct Hsrc as [E0|[El|Eb]]; [lia| |exfalso; apply (f_equal fst) in Eb; simpl in Eb; lia].
      rewrite El. unfold last_entry in *. destruct (N.leb_spec (v_lastSnapIdx s) (v_lastLogIdx s)) as [Hle|Hgt].
      + intros i y Hyy Hbi _. apply (ys_above HS i y Hyy Hbi).
      + exfalso. apply (f_equal fst) in El. simpl in El. lia.
    - destruct (ys_in HS _ x Hx) as (Ix & (p & Pp) & Tx). destruct (co_idx C HC x p Pp) as [Ip _]. rewrite <- Ex.
      split; [simpl; lia|]. split; [simpl; lia|]. intros Hb i y Hyy Hbi Hle.
      apply (anc_linear C (key y) (key x) (topk s) HC (ys_above HS i y Hyy Hbi)); [|destruct (ys_in HS i y Hyy) as (Iy & _); unfold key in *; simpl in *; lia].
      apply (ys_above HS _ x Hx). rewrite <- Ex. exact Hb.
  Qed.
  End News.

  Theorem ae_logY_yshape m' k' : ae_logY (d_log s) (v_lastLogIdx s) a m' k' ->
    yshape C B (aq_term a) m' (d_snaps s) k' (rawb s) (v_fsmLast s).
  Proof.
    intros (dup & news & Hes & Hnn & Hdup & Hcase).
    destruct (y_news_contig dup news Hes) as [Hcn Hyn].
    destruct (y_qk dup Hdup) as (Q1 & Q2 & Q3).
    set (qk := pred_key a dup) in *.
    assert (Hnc : forall e, In e news -> (exists p, In (e, p) C) /\ e_term e <= aq_term a).
    { intros e He. apply Hrq. rewrite Hes. apply in_app_iff. auto. }
    assert (Hhd : e_idx (hd (mkE 0 0 0 0) news) = fst qk + 1) by (apply contig_hd; assumption).
    (* the new entries are stored over a sub-log that holds nothing above B beyond qk *)
    assert (Hstore : forall m0, log_sub m0 (d_log s) -> (forall i y, m0 !! i = Some y -> B < i -> i <= fst qk) ->
              yshape C B (aq_term a) (log_store m0 news) (d_snaps s) (key (last_of news)) (rawb s) (v_fsmLast s)).
    { intros m0 Hsub Hle. apply (yshape_store C HC B _ _ _ _ _ _ HS (aq_term a) m0 news qk HT Hsub Hnn Hcn Hyn Hnc).
      intros i y Hy Hb. pose proof (Hle i y Hy Hb) as Hiq. split; [exact Hiq|]. apply (Q3 ltac:(lia) i y (Hsub i y Hy) Hb Hiq). }
    destruct Hcase as [(-> & -> & Hnew)|(c & _ & Hc0 & Hcl & Hcase)].
    - apply Hstore; [apply log_sub_refl|]. intros i y Hyy Hb.
      pose proof (yshape_bound C B _ _ _ _ _ _ i y HC HS Hyy Hb) as Hbd. simpl in Hbd.
      assert (Hin : In (hd (mkE 0 0 0 0) news) news) by (destruct news; [congruence|left; reflexivity]).
      pose proof (Hnew _ Hin). lia.
    - assert (Hdel : forall i y, log_delete (d_log s) c (v_lastLogIdx s) !! i = Some y -> B < i -> i <= fst qk).
      { intros i y Hyy Hb. destruct (log_delete_some _ _ _ _ _ Hyy) as [Hm Hr].
        pose proof (yshape_bound C B _ _ _ _ _ _ i y HC HS Hm Hb) as Hbd. simpl in Hbd. lia. }
      destruct Hcase as [(-> & ->)|(-> & ->)]; [|apply Hstore; [apply log_delete_sub|exact Hdel]].
      rewrite (conflict_pred_app a dup news Hes). fold qk. apply (yshape_log C B _ _ _ _ _ _ HS _ _ _ HT); [|  |exact Q1|exact Q2].
      + eapply log_in_sub; [apply log_delete_sub|exact HT|apply (ys_in HS)].
      + intros i y Hyy Hb. pose proof (Hdel i y Hyy Hb) as Hle. apply (Q3 ltac:(lia) i y (log_delete_sub _ _ _ i y Hyy) Hb Hle).
  Qed.
End Y.

(* every (term, log) pair the handler reaches, with the cached key that goes with it *)
Theorem ae_reachY_yshape C B s a d k : chain_ok C -> yup C B s -> yrq B C a ->
  ae_reachY s a d k -> yshape C B (fst d) (snd d) (d_snaps s) k (rawb s) (v_fsmLast s).
Proof.
  intros HC HS Hrq [[-> ->]|(HT & Ht & [[-> ->]|[Hpk Hlog]])].
  - exact HS.
  - rewrite Ht. eapply yshape_mono; [apply incl_refl|apply N.le_refl|exact HT|exact HS].
  - rewrite Ht. apply (ae_logY_yshape C HC B s a HS Hrq HT Hpk), Hlog.
Qed.

Lemma get_range_y C B m T tk : chain_ok C -> log_in C m T -> (forall i e, m !! i = Some e -> B < i -> anc C (key e) tk) ->
  forall n from es p, get_range m from n = Some es -> fst p + 1 = from -> (B < fst p -> anc C p tk) ->
  contig (fst p) es /\ ychain C B p es /\ forall e, In e es -> (exists q, In (e, q) C) /\ e_term e <= T.
Proof.
  intros HC Hin Hab. induction n as [|n IH]; intros from es p Hg Hf Hp; simpl in Hg.
  - inversion Hg; subst. split; [exact I|]. split; [exact I|intros e []].
  - destruct (m !! from) as [e|] eqn:Ee; [|discriminate].
    destruct (get_range m (from + 1) n) as [r|] eqn:Er; [|discriminate]. inversion Hg; subst es. clear Hg.
    destruct (Hin from e Ee) as (Hk & (p0 & Hp0) & Ht).
    destruct (IH (from + 1) r (key e) Er) as (I1 & I2 & I3).
    { unfold key. simpl. lia. }
    { intros Hb. apply (Hab from e Ee). unfold key in Hb. simpl in Hb. lia. }
    split; [|split].
    + simpl. split; [lia|]. unfold key in I1. simpl in I1. rewrite Hk in I1. rewrite Hf. exact I1.
    + simpl. split; [|exact I2]. intros Hb. specialize (Hp Hb).
      assert (Ha : anc C (key e) tk) by (apply (Hab from e Ee); lia).
      assert (Hpe : anc C p (key e)) by (apply (anc_linear C p (key e) tk HC Hp Ha); unfold key; simpl; lia).
      rewrite (anc_pred C p e p0 HC Hp0 Hpe); [exact Hp0|lia].
    + intros x [<-|Hx]; [split; [exists p0; exact Hp0|exact Ht]|apply I3, Hx].
Qed.

Theorem setup_send_y C B P s next last pi pt es c i : chain_ok C -> yup C B s -> 1 <= next ->
  setup_send P s next last = SendAE pi pt es c -> yrq B C (mkAReq (d_term s) i i pi pt es c).
Proof.
  intros HC Hz Hnext H. apply setup_send_spec in H. destruct H as (Ep & Eg & ->). pose proof Hz as [A1 A2 A3 A4 A5 A6 A7].
  (* the previous key is the root, the snapshot boundary (at or below B) or the key of a held entry *)
  assert (Hp : pi + 1 = next /\ (B < pi -> anc C (pi, pt) (topk s)) /\ pt <= d_term s /\ (pi = 0 -> pt = 0)).
  { destruct A6 as [Y1 Y2]. simpl in Y1, Y2.
    destruct (prev_of_cases _ _ _ Ep) as [[E E2]|[(E & E2 & E3)|(pe & Hpe & E & E3)]]; inversion E; subst.
    - repeat split; lia.
    - split; [lia|]. split; [lia|]. split; [apply Y2; lia|lia].
    - destruct (A1 _ pe Hpe) as (I & _ & Ht). split; [lia|]. split; [intros Hb; apply (A2 _ pe Hpe); lia|]. split; [exact Ht|lia]. }
  destruct Hp as (P1 & P2 & P3 & P4).
  destruct (get_range_y C B (d_log s) (d_term s) (topk s) HC A1 A2 _ next es (pi, pt) Eg P1 P2) as (G1 & G2 & G3).
  unfold yrq. simpl in *. auto 6.
Qed.

Definition snap_of_req (q : ireq) : snapshot := mkSnap (iq_lastIdx q) (iq_lastTerm q) (iq_cfg q) (iq_cfgIdx q) (iq_data q) true.

(* the state after the handler, against the state s2 it started the body from *)
Definition inst_same (s2 s' : nstate) : Prop :=
  d_log s' = d_log s2 /\ d_snaps s' = d_snaps s2 /\ topk s' = topk s2 /\ rawb s' = rawb s2 /\ v_fsmLast s' = v_fsmLast s2.

Definition inst_stored (q : ireq) (s2 s' : nstate) : Prop :=
  d_snaps s' = d_snaps s2 ++ [snap_of_req q] /\ rawb s' = (iq_lastIdx q, iq_lastTerm q) /\ v_fsmLast s' = (iq_lastIdx q, iq_lastTerm q) /\
  log_sub (d_log s') (d_log s2) /\
  (* when the cached last log is reset to (0, 0) everything from the snapshot index up to the old cached
     last index is gone (or the whole store, for a monotonic store) *)
  (topk s' = topk s2 \/
   (topk s' = (0, 0) /\ forall i e, d_log s' !! i = Some e -> i = 0 \/ i < iq_lastIdx q \/ v_lastLogIdx s2 < i)).

(* below the term check the handler leaves term, role and durable term alone (Proofs/NodeFrame.v) *)
Lemma is_body_terms P s2 rt tr1 fs1 q s' r tr fs' : is_body P s2 rt tr1 fs1 q = Done s' r tr fs' ->
  (d_term s', v_role s', v_term s') = (d_term s2, v_role s2, v_term s2).
Proof.
  intros H.
  assert (Hf : body_frame (fun s => (d_term s, v_role s, v_term s)) (fun _ => True) s2 tr1 (is_body P s2 rt tr1 fs1 q))
    by (apply is_body_frame; intros; reflexivity || exact I).
  rewrite H in Hf. apply Hf.
Qed.

Lemma is_body_done P s2 rt tr1 fs1 q s' r tr fs' : is_body P s2 rt tr1 fs1 q = Done s' r tr fs' ->
  inst_same s2 s' \/ inst_stored q s2 s'.
Proof.
  intros H. destruct (is_body_spec P s2 rt tr1 fs1 q) as (s1 & r1 & t1 & f1 & E & _ & Hs).
  rewrite H in E. injection E as <- _ _ _. destruct Hs as [[-> _]|(_ & m' & [(-> & Hm & _)|[-> Hm]])].
  - left. repeat split.
  - right. repeat split; [|left; reflexivity]. cbn.
    destruct Hm as [->|(lo & hi & -> & _)]; [apply log_sub_refl|apply log_delete_sub].
  - (* the cached last entry was reset: what the store still holds lies outside the deleted range *)
    right. split; [reflexivity|]. split; [reflexivity|]. split; [reflexivity|]. cbn [d_log set_lastlog set_log].
    assert (Hs : log_sub m' (d_log s2) /\ forall i e, m' !! i = Some e -> i = 0 \/ i < iq_lastIdx q \/ v_lastLogIdx s2 < i).
    { destruct (p_monotonic P).
      - destruct (remove_old (log_first (d_log s2)) (log_last (d_log s2))) as [[lo hi]|] eqn:Er; subst m'.
        + pose proof (compaction_range _ _ _ _ _ _ Er) as (Elo & _). pose proof (compaction_max _ _ _ _ _ _ Er) as Ehi.
          split; [apply log_delete_sub|]. intros i e He. exfalso. destruct (log_delete_some _ _ _ _ _ He) as [Hm Hr].
          pose proof (log_first_le _ i e Hm) as F1. pose proof (log_last_ge _ i e Hm) as F2. lia.
        + (* nothing to delete: the store is empty *)
          split; [apply log_sub_refl|]. intros i e He.
          pose proof (log_first_le _ i e He). pose proof (log_last_ge _ i e He). apply compaction_none in Er. lia.
      - subst m'. split; [apply log_delete_sub|]. intros i e He. destruct (log_delete_some _ _ _ _ _ He) as [_ Hr]. lia. }
    split; [apply Hs|]. right. split; [reflexivity|apply Hs].
Qed.

Lemma install_done P s fs q s' r tr fs' : wfu s -> install_snapshot P s fs q = Done s' r tr fs' ->
  s' = s \/
  (v_term s <= iq_term q /\ d_term s' = iq_term q /\
   (v_role s' = Follower \/ (v_role s' = v_role s /\ v_term s' = v_term s)) /\
   (inst_same s s' \/ inst_stored q s s')).
Proof.
  intros [Hwd Hvt] H.
  destruct (install_snapshot_done _ _ _ _ _ _ _ _ H) as [(_ & -> & _)|(s2 & tr1 & fs1 & (Hle & Hat) & Hb)]; [left; reflexivity|right].
  injection (is_body_terms _ _ _ _ _ _ _ _ _ _ Hb) as E1 E2 E3. apply is_body_done in Hb as Hc.
  split; [exact Hle|]. destruct Hat as [(He & -> & _)|(-> & _)].
  - split; [rewrite E1; simpl; lia|]. split; [right; split; [exact E2|exact E3]|exact Hc].
  - split; [exact E1|]. split; [left; exact E2|exact Hc].
Qed.

(* an image of the handler: the term is T, the log a sub-log, the snapshot store gained copies of the request's snapshot *)
Definition inst_img (s : nstate) (q : ireq) (T : N) (d : dimg) : Prop :=
  di_term d = T /\ log_sub (di_log d) (d_log s) /\ exists k, di_snaps d = d_snaps s ++ repeat (snap_of_req q) k.

Lemma inst_img_step P s q T d e : snap_ev e -> inst_img s q T d -> inst_img s q T (d_apply P (Some (snap_of_req q)) d e).
Proof.
  intros He Hd. pose proof Hd as (A & D & k & E). unfold inst_img.
  destruct e as [t ok|t ok|c ok|es ok|lo hi ok|c|i t ok|e0|i|dd]; try contradiction; simpl; try exact Hd.
  - destruct ok; [|exact Hd]. simpl.
    split; [exact A|]. split; [intros j x Hx; apply D, (log_delete_sub _ _ _ j x Hx)|exists k; exact E].
  - destruct ok; [|exact Hd]. simpl.
    split; [exact A|]. split; [exact D|]. exists (S k). rewrite E, <- app_assoc. f_equal.
    change (repeat (snap_of_req q) k ++ [snap_of_req q]) with (repeat (snap_of_req q) k ++ repeat (snap_of_req q) 1). rewrite <- repeat_app. f_equal. lia.
Qed.

Lemma inst_img_fold P s q T tr : Forall snap_ev tr -> forall j d, inst_img s q T d ->
  inst_img s q T (fold_left (d_apply P (Some (snap_of_req q))) (firstn j tr) d).
Proof.
  intros Hall. induction Hall as [|e r He Hr IH]; intros j d Hd; [destruct j; exact Hd|].
  destruct j as [|j]; [exact Hd|]. simpl. apply IH. apply inst_img_step; assumption.
Qed.

(* every crash image: the old term with the old stores, or the request's term (not below the old one) *)
Lemma install_images P s fs q j : wfu s ->
  let d := fold_left (d_apply P (Some (snap_of_req q))) (firstn j (trace_of (install_snapshot P s fs q))) (dpr s) in
  d = dpr s \/ (d_term s <= iq_term q /\ inst_img s q (iq_term q) d).
Proof.
  intros [Hwd Hvt]. cbv zeta.
  assert (H0 : inst_img s q (d_term s) (dpr s)).
  { split; [reflexivity|]. split; [apply log_sub_refl|exists 0%nat; simpl; rewrite app_nil_r; reflexivity]. }
  destruct (install_snapshot_enter P s fs q) as [[_ E]|[[_ E]|(s2 & tr1 & fs1 & (Hle & Hat) & E)]]; rewrite E.
  - left. destruct j; reflexivity.
  - left. destruct j as [|[|j]]; reflexivity.
  - destruct (is_body_spec P s2 (iq_term q) tr1 fs1 q) as (s' & r & tr & fs' & -> & (x & -> & Hx) & _). cbn [trace_of]. destruct Hat as [(He & _ & ->)|(_ & ->)].
    + right. split; [lia|]. cbn [app]. apply (inst_img_fold P s q (iq_term q) x Hx j). replace (iq_term q) with (d_term s) by lia. exact H0.
    + destruct j as [|j]; [left; reflexivity|right]. split; [lia|]. cbn [app firstn fold_left].
      apply (inst_img_fold P s q (iq_term q) x Hx j). destruct H0 as (_ & A & B). split; [reflexivity|]. split; assumption.
Qed.

Lemma recover_yup C B P img s tr : chain_ok C -> p_rc P = false -> yimg C B img -> recover P img = RecOk s tr -> yup C B s.
Proof.
  intros HC Hrc [Hin (top & Hab) Hsn] ER.
  pose proof (recover_ok P img s tr (log_in_keys C _ _ Hin) ER) as (Hd & _ & _ & Hli & Hlt & _).
  destruct Hd as (Dt & _ & _ & Dl & _ & _ & Ds).
  destruct (recover_snap P img s tr Hrc ER) as (_ & Hf & Hbk & _).
  unfold yup. rewrite Dt, Dl, Ds, Hf. set (m := d_log img) in *.
  assert (Htk : snd (topk s) <= d_term img /\ (fst (topk s) = 0 -> topk s = (0, 0)) /\
                forall i e, m !! i = Some e -> B < i -> anc C (key e) (topk s)).
  { destruct (recover_keys P img s tr (log_in_keys C _ _ Hin) ER) as (_ & Htop & _). change (cached_key s) with (topk s) in Htop. fold m in Htop.
    destruct Htop as [[E0 ->]|(le & Hle & ->)].
    - split; [simpl; lia|]. split; [reflexivity|].
      intros i x Hx _. exfalso. pose proof (log_in_pos C _ _ i x HC Hin Hx). pose proof (log_last_ge _ i x Hx). lia.
    - destruct (Hin _ le Hle) as (Hk & _ & Hterm). pose proof (log_in_pos C _ _ _ le HC Hin Hle).
      split; [exact Hterm|]. split; [unfold key; simpl; lia|]. apply (top_dominates C B _ _ top le HC Hin Hab Hle). }
  destruct Htk as (K1 & K2 & K3).
  constructor; try assumption.
  - unfold rawb. destruct (find sn_ok (list_snaps (d_snaps img))) as [sn|] eqn:EF.
    + destruct Hbk as (E1 & E2 & _). rewrite E1, E2. apply find_some in EF. destruct EF as [EF _]. destruct (list_snaps_spec (d_snaps img)) as [_ Hm]. apply Hm in EF.
      destruct (Hsn sn EF). simpl. split; [assumption|intros _; assumption].
    + destruct Hbk as [E1 _]. rewrite E1. simpl. split; [lia|congruence].
  - simpl. congruence.
Qed.

Lemma boot_ynlog C B P img r out : chain_ok C -> p_rc P = false -> yimg C B img -> boot P img = (r, out) ->
  ynlog C B r /\ d_term (image r) = d_term img /\ d_log (image r) = d_log img /\ d_snaps (image r) = d_snaps img /\
  (forall s, r = Up s -> v_role s = Follower).
Proof.
  intros HC Hrc Himg HB. destruct (boot_image P img r out (log_in_keys C _ _ (yi_in _ _ _ _ _ Himg)) HB) as [E Hf].
  injection E as E1 E2 E3 _ _. split; [|auto].
  destruct (boot_cases _ _ _ _ HB) as [(s & tr & ER & ->)| ->]; [apply (recover_yup C B P img s tr HC Hrc Himg ER)|exact Himg].
Qed.

Definition yimgD (C : chain) (B : N) (d : dimg) : Prop := yimgS C B (di_term d) (di_log d) (di_snaps d).

Lemma finish_y {R} C B P (enc : R -> list N) (mk : R -> nobs) si s cut (o : outcome R) r' ob out :
  chain_ok C -> p_rc P = false ->
  (forall j, yimgD C B (fold_left (d_apply P si) (firstn j (trace_of o)) (dpr s))) ->
  (forall s' r tr fs', o = Done s' r tr fs' -> yup C B s') ->
  finish P enc mk si s cut o = (r', ob, out) ->
  ynlog C B r' /\
  ((exists s1 r tr fs', o = Done s1 r tr fs' /\ r' = Up s1 /\ ob = mk r) \/ (ob = OLost /\ crashed P s si (trace_of o) r')).
Proof.
  intros HC Hrc. apply (finish_I P (yup C B) (yimgD C B)).
  - intros d H. apply (log_in_keys C _ _ (yi_in _ _ _ _ _ H)).
  - intros img rr oo Hi HB. apply (boot_ynlog C B P img rr oo HC Hrc Hi HB).
Qed.

Lemma yup_keep C B s s' : yup C B s -> rest s' = rest s -> d_term s <= d_term s' -> yup C B s'.
Proof.
  intros H K Ht. unfold yup, topk, rawb in *. injection K; intros.
  repeat match goal with X : _ s' = _ s |- _ => rewrite ?X; clear X end.
  eapply yshape_mono; [apply incl_refl|apply N.le_refl|exact Ht|exact H].
Qed.

(* what the cluster-level proof needs from one event at one server *)
Definition ypost (C : chain) (B : N) (r r' : nrun) : Prop :=
  ynlog C B r' /\ incl (d_snaps (image r)) (d_snaps (image r')).

Lemma ypost_refl C B r : ynlog C B r -> ypost C B r r.
Proof. intros H. split; [exact H|apply incl_refl]. Qed.

(* RequestVote, pre-vote, restart, TimeoutNow at one server *)
Lemma simple_step_y C B P r e cut fs r' ob out : chain_ok C -> p_rc P = false -> wfr r -> ynlog C B r ->
  simple_event e -> step_full P r e cut fs = (r', ob, out) -> ypost C B r r'.
Proof.
  intros HC Hrc Hw Hn He HF.
  destruct (simple_step_I P (yup C B) (yimgD C B)) with r e cut fs r' ob out as [A D]; try assumption.
  - intros s. apply yshape_img.
  - intros d H. apply (log_in_keys C _ _ (yi_in _ _ _ _ _ H)).
  - intros img rr oo Hi HB. apply (boot_ynlog C B P img rr oo HC Hrc Hi HB).
  - intros d t H Ht. eapply yimgS_mono; [apply incl_refl|apply N.le_refl|exact Ht|exact H].
  - apply yup_keep.
  - split; [exact A|].
    destruct D as [<-|[(s & s1 & -> & -> & K & _)|(img & oo & t & _ & E1 & _ & E2 & _)]]; [apply incl_refl| |].
    + destruct (rest_fields _ _ K) as (_ & (_ & Ks & _) & _). simpl. rewrite Ks. apply incl_refl.
    + assert (E : d_snaps (image r') = d_snaps (image r)) by (change (di_snaps (dpr (image r')) = di_snaps (dpr (image r))); rewrite E1, E2; reflexivity).
      rewrite E. apply incl_refl.
Qed.

Theorem deliver_step_y C B P s a cut fs r' ob out :
  chain_ok C -> p_rc P = false -> wfu s -> yup C B s -> yrq B C a ->
  step_full P (Up s) (NAppend a) cut fs = (r', ob, out) ->
  ynlog C B r' /\ d_snaps (image r') = d_snaps s.
Proof.
  intros HC Hrc Hw Hz Hrq HF.
  destruct (append_reachY P s fs a Hw (proj1 Hrq)) as [Hpre Hdone].
  rewrite step_append in HF. set (o := append_entries P s fs a) in *.
  assert (Himg : forall j, yimgD C B (fold_left (d_apply P None) (firstn j (trace_of o)) (dpr s))).
  { intros j. destruct (image_tl P s (trace_of o) j) as (Es & j' & Ej). cbv zeta in Es, Ej.
    destruct (Hpre j') as [k1 Hr]. fold o in Hr. rewrite <- Ej in Hr.
    pose proof (ae_reachY_yshape C B s a _ _ HC Hz Hrq Hr) as Hsh. simpl in Hsh.
    unfold yimgD. rewrite Es. apply (yshape_img _ _ _ _ _ _ _ _ Hsh). }
  assert (Hdn : forall s1 r tr fs', o = Done s1 r tr fs' -> yup C B s1 /\ d_snaps s1 = d_snaps s).
  { intros s1 r tr fs' Ho.
    assert (Hr : ae_reachY s a (tlp s1) (topk s1)) by (apply Hdone; fold o; rewrite Ho; reflexivity).
    pose proof (ae_reachY_yshape C B s a _ _ HC Hz Hrq Hr) as Hsh. simpl in Hsh.
    pose proof (append_done_sf P s fs a s1 r tr fs' Ho (log_in_keys C _ _ (ys_in Hsh))) as (S1 & S2 & S3 & S4).
    split; [|exact S1]. unfold yup, rawb. rewrite S1, S2, S3. destruct Hsh as [A1 A2 A3 A4 A5 A6 A7].
    constructor; try assumption.
    destruct S4 as [[_ E]|(_ & _ & [E|(e & He & _ & E)])]; [rewrite E; exact A7|rewrite E; exact A7|].
    intros _. rewrite E. destruct (A1 _ e He) as (_ & _ & Ht). exact Ht. }
  destruct (finish_y C B P _ _ None s cut o r' ob out HC Hrc Himg (fun s1 r tr fs' Ho => proj1 (Hdn s1 r tr fs' Ho)) HF)
    as (A & [(s1 & rr & tr & fs' & Ho & -> & _)|(_ & img & oo & j & _ & E1 & E2 & F)]).
  - split; [exact A|]. simpl. apply (Hdn s1 rr tr fs' Ho).
  - split; [exact A|]. destruct (image_tl P s (trace_of o) j) as (Es & _). cbv zeta in Es. rewrite <- E2, <- E1 in Es. exact Es.
Qed.

Lemma snap_of_idx s : sn_idx (snap_of s) = fst (v_fsmLast s) /\ sn_term (snap_of s) = snd (v_fsmLast s).
Proof. split; reflexivity. Qed.

(* the stores with the new snapshot: the bound moves up to its index *)
Lemma snap_stored_y C B s m' : yup C B s -> fst (v_fsmLast s) <> 0 -> log_sub m' (d_log s) ->
  yshape C (N.max B (fst (v_fsmLast s))) (d_term s) m' (d_snaps s ++ [snap_of s]) (topk s) (v_fsmLast s) (v_fsmLast s).
Proof.
  intros [A1 A2 A3 A4 A5 A6 A7] Hnz Hsub. constructor; try assumption.
  - eapply log_in_sub; [exact Hsub|apply N.le_refl|exact A1].
  - intros i e He Hb. apply (A2 i e (Hsub i e He)). lia.
  - intros sn Hsn. apply in_app_iff in Hsn. destruct Hsn as [Hsn|[<-|[]]].
    + destruct (A5 sn Hsn). split; [lia|assumption].
    + simpl. split; [lia|apply A7, Hnz].
  - split; [lia|exact A7].
Qed.

Lemma max_list_ge (l : list N) x : In x l -> x <= fold_right N.max 0 l.
Proof. induction l as [|y r IH]; [intros []|]. intros [->|H]; simpl; [lia|specialize (IH H); lia]. Qed.

Lemma max_snap_of_ge s sn : In sn (d_snaps s) -> sn_idx sn <= max_snap_of s.
Proof. intros H. apply max_list_ge, in_map, H. Qed.

(* takeSnapshot at a server, running or not: the bound moves up at most to the index of a snapshot the server then stores *)
Theorem snapshot_step_y C B P r cut fs r' ob out : chain_ok C -> p_rc P = false -> ynlog C B r ->
  step_full P r NSnapshot cut fs = (r', ob, out) ->
  exists B', B <= B' /\ B' <= N.max B (max_snap_of (image r')) /\ ypost C B' r r'.
Proof.
  intros HC Hrc Hn HF. destruct r as [s|s]; [|simpl in HF; inversion HF; subst; exists B; split; [lia|split; [lia|apply ypost_refl, Hn]]].
  pose proof Hn as Hz. simpl in Hz. set (G := ex _).
  (* nothing was stored and the bound stays, or snap_of s was and the bound moves up to its index *)
  assert (Hold : ynlog C B r' -> d_snaps (image r') = d_snaps s -> G).
  { intros A Es. exists B. split; [lia|]. split; [lia|]. split; [exact A|]. simpl. rewrite Es. apply incl_refl. }
  assert (Hnew : ynlog C (N.max B (fst (v_fsmLast s))) r' -> d_snaps (image r') = d_snaps s ++ [snap_of s] -> G).
  { intros A Es. exists (N.max B (fst (v_fsmLast s))). split; [lia|]. split; [|split; [exact A|simpl; rewrite Es; apply incl_appl, incl_refl]].
    assert (fst (v_fsmLast s) <= max_snap_of (image r')); [|lia].
    apply (max_snap_of_ge _ (snap_of s)). rewrite Es. apply in_app_iff. right. left. reflexivity. }
  clearbody G. rewrite step_snapshot_of in HF.
  destruct (finish_replay P _ _ (Some (snap_of s)) s cut _ r' ob out HF) as [(s1 & r & tr & fs' & Ho & -> & ->)|(img & oo & j & HB & -> & Hj)].
  - destruct (take_done P s fs s1 r tr fs' Ho) as [->|(Hnz & m' & -> & Hm)]; [apply Hold; [exact Hz|reflexivity]|].
    apply Hnew; [|reflexivity].
    assert (Hsub : log_sub m' (d_log s)) by (destruct Hm as [->|(lo & hi & -> & _)]; [apply log_sub_refl|apply log_delete_sub]).
    simpl. unfold yup, topk, rawb. cbn [d_term d_log d_snaps v_lastLogIdx v_lastLogTerm v_lastSnapIdx v_lastSnapTerm v_fsmLast set_log set_lastsnap set_snaps].
    pose proof (snap_stored_y C B s m' Hz Hnz Hsub) as H. destruct (v_fsmLast s) as [a b]. exact H.
  - destruct (prefix_dlf P (Some (snap_of s)) (trace_of (take_snapshot P s fs)) (dpr s) j) as (j' & Ej). rewrite Ej in Hj.
    pose proof (take_images P s fs j') as H. cbv zeta in H. rewrite <- Hj in H. destruct H as (Et & _ & _ & Heff). simpl in Et, Heff.
    pose proof (snap_eff_sub s _ _ Heff) as Hsub. destruct Heff as [[El Es]|(Hnz & Es & _)].
    + assert (Himg : yimg C B img) by (unfold yimg; rewrite Et, El, Es; apply (yshape_img _ _ _ _ _ _ _ _ Hz)).
      destruct (boot_ynlog C B P img r' oo HC Hrc Himg HB) as (A & _ & _ & Ds & _). apply Hold; [exact A|congruence].
    + assert (Himg : yimg C (N.max B (fst (v_fsmLast s))) img)
        by (unfold yimg; rewrite Et, Es; apply (yshape_img _ _ _ _ _ _ _ _ (snap_stored_y C B s _ Hz Hnz Hsub))).
      destruct (boot_ynlog C _ P img r' oo HC Hrc Himg HB) as (A & _ & _ & Ds & _). apply Hnew; [exact A|congruence].
Qed.

Lemma yimgS_more C B T m sns extra : yimgS C B T m sns -> (forall sn, In sn extra -> sn_idx sn <= B /\ sn_term sn <= T) ->
  yimgS C B T m (sns ++ extra).
Proof.
  intros [A1 A2 A3] He. constructor; [exact A1|exact A2|].
  intros sn Hsn. apply in_app_iff in Hsn. destruct Hsn as [Hsn|Hsn]; [apply A3, Hsn|apply He, Hsn].
Qed.

Lemma inst_stored_y C B s s' q : chain_ok C -> yup C B s -> d_term s <= iq_term q -> d_term s' = iq_term q ->
  iq_lastIdx q <= B -> iq_lastTerm q <= iq_term q -> inst_stored q s s' -> yup C B s'.
Proof.
  intros HC Hz Ht Et Hqi Hqt (E1 & E2 & E3 & Hsub & Htk). pose proof Hz as [A1 A2 A3 A4 A5 A6 A7].
  unfold yup. rewrite E1, E2, E3, Et. constructor.
  - eapply log_in_sub; [exact Hsub|exact Ht|exact A1].
  - intros i e He Hb. destruct Htk as [->|[_ Hres]]; [apply (A2 i e (Hsub i e He) Hb)|]. exfalso.
    pose proof (yshape_bound _ _ _ _ _ _ _ _ i e HC Hz (Hsub i e He) Hb) as Hle. unfold topk in Hle. simpl in Hle.
    destruct (Hres i e He) as [H|[H|H]]; lia.
  - destruct Htk as [->|[-> _]]; [lia|simpl; lia].
  - destruct Htk as [->|[-> _]]; [exact A4|reflexivity].
  - intros sn Hsn. apply in_app_iff in Hsn. destruct Hsn as [Hsn|[<-|[]]]; [destruct (A5 sn Hsn); split; lia|simpl; split; assumption].
  - simpl. split; [exact Hqi|intros _; exact Hqt].
  - simpl. intros _. exact Hqt.
Qed.

Theorem install_step_y C B P r q cut fs r' ob out :
  chain_ok C -> p_rc P = false -> wfr r -> ynlog C B r ->
  iq_lastIdx q <= B -> iq_lastTerm q <= iq_term q ->
  step_full P r (NInstall q) cut fs = (r', ob, out) ->
  ypost C B r r' /\
  forall s', r' = Up s' -> v_role s' = Leader ->
    exists s, r = Up s /\ (s' = s \/ (v_role s = Leader /\ v_term s' = v_term s /\ d_term s' = iq_term q)).
Proof.
  intros HC Hrc Hw Hz Hqi Hqt HF.
  destruct r as [s|s]; [|simpl in HF; inversion HF; subst; split; [apply ypost_refl, Hz|discriminate]].
  pose proof Hw as [_ Hvt]. simpl in Hz.
  rewrite step_install in HF. change (mkSnap (iq_lastIdx q) (iq_lastTerm q) (iq_cfg q) (iq_cfgIdx q) (iq_data q) true) with (snap_of_req q) in HF.
  set (o := install_snapshot P s fs q) in *.
  assert (Himg : forall j, let d := fold_left (d_apply P (Some (snap_of_req q))) (firstn j (trace_of o)) (dpr s) in
                   yimgD C B d /\ incl (d_snaps s) (di_snaps d)).
  { intros j. pose proof (install_images P s fs q j Hw) as H. cbv zeta in *. fold o in H. unfold yimgD.
    destruct H as [->|(Ht & E1 & Hsub & kk & E3)].
    - simpl. split; [apply (yshape_img _ _ _ _ _ _ _ _ Hz)|apply incl_refl].
    - rewrite E1, E3. split; [|apply incl_appl, incl_refl].
      apply yimgS_more.
      + eapply yimgS_sub; [exact Hsub|]. eapply yimgS_mono; [apply incl_refl|apply N.le_refl|exact Ht|apply (yshape_img _ _ _ _ _ _ _ _ Hz)].
      + intros sn Hsn. apply repeat_spec in Hsn. subst sn. simpl. split; assumption. }
  assert (Hdn : forall s1 r tr fs', o = Done s1 r tr fs' -> yup C B s1 /\ incl (d_snaps s) (d_snaps s1)).
  { intros s1 r tr fs' Ho. destruct (install_done P s fs q s1 r tr fs' Hw Ho) as [->|(Hle & Et & _ & [Hs|Hs])].
    - split; [exact Hz|apply incl_refl].
    - destruct Hs as (E1 & E2 & E3 & E4 & E5). split; [|rewrite E2; apply incl_refl].
      unfold yup. rewrite E1, E2, E3, E4, E5, Et. eapply yshape_mono; [apply incl_refl|apply N.le_refl| |exact Hz]. lia.
    - split; [|destruct Hs as (E1 & _); rewrite E1; apply incl_appl, incl_refl].
      apply (inst_stored_y C B s s1 q HC Hz); auto. lia. }
  destruct (finish_y C B P _ _ (Some (snap_of_req q)) s cut o r' ob out HC Hrc (fun j => proj1 (Himg j)) (fun s1 r tr fs' Ho => proj1 (Hdn s1 r tr fs' Ho)) HF)
    as (A & [(s1 & rr & tr & fs' & Ho & -> & _)|(_ & img & oo & j & _ & E1 & E2 & F)]).
  - split; [split; [exact A|simpl; apply (Hdn s1 rr tr fs' Ho)]|].
    intros s' Hs' Hr. inversion Hs'; subst s'. exists s. split; [reflexivity|].
    destruct (install_done P s fs q s1 rr tr fs' Hw Ho) as [->|(Hle & Et & Hro & _)]; [left; reflexivity|right].
    destruct Hro as [Hf|[E3 E4]]; [rewrite Hf in Hr; discriminate|]. rewrite <- E3. auto.
  - split; [split; [exact A|change (incl (d_snaps s) (di_snaps (dpr (image r')))); rewrite E1, E2; apply (Himg j)]|].
    intros s' Hs' Hr. rewrite (F s' Hs') in Hr. discriminate.
Qed.
