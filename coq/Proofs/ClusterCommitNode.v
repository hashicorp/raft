(* ClusterCommitNode.v — the per-server part of the commitment invariant that needs no ghost state:
   the log store is hole-free from index 1, the cached last index is the real one, every stored
   configuration entry decodes to cfg, the latest / committed configurations are cfg or empty,
   lastApplied <= commitIndex. *)
From Coq Require Import List NArith Bool Lia.
From stdpp Require Import gmap.
From RaftModel Require Import Base Config Node NodeCodec.
From RaftProofs Require Import NodeFrame ClusterCommitSpec ClusterCommitChain ClusterCommitAE2.
Open Scope N_scope.

Section Node.
  Variable cfg : config.
  Variable Ps : list params.       (* the parameters of the servers of the cluster *)

  Definition dec_ok (e : entry) : Prop :=
    e_ty e = LogConfiguration -> forall P, In P Ps -> p_decode P (e_data e) = cfg.
  Definition log_dec (m : gmap N entry) : Prop := forall i e, m !! i = Some e -> dec_ok e.

  Lemma dec_ok_decode P es : In P Ps -> (forall e, In e es -> dec_ok e) ->
    forall e, In e es -> e_ty e = LogConfiguration -> p_decode P (e_data e) = cfg.
  Proof. intros HP H e He Hty. apply (H e He Hty P HP). Qed.

  Definition cnode_img (s : nstate) : Prop := lcontig (d_log s) /\ log_dec (d_log s).

  Definition cnode_up (s : nstate) : Prop :=
    lcontig (d_log s) /\ log_dec (d_log s) /\ top_of (d_log s) (v_lastLogIdx s) /\
    cfg_or_nil cfg (v_latest s) /\ cfg_or_nil cfg (v_committed s) /\ v_applied s <= v_commit s.

  Definition cnode (P : params) (r : nrun) : Prop :=
    p_rc P = false /\ In P Ps /\ match r with Up s => cnode_up s | Down s => cnode_img s end.
End Node.
