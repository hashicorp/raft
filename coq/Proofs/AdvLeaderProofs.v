(* C18 (advertised leader): a follower names as leader only the sender of an AppendEntries /
   InstallSnapshot of its CURRENT term, over any history of RPCs, failures, crashes and restarts.
   The handlers are followed once, for the advertised leader as the pair (address, id) that setLeader writes and
   setState clears together, with role and term beside it (returned_post); Proofs/ClusterLeaderNode.v reads the
   cluster-level statements about the advertised id off the same facts, and who can be Candidate or Leader after a
   handler is its projection post_rt. *)
From Coq Require Import List NArith Bool Lia.
From stdpp Require Import gmap.
From RaftModel Require Import Config Node NodeCodec.
From RaftProofs Require Import RecoverProofs NodeFrame NodeEvent.
Open Scope N_scope.

Definition ldr (s : nstate) : N * N := (v_leader s, v_leaderId s).

(* the part of the state the advertised-leader argument looks at: `same s' s` says that advertised leader, role and term
   of s' are those of s.  The lemmas named `_lrt` say what a handler does to these three (leader, role, term); the tactic
   `fr` closes a `same` goal between states that differ in other fields only *)
Definition same (s' s : nstate) : Prop :=
  ldr s' = ldr s /\ v_role s' = v_role s /\ v_term s' = v_term s.

Lemma same_refl s : same s s. Proof. repeat split. Qed.

Ltac fr := first [apply same_refl | (unfold same; cbn; repeat split; reflexivity)].

(* below the term check the handlers leave all three alone (Proofs/NodeFrame.v) *)
Definition aproj (s : nstate) : N * N * N * N := (ldr s, v_role s, v_term s).

Lemma aproj_same s' s : aproj s' = aproj s -> same s' s.
Proof. unfold aproj, same. intros H. injection H; intros. repeat split; congruence. Qed.

Definition body_same {R} (s2 : nstate) (o : outcome R) : Prop :=
  match o with Done s' _ _ _ => same s' s2 | Panic _ _ => True end.

Lemma body_frame_same {R} s2 tr1 (o : outcome R) : body_frame aproj (fun _ => True) s2 tr1 o -> body_same s2 o.
Proof. destruct o; simpl; [intros [H _]; apply aproj_same, H|auto]. Qed.

Lemma ae_body_same P s0 s2 rt tr1 fs1 a : body_same s2 (ae_body P s0 s2 rt tr1 fs1 a).
Proof. apply (body_frame_same s2 tr1), (ae_body_frame _ _ (aq_commit a)); intros; reflexivity || exact I. Qed.

Lemma is_body_same P s2 rt tr1 fs1 q : body_same s2 (is_body P s2 rt tr1 fs1 q).
Proof. apply (body_frame_same s2 tr1), is_body_frame; intros; reflexivity || exact I. Qed.

(* what the three RPC handlers do to (advertised leader, role, term): nothing, or - RequestVote of a
   newer term - step down with nobody advertised, or - AppendEntries / InstallSnapshot of a term not
   below - advertise the sender, in the request's term, as Follower if anything moved *)
Lemma request_vote_lrt s fs q s' r tr fs' : request_vote s fs q = Done s' r tr fs' ->
  same s' s \/ (ldr s' = (0, 0) /\ v_role s' = Follower /\ v_term s' = vq_term q).
Proof.
  intros H. destruct (request_vote_cases s fs q) as [E|[[_ E]|(s1 & fs1 & tr1 & t1 & Hb & Hr)]].
  - rewrite E in H. inversion H; subst. left. fr.
  - rewrite E in H. discriminate.
  - (* after the optional bump everything is `same` as the state s1 it left *)
    assert (Hs : same s' s1).
    { destruct Hr as [(g & E & _)|(_ & _ & _ & E)]; rewrite E in H; [inversion H; subst; fr|].
      pose proof (persist_vote_frame aproj (fun _ _ => eq_refl) (fun _ _ => eq_refl) s1 fs1 (vq_term q) (vq_addr q)) as Hp.
      destruct (persist_vote s1 fs1 (vq_term q) (vq_addr q)) as [[[s2 ok] tr2] fs2]. inversion H; subst. apply aproj_same, Hp. }
    destruct Hb as [(-> & _)|(ET & _)]; [left; exact Hs|right].
    apply do_set_term_eq in ET. destruct ET as [-> _]. exact Hs.
Qed.

(* from the state below the term check (NodeFrame.at_term) on, all three are left alone *)
Lemma at_term_lrt s t addr id s2 tr1 s' : at_term s t addr id s2 tr1 -> same s' s2 ->
  ldr s' = (addr, id) /\ v_term s' = t /\ (v_role s' = Follower \/ (v_role s' = v_role s /\ v_term s' = v_term s)).
Proof.
  intros (_ & [(E & -> & _)|(-> & _)]) (A & B & D); cbn in A, B, D; (split; [exact A|split; [congruence|]]);
    [right; split; congruence|left; exact B].
Qed.

Lemma append_entries_lrt P s fs a s' r tr fs' : append_entries P s fs a = Done s' r tr fs' ->
  s' = s \/ (ldr s' = (aq_addr a, aq_id a) /\ v_term s' = aq_term a /\
                (v_role s' = Follower \/ (v_role s' = v_role s /\ v_term s' = v_term s))).
Proof.
  intros H. destruct (append_entries_done _ _ _ _ _ _ _ _ H) as [(_ & -> & _)|(s2 & tr1 & fs1 & Hat & Hd)]; [left; reflexivity|right].
  pose proof (ae_body_same P s s2 (aq_term a) tr1 fs1 a) as Hb. rewrite Hd in Hb. exact (at_term_lrt _ _ _ _ _ _ _ Hat Hb).
Qed.

Lemma install_snapshot_lrt P s fs q s' r tr fs' : install_snapshot P s fs q = Done s' r tr fs' ->
  s' = s \/ (ldr s' = (iq_addr q, iq_id q) /\ v_term s' = iq_term q /\
                (v_role s' = Follower \/ (v_role s' = v_role s /\ v_term s' = v_term s))).
Proof.
  intros H. destruct (install_snapshot_done _ _ _ _ _ _ _ _ H) as [(_ & -> & _)|(s2 & tr1 & fs1 & Hat & Hd)]; [left; reflexivity|right].
  pose proof (is_body_same P s2 (iq_term q) tr1 fs1 q) as Hb. rewrite Hd in Hb. exact (at_term_lrt _ _ _ _ _ _ _ Hat Hb).
Qed.

Lemma elect_self_post P s fs s' r tr fs' : elect_self P s fs = Done s' r tr fs' -> ldr s' = ldr s /\ v_role s' = v_role s.
Proof.
  intros H. pose proof (elect_self_frame (fun x => (ldr x, v_role x)) (fun _ _ => eq_refl) (fun _ _ => eq_refl) (fun _ _ => eq_refl)
                          (fun _ _ => eq_refl) P s fs) as F.
  rewrite H in F. cbn [out_proj] in F. split; congruence.
Qed.

Lemma take_snapshot_same P s fs s' r tr fs' : take_snapshot P s fs = Done s' r tr fs' -> same s' s.
Proof.
  intros H. assert (Hf : body_same s (take_snapshot P s fs)).
  { apply (body_frame_same s []), take_snapshot_frame; intros; reflexivity || exact I. }
  rewrite H in Hf. exact Hf.
Qed.

Lemma recover_leader P img s tr : recover P img = RecOk s tr -> ldr s = (0, 0) /\ v_role s = Follower.
Proof.
  intros H. apply (recover_frame aproj) in H; try (intros; reflexivity).
  unfold aproj, ldr in *. injection H; intros _ B A2 A1. rewrite A1, A2. auto.
Qed.

Lemma boot_leader P img s oo : boot P img = (Up s, oo) -> ldr s = (0, 0) /\ v_role s = Follower.
Proof.
  intros H. destruct (boot_cases _ _ _ _ H) as [(s0 & tr & E & Es)|Es]; [|discriminate]. injection Es as ->. apply (recover_leader _ _ _ _ E).
Qed.

(* the sender an event names, and the term it claims *)
Definition sender (e : nevent) : option (N * N * N) :=
  match e with
  | NAppend a => Some (aq_addr a, aq_id a, aq_term a)
  | NInstall q => Some (iq_addr q, iq_id q, iq_term q)
  | _ => None
  end.

(* what an event whose handler returns does to advertisement, role and term: it keeps all three; it clears the
   leader, as Follower (RequestVote of a newer term) or as Candidate of the same term (TimeoutNow); it advertises the
   sender the event names, in the term the event claims, as Follower unless role and term are kept; or it is
   electSelf, which keeps leader and role (and has no caller but runCandidate) *)
Definition post (e : nevent) (s s' : nstate) : Prop :=
  same s' s \/
  (ldr s' = (0, 0) /\ (v_role s' = Follower \/ (v_role s' = Candidate /\ v_term s' = v_term s))) \/
  (sender e = Some (ldr s', v_term s') /\ (v_role s' = Follower \/ (v_role s' = v_role s /\ v_term s' = v_term s))) \/
  (e = NElect /\ ldr s' = ldr s /\ v_role s' = v_role s).

Theorem returned_post P s fs e s' : returned P s fs e s' -> post e s s'.
Proof.
  destruct e as [q|q|a|q| | | | |]; cbn [returned]; try (intros (x & tr & fs' & H)); try (intros ->); try contradiction.
  - destruct (request_vote_lrt _ _ _ _ _ _ _ H) as [Hs|(A & B & _)]; [left; exact Hs|right; left; auto].
  - left. fr.
  - destruct (append_entries_lrt _ _ _ _ _ _ _ _ H) as [->|(A & B & K)]; [left; fr|]. right. right. left. cbn [sender]. split; [congruence|exact K].
  - destruct (install_snapshot_lrt _ _ _ _ _ _ _ _ H) as [->|(A & B & K)]; [left; fr|]. right. right. left. cbn [sender]. split; [congruence|exact K].
  - right. left. split; [reflexivity|right; split; reflexivity].
  - right. right. right. split; [reflexivity|apply (elect_self_post _ _ _ _ _ _ _ H)].
  - left. fr.
  - left. apply (take_snapshot_same _ _ _ _ _ _ _ H).
Qed.

(* role and term alone: outside electSelf, a server that is not left a Follower kept its term, and its role unless it
   is now a Candidate *)
Lemma post_rt e s s' : post e s s' -> e <> NElect ->
  v_role s' = Follower \/ (v_term s' = v_term s /\ (v_role s' = v_role s \/ v_role s' = Candidate)).
Proof. intros [(_ & B & D)|[(_ & [F|[C D]])|[(_ & [F|[B D]])|(E & _)]]] Hne; auto; contradiction. Qed.

Definition claim_of (e : nevent) : list (N * N) :=
  match e with
  | NAppend a => [(aq_addr a, aq_term a)]
  | NInstall q => [(iq_addr q, iq_term q)]
  | _ => []
  end.

(* a running follower advertises nobody, or the sender of an AppendEntries / InstallSnapshot it
   received whose term is its current term *)
Definition adv_ok (C : list (N * N)) (r : nrun) : Prop :=
  match r with
  | Up s => v_role s = Follower -> v_leader s = 0 \/ In (v_leader s, v_term s) C
  | Down _ => True
  end.

(* electSelf is only ever called from runCandidate *)
Definition elect_in_candidate (r : nrun) (e : nevent) : Prop :=
  match e, r with
  | NElect, Up s => v_role s <> Follower
  | _, _ => True
  end.

Lemma adv_ok_mono C C' r : (forall x, In x C -> In x C') -> adv_ok C r -> adv_ok C' r.
Proof. destruct r; simpl; auto. intros Hi H Hr. destruct (H Hr); auto. Qed.

Lemma boot_adv P img r out C : boot P img = (r, out) -> adv_ok C r.
Proof.
  destruct r as [s|s]; [|intros _; exact I]. intros H. destruct (boot_leader _ _ _ _ H) as [E _].
  injection E as E _. left. exact E.
Qed.

Lemma post_adv C e s s' : adv_ok C (Up s) -> elect_in_candidate (Up s) e -> post e s s' -> adv_ok (C ++ claim_of e) (Up s').
Proof.
  simpl. intros H He [(A & B & D)|[(Z & _)|[(S & _)|(-> & _ & B)]]] Hr.
  - injection A as A _. rewrite A, D. rewrite B in Hr. destruct (H Hr); [auto|right; apply in_or_app; auto].
  - injection Z as Z _. auto.
  - right. apply in_or_app. right. destruct e; try discriminate; injection S as S1 _ S3; left; congruence.
  - rewrite B in Hr. destruct (He Hr).
Qed.

Theorem step_adv P r e cut fs C : adv_ok C r -> elect_in_candidate r e ->
  adv_ok (C ++ claim_of e) (fst (fst (step_full P r e cut fs))).
Proof.
  intros Ha He. destruct (step_full P r e cut fs) as [[r' ob] out] eqn:H. cbn [fst].
  destruct (step_full_inv _ _ _ _ _ _ _ _ H) as [(img & oo & Hb & _)|[(s & _ & ->)|(s & s' & -> & -> & Hret)]];
    [apply (boot_adv _ _ _ _ _ Hb)|exact I|apply (post_adv C e s s' Ha He (returned_post _ _ _ _ _ Hret))].
Qed.

(* over whole histories: an input is an event, a crash cut and a store-failure pattern *)
Definition input : Type := nevent * N * list bool.
Fixpoint claims (ins : list input) : list (N * N) :=
  match ins with
  | [] => []
  | (e, _, _) :: rest => claim_of e ++ claims rest
  end.

Fixpoint elects_ok (P : params) (r : nrun) (ins : list input) : Prop :=
  match ins with
  | [] => True
  | (e, cut, fs) :: rest => elect_in_candidate r e /\ elects_ok P (fst (fst (step_full P r e cut fs))) rest
  end.

Fixpoint run_to (P : params) (r : nrun) (ins : list input) : nrun :=
  match ins with
  | [] => r
  | (e, cut, fs) :: rest => run_to P (fst (fst (step_full P r e cut fs))) rest
  end.

Theorem advertised_leader_history P ins : forall r C, adv_ok C r -> elects_ok P r ins ->
  adv_ok (C ++ claims ins) (run_to P r ins).
Proof.
  induction ins as [|[[e cut] fs] rest IH]; intros r C Ha He; simpl.
  - rewrite app_nil_r. exact Ha.
  - destruct He as [He1 He2]. rewrite app_assoc. apply IH; [|exact He2].
    apply step_adv; assumption.
Qed.

(* from a freshly booted server: everything a follower ever advertises was claimed by an
   AppendEntries / InstallSnapshot it received, with the follower's current term *)
Theorem advertised_leader_from_boot P img r out ins : boot P img = (r, out) -> elects_ok P r ins ->
  match run_to P r ins with
  | Up s => v_role s = Follower -> v_leader s <> 0 -> In (v_leader s, v_term s) (claims ins)
  | Down _ => True
  end.
Proof.
  intros Hb He. pose proof (advertised_leader_history P ins r [] (boot_adv P img r out [] Hb) He) as H.
  simpl in H. destruct (run_to P r ins) as [s|s]; [|exact I].
  simpl in H. intros Hr Hn. destruct (H Hr); [contradiction|assumption].
Qed.
