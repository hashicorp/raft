(* AppendEntries handler (C04, handler level): for every follower state and every request.
   ae_body_spec says what the handler does below the term check in closed form: which of its two log-store
   operations run and succeed (ae_plan) and, as ae_post, the log, the cached last entry, the commit index, lastApplied
   with the FSM's last entry, where the two configurations and the two durable commit indices come from, and the
   successful store operations in the trace; the term check before it is NodeFrame.append_entries_enter.  What the request's
   entries then mean for the log (log_ok_fail, log_ok_success) is a fact about maps (plan_log_ok). *)
From Coq Require Import List NArith Bool Lia.
From stdpp Require Import gmap.
From RaftModel Require Import Base Config Commitment Node.
From RaftProofs Require Export LogCacheProofs.
From RaftProofs Require Import NodeFrame RecoverProofs CommitmentProofs.
Open Scope N_scope.

(* Node.log_store is LogCache.store_entries *)
Lemma log_store_lookup es m i :
  log_store m es !! i = match find_last i es with Some e => Some e | None => m !! i end.
Proof. apply (fold_insert_lookup e_idx). Qed.

Lemma log_delete_lookup m lo hi i :
  log_delete m lo hi !! i = if (lo <=? i) && (i <=? hi) then None else m !! i.
Proof.
  unfold log_delete. destruct ((lo <=? i) && (i <=? hi)) eqn:E.
  - apply map_filter_lookup_None. right. intros x Hx. simpl. rewrite E. simpl. discriminate.
  - destruct (m !! i) as [x|] eqn:Hm.
    + apply map_filter_lookup_Some. split; [exact Hm|]. simpl. rewrite E. reflexivity.
    + apply map_filter_lookup_None. left. exact Hm.
Qed.

Lemma find_last_In i es e : find_last i es = Some e -> In e es /\ e_idx e = i.
Proof.
  unfold find_last. intros H. apply find_some in H. destruct H as [H1 H2].
  apply in_rev in H1. apply N.eqb_eq in H2. auto.
Qed.

Lemma find_last_None i es : find_last i es = None -> forall e, In e es -> e_idx e <> i.
Proof.
  unfold find_last. intros H e He. pose proof (find_none _ _ H e) as Hn.
  rewrite <- in_rev in Hn. specialize (Hn He). simpl in Hn. apply N.eqb_neq in Hn. exact Hn.
Qed.

Fixpoint contig (prev : N) (es : list entry) : Prop :=
  match es with
  | [] => True
  | e :: r => e_idx e = prev + 1 /\ contig (prev + 1) r
  end.

Lemma contig_idx prev es : contig prev es -> forall e, In e es -> prev < e_idx e.
Proof.
  revert prev. induction es as [|x r IH]; intros prev H e He; simpl in *; [contradiction|].
  destruct H as [H1 H2]. destruct He as [->|He]; [lia|]. specialize (IH _ H2 e He). lia.
Qed.

Lemma contig_unique prev es : contig prev es ->
  forall e1 e2, In e1 es -> In e2 es -> e_idx e1 = e_idx e2 -> e1 = e2.
Proof.
  revert prev. induction es as [|x r IH]; intros prev H e1 e2 H1 H2 Hi; simpl in *; [contradiction|].
  destruct H as [Hx Hr].
  destruct H1 as [->|H1], H2 as [->|H2]; auto.
  - pose proof (contig_idx _ _ Hr e2 H2). lia.
  - pose proof (contig_idx _ _ Hr e1 H1). lia.
  - eapply IH; eauto.
Qed.

Lemma contig_find_last prev es e : contig prev es -> In e es -> find_last (e_idx e) es = Some e.
Proof.
  intros Hc He. destruct (find_last (e_idx e) es) as [e'|] eqn:F.
  - apply find_last_In in F. destruct F as [F1 F2]. f_equal. eapply contig_unique; eauto.
  - exfalso. eapply find_last_None; eauto.
Qed.

Lemma contig_nth q es : contig q es ->
  forall i, q < i <= q + N.of_nat (length es) -> exists e, In e es /\ e_idx e = i.
Proof.
  revert q. induction es as [|x r IH]; intros q Hc i Hi; simpl in *; [lia|].
  destruct Hc as [Hx Hr]. destruct (N.eq_dec i (q + 1)) as [->|Hne].
  - exists x. auto.
  - destruct (IH _ Hr i) as (e & He & Hei); [lia|]. exists e. auto.
Qed.

Lemma contig_bound q es : contig q es -> forall e, In e es -> q < e_idx e <= q + N.of_nat (length es).
Proof.
  revert q. induction es as [|x r IH]; intros q Hc e He; simpl in *; [contradiction|].
  destruct Hc as [Hx Hr]. destruct He as [<-|He]; [lia|]. specialize (IH _ Hr e He). lia.
Qed.

Lemma contig_last q es : contig q es -> es <> [] ->
  In (last_of es) es /\ e_idx (last_of es) = q + N.of_nat (length es).
Proof.
  unfold last_of. revert q. induction es as [|x r IH]; intros q Hc Hne; [contradiction|].
  destruct Hc as [Hx Hr]. destruct r as [|y r'].
  - simpl. split; [auto|lia].
  - destruct (IH _ Hr ltac:(discriminate)) as [A B].
    change (last (x :: y :: r') (mkE 0 0 0 0)) with (last (y :: r') (mkE 0 0 0 0)).
    split; [right; exact A|]. rewrite B. simpl length. lia.
Qed.

Lemma contig_hd q es : contig q es -> es <> [] -> e_idx (hd (mkE 0 0 0 0) es) = q + 1.
Proof. destruct es; [congruence|]. intros [H _] _. exact H. Qed.

Definition cache_ok (s : nstate) : Prop := forall i, v_lastLogIdx s < i -> d_log s !! i = None.

(* the first request entry whose stored term differs (what the handler truncates from) *)
Fixpoint first_conflict (m : gmap N entry) (es : list entry) : option N :=
  match es with
  | [] => None
  | e :: r => match m !! e_idx e with
              | Some se => if e_term e =? e_term se then first_conflict m r else Some (e_idx e)
              | None => first_conflict m r
              end
  end.

(* what the scan finds, for any log store: the request splits into duplicates (held with the same term) and the
   entries from the first new or conflicting one on; at a conflict the stored entry has another term *)
Lemma scan_split m last : forall es prev, contig prev es ->
  match scan_entries m last es with
  | ScanNone => forall e, In e es -> exists se, m !! e_idx e = Some se /\ e_term se = e_term e
  | ScanMissing => True
  | ScanNew news => exists dup, es = dup ++ news /\ news <> [] /\
                    (forall e, In e dup -> exists se, m !! e_idx e = Some se /\ e_term se = e_term e) /\
                    (forall e, In e news -> last < e_idx e)
  | ScanConflict c news => exists dup, es = dup ++ news /\ news <> [] /\ c = e_idx (hd (mkE 0 0 0 0) news) /\ c <= last /\
                    (forall e, In e dup -> exists se, m !! e_idx e = Some se /\ e_term se = e_term e) /\
                    exists se, m !! c = Some se /\ e_term (hd (mkE 0 0 0 0) news) <> e_term se
  end.
Proof.
  induction es as [|e r IH]; intros prev Hc; simpl; [intros x []|].
  destruct Hc as [He Hr].
  destruct (N.ltb_spec last (e_idx e)) as [Hlt|Hge].
  - exists []. split; [reflexivity|]. split; [discriminate|]. split; [intros x []|].
    intros x [->|Hx]; [exact Hlt|]. pose proof (contig_idx _ _ Hr x Hx). lia.
  - destruct (m !! e_idx e) as [se|] eqn:Hm; [|exact I].
    destruct (N.eqb_spec (e_term e) (e_term se)) as [Ht|Ht].
    + specialize (IH (prev + 1) Hr).
      destruct (scan_entries m last r) as [news|c news| |].
      * destruct IH as (dup & I2 & I3 & I4 & I5). exists (e :: dup). split; [simpl; f_equal; exact I2|]. split; [exact I3|]. split; [|exact I5].
        intros x [->|Hx]; [exists se; auto|apply I4; exact Hx].
      * destruct IH as (dup & I2 & I3 & I4 & I5 & I6 & I7). exists (e :: dup). split; [simpl; f_equal; exact I2|]. split; [exact I3|]. split; [exact I4|]. split; [exact I5|].
        split; [|exact I7]. intros x [->|Hx]; [exists se; auto|apply I6; exact Hx].
      * exact I.
      * intros x [->|Hx]; [exists se; auto|apply IH; exact Hx].
    + exists []. split; [reflexivity|]. split; [discriminate|]. split; [reflexivity|]. split; [exact Hge|]. split; [intros x []|].
      exists se. simpl. auto.
Qed.


Lemma first_conflict_held m dup rest :
  (forall e, In e dup -> exists se, m !! e_idx e = Some se /\ e_term se = e_term e) ->
  first_conflict m (dup ++ rest) = first_conflict m rest.
Proof.
  induction dup as [|e r IH]; intros H; simpl; [reflexivity|]. destruct (H e (or_introl eq_refl)) as (se & -> & <-).
  rewrite N.eqb_refl. apply IH. intros x Hx. apply H. right. exact Hx.
Qed.

(* with nothing stored above the cached last index, the conflict is the first_conflict of the request *)
Lemma scan_spec m last : forall es prev,
  contig prev es -> (forall i, last < i -> m !! i = None) ->
  match scan_entries m last es with
  | ScanNone => first_conflict m es = None /\
                forall e, In e es -> exists se, m !! e_idx e = Some se /\ e_term se = e_term e
  | ScanMissing => True
  | ScanNew news => first_conflict m es = None /\
                    exists dup, es = dup ++ news /\ news <> [] /\
                    (forall e, In e dup -> exists se, m !! e_idx e = Some se /\ e_term se = e_term e) /\
                    (forall e, In e news -> last < e_idx e)
  | ScanConflict c news => first_conflict m es = Some c /\
                    exists dup, es = dup ++ news /\ news <> [] /\ c = e_idx (hd (mkE 0 0 0 0) news) /\ c <= last /\
                    (forall e, In e dup -> exists se, m !! e_idx e = Some se /\ e_term se = e_term e)
  end.
Proof.
  intros es prev Hc Hb. pose proof (scan_split m last es prev Hc) as Hs.
  destruct (scan_entries m last es) as [news|c news| |]; [| |exact I|].
  - destruct Hs as (dup & -> & Hnn & Hdup & Hnew). split; [|eauto 10]. rewrite (first_conflict_held _ _ _ Hdup).
    clear -Hnew Hb. induction news as [|x r IH]; simpl; [reflexivity|]. rewrite (Hb (e_idx x)) by (apply Hnew; left; reflexivity).
    apply IH. intros e He. apply Hnew. right. exact He.
  - destruct Hs as (dup & -> & Hnn & Hc0 & Hcl & Hdup & se & Hse & Ht). split; [|eauto 10].
    rewrite (first_conflict_held _ _ _ Hdup). destruct news as [|n0 nr]; [congruence|]. simpl in *. subst c. rewrite Hse.
    destruct (N.eqb_spec (e_term n0) (e_term se)); [contradiction|reflexivity].
  - split; [|exact Hs]. rewrite <- (app_nil_r es). apply (first_conflict_held m es [] Hs).
Qed.

Lemma contig_app prev a b : contig prev (a ++ b) ->
  contig prev a /\ contig (prev + N.of_nat (length a)) b /\
  (forall e, In e a -> e_idx e <= prev + N.of_nat (length a)).
Proof.
  revert prev. induction a as [|x a IH]; intros prev H; simpl in *.
  - rewrite N.add_0_r. split; [exact I|]. split; [exact H|]. intros e [].
  - destruct H as [Hx Hr]. destruct (IH _ Hr) as (I1 & I2 & I3).
    split; [split; assumption|]. split.
    + replace (prev + N.pos (Pos.of_succ_nat (length a))) with (prev + 1 + N.of_nat (length a)) by lia. exact I2.
    + intros e [->|He]; [lia|]. specialize (I3 e He). lia.
Qed.

Lemma contig_app_lt prev a b : contig prev (a ++ b) ->
  forall e x, In e a -> In x b -> e_idx e < e_idx x.
Proof.
  intros H e x He Hx. destruct (contig_app _ _ _ H) as (_ & Hb & Ha).
  specialize (Ha e He). pose proof (contig_idx _ _ Hb x Hx). lia.
Qed.

(* the log m' a request (previous index prev, entries es) leaves at a server whose log was m.  Whatever the answer
   (log_ok_fail): nothing at or below prev changed, and an entry that is gone or replaced lies at or above the first conflict.
   After success moreover (log_ok_success): every entry of the request is held with its term - the request's own entry, or
   the one that was there already *)
Record log_ok_fail (prev : N) (es : list entry) (m m' : gmap N entry) : Prop := {
  lf_below : forall i, i <= prev -> m' !! i = m !! i;
  lf_conflict : forall i x, m !! i = Some x -> m' !! i <> Some x ->
                exists c, first_conflict m es = Some c /\ c <= i;
}.
Record log_ok_success (prev : N) (es : list entry) (m m' : gmap N entry) : Prop := {
  ls_fail : log_ok_fail prev es m m';
  ls_match : forall e, In e es -> exists e', m' !! e_idx e = Some e' /\ e_term e' = e_term e /\
                                     (e' = e \/ m !! e_idx e = Some e');
}.

Lemma log_ok_fail_refl prev es m : log_ok_fail prev es m m.
Proof. split; [reflexivity|]. intros i x H1 H2. contradiction. Qed.

(* The store part of appendEntries comes down to at most two operations on the log store: DeleteRange from a
   conflicting index to the cached last index, then StoreLogs of a suffix of the request. *)
Definition ae_log (m : gmap N entry) (top : N) (del : option N) (sto : list entry) : gmap N entry :=
  log_store (match del with Some c => log_delete m c top | None => m end) sto.
Definition ae_ops (top : N) (del : option N) (sto : list entry) : list ev :=
  match del with Some c => [EDelete c top true] | None => [] end ++
  match sto with [] => [] | _ => [EStore sto true] end.

Definition cached_key (s : nstate) : N * N := (v_lastLogIdx s, v_lastLogTerm s).
Definition ekey (e : entry) : N * N := (e_idx e, e_term e).

(* Which of the two succeed (del, sto), whether the handler goes on to the commit index, and the cached last entry
   that results, from what the scan of the request found and the failure bits f1, f2 of the next two store
   operations; k0 is the cached last entry before. *)
Definition ae_plan (a : areq) (k0 : N * N) (sc : scan_result) (f1 f2 : bool) : option N * list entry * bool * (N * N) :=
  match sc with
  | ScanNone => (None, [], true, k0)
  | ScanMissing => (None, [], false, k0)
  | ScanNew news => if f1 then (None, [], false, k0) else (None, news, true, ekey (last_of news))
  | ScanConflict c news =>
    if f1 then (None, [], false, k0)
    else if f2 then (Some c, [], false, conflict_pred a news) else (Some c, news, true, ekey (last_of news))
  end.

Lemma ae_log_lookup m top del sto i :
  ae_log m top del sto !! i =
  match find_last i sto with
  | Some e => Some e
  | None => match del with
            | Some c => if (c <=? i) && (i <=? top) then None else m !! i
            | None => m !! i
            end
  end.
Proof.
  unfold ae_log. rewrite log_store_lookup. destruct (find_last i sto); [reflexivity|].
  destruct del; [apply log_delete_lookup|reflexivity].
Qed.

Lemma scan_news_ne m top es :
  match scan_entries m top es with ScanNew news | ScanConflict _ news => news <> [] | _ => True end.
Proof.
  induction es as [|e r IH]; simpl; [exact I|]. destruct (top <? e_idx e); [discriminate|].
  destruct (m !! e_idx e) as [se|]; [|exact I]. destruct (e_term e =? e_term se); [exact IH|discriminate].
Qed.

(* What the handler emits below the term check (body_ev), and among it the log-store operations that succeeded
   (sops): a trace tr extends tr1 by such events whose successful operations are ops. *)
Definition body_ev (e : ev) : Prop :=
  match e with EStage _ | EStore _ _ | EDelete _ _ _ | EApply _ | EConf _ => True | _ => False end.
Definition sops (tr : list ev) : list ev :=
  filter (fun e => match e with EStore _ true | EDelete _ _ true => true | _ => false end) tr.
Definition ext_tr (tr1 tr ops : list ev) : Prop :=
  exists tr', tr = tr1 ++ tr' /\ Forall body_ev tr' /\ sops tr' = ops.

Lemma ext_tr_refl tr : ext_tr tr tr [].
Proof. exists []. rewrite app_nil_r. auto. Qed.

Lemma ext_tr_one tr more : Forall body_ev more -> ext_tr tr (tr ++ more) (sops more).
Proof. intros H. exists more. auto. Qed.

Lemma ext_tr_trans tr1 tr2 tr3 o1 o2 : ext_tr tr1 tr2 o1 -> ext_tr tr2 tr3 o2 -> ext_tr tr1 tr3 (o1 ++ o2).
Proof.
  intros (x & -> & H1 & <-) (y & -> & H2 & <-). exists (x ++ y). rewrite app_assoc. split; [reflexivity|].
  split; [apply Forall_app; auto|apply filter_app].
Qed.

(* The rest of what the store part writes: each of the two configurations afterwards is one of the two before or
   was decoded from a configuration entry among those stored; the staged and the persisted commit index stay or
   move to a value at most X (the leader's commit index). *)
Definition cfg_src (P : params) (s : nstate) (sto : list entry) (c : config) : Prop :=
  c = v_latest s \/ c = v_committed s \/ exists e, In e sto /\ e_ty e = LogConfiguration /\ c = p_decode P (e_data e).
Record ae_keeps (P : params) (X : N) (s : nstate) (sto : list entry) (st : nstate) : Prop := {
  ak_latest : cfg_src P s sto (v_latest st);
  ak_committed : cfg_src P s sto (v_committed st);
  ak_staged : d_staged st = d_staged s \/ d_staged st <= X;
  ak_pcommit : d_pcommit st = d_pcommit s \/ d_pcommit st <= X }.

Lemma ae_keeps_refl P X s sto : ae_keeps P X s sto s.
Proof. split; unfold cfg_src; auto. Qed.

Lemma ae_keeps_trans P X s s1 st a b :
  ae_keeps P X s a s1 -> ae_keeps P X s1 b st -> ae_keeps P X s (a ++ b) st.
Proof.
  intros [A1 A2 A3 A4] [B1 B2 B3 B4].
  assert (Hc : forall c, cfg_src P s1 b c -> cfg_src P s (a ++ b) c).
  { assert (Ha : forall c, cfg_src P s a c -> cfg_src P s (a ++ b) c).
    { intros c [H|[H|(e & H1 & H2)]]; unfold cfg_src; auto. right. right. exists e. rewrite in_app_iff. auto. }
    intros c [->|[->|(e & H1 & H2)]]; [apply Ha, A1|apply Ha, A2|].
    right. right. exists e. rewrite in_app_iff. auto. }
  split; [apply Hc, B1|apply Hc, B2| |].
  - destruct B3 as [->|B3]; [exact A3|right; exact B3].
  - destruct B4 as [->|B4]; [exact A4|right; exact B4].
Qed.

Lemma fold_config_src P es : forall s,
  let s' := fold_left (process_config_entry P) es s in
  cfg_src P s es (v_latest s') /\ cfg_src P s es (v_committed s').
Proof.
  induction es as [|e r IH]; intros s; cbv zeta; simpl; [unfold cfg_src; auto|].
  destruct (IH (process_config_entry P s e)) as [I1 I2]. cbv zeta in I1, I2.
  assert (Hc : forall c, cfg_src P (process_config_entry P s e) r c -> cfg_src P s (e :: r) c).
  { unfold cfg_src, process_config_entry. destruct (e_ty e =? LogConfiguration) eqn:Et; simpl.
    - apply N.eqb_eq in Et. intros c [->|[->|(x & H1 & H2)]]; eauto 8.
    - intros c [->|[->|(x & H1 & H2)]]; eauto 8. }
  split; apply Hc; assumption.
Qed.

Definition ent_result (fr : aresp) (ok : bool) (st : nstate) (tr : list ev) (fs : list bool) : ae_cont :=
  if ok then inl (Some (st, tr, fs)) else inr (fr, st, tr, fs).

Lemma store_new_spec P fr lc s3 tr3 fs3 news :
  let f := hd false fs3 in
  exists st tr, store_new P fr lc s3 tr3 fs3 news = ent_result fr (negb f) st tr (tl fs3) /\
    d_log st = (if f then d_log s3 else log_store (d_log s3) news) /\
    cached_key st = (if f then cached_key s3 else ekey (last_of news)) /\
    ae_keeps P lc s3 (if f then [] else news) st /\
    ext_tr tr3 tr (if f then [] else [EStore news true]).
Proof.
  cbv zeta. unfold store_new.
  assert (Hs : let '(s4, trs) := do_stage P s3 (N.min lc (e_idx (last_of news))) in
     d_log s4 = d_log s3 /\ cached_key s4 = cached_key s3 /\ v_latest s4 = v_latest s3 /\ v_committed s4 = v_committed s3 /\
     d_pcommit s4 = d_pcommit s3 /\ (if p_track P then d_staged s4 <= lc else d_staged s4 = d_staged s3) /\
     Forall body_ev trs /\ sops trs = [])
    by (unfold do_stage; destruct (p_track P); cbn; repeat split; auto using N.le_min_l; repeat constructor).
  destruct (do_stage P s3 _) as [s4 trs]. destruct Hs as (S1 & S2 & S3 & S4 & S5 & S6 & S7 & S8).
  assert (Htr : forall ok, ext_tr tr3 (tr3 ++ trs ++ [EStore news ok]) (if ok then [EStore news true] else [])).
  { intros ok. exists (trs ++ [EStore news ok]). split; [reflexivity|].
    split; [apply Forall_app; split; [exact S7|repeat constructor]|].
    unfold sops in *. rewrite filter_app, S8. destruct ok; reflexivity. }
  unfold do_store. rewrite next_fail_hd. destruct (hd false fs3); cbn [negb ent_result].
  - exists s4, (tr3 ++ trs ++ [EStore news false]). split; [reflexivity|]. split; [exact S1|]. split; [exact S2|].
    split; [|apply (Htr false)]. split; unfold cfg_src; rewrite ?S3, ?S4, ?S5; auto. destruct (p_track P); auto.
  - match goal with |- context [fold_left (process_config_entry P) news ?S] => set (s5 := S) end.
    destruct (fold_config_src P news s5) as [F1 F2]. cbv zeta in F1, F2.
    pose proof (fold_config_frame (fun x => (d_staged x, d_pcommit x)) (fun _ _ _ => eq_refl) (fun _ _ _ => eq_refl)
                  P news s5) as F. injection F as F3 F4.
    eexists _, _. split; [reflexivity|]. cbn [d_log set_lastlog]. rewrite (fold_config_frame d_log (fun _ _ _ => eq_refl) (fun _ _ _ => eq_refl)).
    split; [cbn; rewrite S1; reflexivity|]. split; [reflexivity|]. split; [|apply (Htr true)].
    unfold cfg_src in F1, F2. cbn [s5 v_latest v_committed set_log] in F1, F2. rewrite S3, S4 in F1, F2.
    split; cbn [v_latest v_committed d_staged d_pcommit set_lastlog]; [exact F1|exact F2| |].
    + rewrite F3. cbn. destruct (p_track P); auto.
    + rewrite F4. cbn. destruct (p_track P); auto.
Qed.

(* processLogs up to idx over the log m, from s to s': lastApplied rises to idx, and the (index, term) the FSM
   goroutine last saw stays or becomes that of an entry of m on the way there *)
Definition fsm_moved (m : gmap N entry) (idx : N) (s s' : nstate) : Prop :=
  v_applied s < idx /\ v_applied s' = idx /\
  (v_fsmLast s' = v_fsmLast s \/ exists i e, m !! i = Some e /\ v_applied s < i <= idx /\ v_fsmLast s' = ekey e).

(* Everything the handler has done when it leaves a piece: the log m', the cached last entry k', the commit index
   c', lastApplied with the FSM position - unmoved, or the commit index has risen and processLogs ran up to it -,
   the rest of the state (ae_keeps) and the trace. *)
Record ae_post (P : params) (a : areq) (s : nstate) (tr1 : list ev) (m' : gmap N entry) (k' : N * N) (c' : N)
       (sto : list entry) (ops : list ev) (s' : nstate) (tr : list ev) : Prop := {
  ap_log : d_log s' = m';
  ap_key : cached_key s' = k';
  ap_commit : v_commit s' = c';
  ap_applied : (v_applied s' = v_applied s /\ v_fsmLast s' = v_fsmLast s) \/ (v_commit s < c' /\ fsm_moved m' c' s s');
  ap_keeps : ae_keeps P (aq_commit a) s sto s';
  ap_trace : ext_tr tr1 tr ops }.

Lemma ae_post_refl P a s tr : ae_post P a s tr (d_log s) (cached_key s) (v_commit s) [] [] s tr.
Proof. split; auto using ae_keeps_refl, ext_tr_refl. Qed.

Lemma ae_post_then P a s tr1 m' k' sto ops st tr8 c' s' tr :
  ae_post P a s tr1 m' k' (v_commit s) sto ops st tr8 -> v_applied st = v_applied s -> v_fsmLast st = v_fsmLast s ->
  ae_post P a st tr8 (d_log st) (cached_key st) c' [] [] s' tr -> ae_post P a s tr1 m' k' c' sto ops s' tr.
Proof.
  intros [E1 E2 E3 _ E5 E6] Ea Ef [C1 C2 C3 C4 C5 C6]. unfold fsm_moved in C4. rewrite E1, E3, Ea, Ef in *.
  split; try assumption; [congruence| |].
  - rewrite <- (app_nil_r sto). eapply ae_keeps_trans; eassumption.
  - rewrite <- (app_nil_r ops). eapply ext_tr_trans; eassumption.
Qed.

Lemma ae_entries_spec P fr s2 tr1 fs1 a :
  let '(del, sto, ok, k') := ae_plan a (cached_key s2) (scan_entries (d_log s2) (v_lastLogIdx s2) (aq_entries a))
                                     (hd false fs1) (hd false (tl fs1)) in
  exists st tr fs', ae_entries P fr s2 tr1 fs1 a = ent_result fr ok st tr fs' /\ (fs1 = [] -> fs' = []) /\
    ae_post P a s2 tr1 (ae_log (d_log s2) (v_lastLogIdx s2) del sto) k' (v_commit s2) sto
            (ae_ops (v_lastLogIdx s2) del sto) st tr.
Proof.
  assert (Hr : cont_frame (fun s => (v_commit s, v_applied s, v_fsmLast s)) (fun _ => True) s2 tr1
                          (ae_entries P fr s2 tr1 fs1 a)) by (eapply ae_entries_frame; intros; reflexivity || exact I).
  (* the log part, by cases; commit index, lastApplied and the FSM's last entry come from the frame *)
  enough (H : let '(del, sto, ok, k') := ae_plan a (cached_key s2) (scan_entries (d_log s2) (v_lastLogIdx s2) (aq_entries a))
                                                 (hd false fs1) (hd false (tl fs1)) in
              exists st tr fs', ae_entries P fr s2 tr1 fs1 a = ent_result fr ok st tr fs' /\ (fs1 = [] -> fs' = []) /\
                d_log st = ae_log (d_log s2) (v_lastLogIdx s2) del sto /\ cached_key st = k' /\
                ae_keeps P (aq_commit a) s2 sto st /\ ext_tr tr1 tr (ae_ops (v_lastLogIdx s2) del sto)).
  { destruct (ae_plan a _ _ _ _) as [[[del sto] ok] k']. destruct H as (st & tr & fs' & E & Hfs & L & K & A & T).
    exists st, tr, fs'. split; [exact E|]. split; [exact Hfs|]. rewrite E in Hr.
    assert (F : (v_commit st, v_applied st, v_fsmLast st) = (v_commit s2, v_applied s2, v_fsmLast s2))
      by (destruct ok; apply Hr). injection F as F1 F2 F3. split; auto. }
  clear Hr. unfold ae_entries.
  assert (Hsame : forall ok, exists st tr fs', ent_result fr ok s2 tr1 fs1 = ent_result fr ok st tr fs' /\
            (fs1 = [] -> fs' = []) /\ d_log st = ae_log (d_log s2) (v_lastLogIdx s2) None [] /\
            cached_key st = cached_key s2 /\ ae_keeps P (aq_commit a) s2 [] st /\ ext_tr tr1 tr [])
    by (intros ok; exists s2, tr1, fs1; auto 10 using ae_keeps_refl, ext_tr_refl).
  pose proof (scan_news_ne (d_log s2) (v_lastLogIdx s2) (aq_entries a)) as Hne.
  destruct (aq_entries a) as [|e0 es0] eqn:Ees; [exact (Hsame true)|].
  rewrite <- Ees in *. clear Ees e0 es0.
  destruct (scan_entries (d_log s2) (v_lastLogIdx s2) (aq_entries a)) as [news|c news| |] eqn:Esc;
    [| |exact (Hsame false)|exact (Hsame true)]; cbn [ae_plan].
  - destruct (store_new_spec P fr (aq_commit a) s2 tr1 fs1 news) as (st & tr & E & L & K & A & T). cbv zeta in *.
    rewrite E. destruct news as [|n0 nr]; [congruence|].
    destruct (hd false fs1); exists st, tr, (tl fs1); (split; [reflexivity|]); (split; [intros ->; reflexivity|auto]).
  - unfold do_delete. rewrite next_fail_hd. destruct (hd false fs1); cbn [negb].
    { exists s2, (tr1 ++ [EDelete c (v_lastLogIdx s2) false]), (tl fs1). split; [reflexivity|].
      split; [intros ->; reflexivity|]. split; [reflexivity|]. split; [reflexivity|]. split; [apply ae_keeps_refl|].
      apply (ext_tr_one tr1 [EDelete c (v_lastLogIdx s2) false]). repeat constructor. }
    destruct (conflict_pred a news) as [pi pt].
    match goal with |- context [store_new P fr (aq_commit a) ?S3 ?TR3 (tl fs1) news] =>
      destruct (store_new_spec P fr (aq_commit a) S3 TR3 (tl fs1) news) as (st & tr & E & L & K & A & T);
      assert (H3 : d_log S3 = log_delete (d_log s2) c (v_lastLogIdx s2) /\ cached_key S3 = (pi, pt) /\
                   ae_keeps P (aq_commit a) s2 [] S3)
        by (destruct (c <=? v_latestIdx _); repeat split; unfold cfg_src; cbn; auto)
    end.
    destruct H3 as (D3 & K3 & A3). cbv zeta in *. rewrite E, D3, K3 in *.
    pose proof (ae_keeps_trans _ _ _ _ _ _ _ A3 A) as A'.
    pose proof (ext_tr_trans _ _ _ _ _ (ext_tr_one tr1 [EDelete c (v_lastLogIdx s2) true] ltac:(repeat constructor)) T) as T'.
    destruct news as [|n0 nr]; [congruence|].
    destruct (hd false (tl fs1)); exists st, tr, (tl (tl fs1)); (split; [reflexivity|]); (split; [intros ->; reflexivity|auto]).
Qed.

Lemma last_opt_in l e : last_opt l = Some e -> In e l.
Proof.
  destruct l as [|x r]; [discriminate|]. simpl last_opt. intros H; injection H as <-.
  replace (last r x) with (last (x :: r) x) by (destruct r; reflexivity).
  destruct (@exists_last _ (x :: r) ltac:(discriminate)) as (l' & y & ->). rewrite last_last.
  apply in_or_app. right. left. reflexivity.
Qed.

(* processLogs: nothing to do, or lastApplied, the FSM content and the FSM's last entry in one update *)
Lemma process_logs_spec s idx s' tr : process_logs s idx = Some (s', tr) ->
  Forall body_ev tr /\ sops tr = [] /\
  (s' = s \/ (exists m x, s' = set_applied_fsm s idx m x) /\ fsm_moved (d_log s) idx s s').
Proof.
  intros H. split; [exact (process_logs_emits body_ev (fun _ => I) (fun _ => I) _ _ _ _ H)|].
  split; [apply filter_drops_all; eapply process_logs_emits; [| |exact H]; intros; reflexivity|].
  revert H. unfold process_logs. destruct (N.leb_spec idx (v_applied s)) as [Hle|Hgt].
  - intros H; inversion H; subst. auto.
  - destruct (collect_logs (d_log s) (v_applied s) (N.to_nat (idx - v_applied s))) as [es|] eqn:E; [|discriminate].
    intros H; inversion H; subst s' tr. clear H. right. split; [eexists _, _; reflexivity|]. split; [exact Hgt|]. split; [reflexivity|]. cbn [v_fsmLast set_applied_fsm].
    destruct (last_opt (filter (fun e => prepare_kind (e_ty e) =? 1) es)) as [e|] eqn:EL; [right|left; reflexivity].
    apply last_opt_in, filter_In in EL. destruct EL as [Hin _].
    destruct (collect_logs_spec _ _ _ _ E) as [L1 L2]. destruct (In_nth es e (mkE 0 0 0 0) Hin) as (k & Hk1 & Hk2).
    exists (v_applied s + 1 + N.of_nat k), e. rewrite <- Hk2 at 1. split; [apply L2; lia|]. split; [lia|reflexivity].
Qed.

(* "Update the commit index" computes Commitment.follower_commit; a panic is a failed processLogs up to it *)
Lemma ae_commit_spec P okr s8 tr8 fs8 a :
  let c' := follower_commit (v_commit s8) (aq_commit a) (last_new a) (last_index s8) in
  match ae_commit okr s8 tr8 fs8 a with
  | Done s' r tr fs' => r = okr /\ fs' = fs8 /\ ae_post P a s8 tr8 (d_log s8) (cached_key s8) c' [] [] s' tr
  | Panic s' tr => ae_post P a s8 tr8 (d_log s8) (cached_key s8) c' [] [] s' tr /\ v_commit s8 < c' /\
                   v_applied s' = v_applied s8 /\ process_logs s' c' = None
  end.
Proof.
  cbv zeta. unfold ae_commit, follower_commit.
  destruct ((0 <? aq_commit a) && (v_commit s8 <? aq_commit a)); [|auto using ae_post_refl].
  cbv zeta. set (idx := N.min (aq_commit a) (N.min (last_new a) (last_index s8))).
  destruct (N.ltb_spec (v_commit s8) idx) as [Hlt|]; [|auto using ae_post_refl].
  (* S, the state processLogs runs on (commit index and committed configuration written), is replaced by a variable
     of which only the facts F are kept *)
  match goal with |- context [process_logs ?S idx] =>
    assert (F : d_log S = d_log s8 /\ cached_key S = cached_key s8 /\ v_commit S = idx /\ v_applied S = v_applied s8 /\
                v_fsmLast S = v_fsmLast s8 /\ ae_keeps P (aq_commit a) s8 [] S)
      by (destruct (v_latestIdx _ <=? idx); repeat split; unfold cfg_src; cbn; auto);
    generalize dependent S end.
  intros s10 (F1 & F2 & F3 & F4 & F5 & F6). destruct (process_logs s10 idx) as [[s11 tra]|] eqn:EP.
  2:{ split; [split; auto using ext_tr_refl|auto]. }
  split; [reflexivity|]. split; [reflexivity|]. apply process_logs_spec in EP. destruct EP as (Q1 & Q2 & EP).
  assert (T : ext_tr tr8 (tr8 ++ tra) []) by (rewrite <- Q2; apply ext_tr_one, Q1).
  destruct EP as [->|((m & x & ->) & Hm)]; [split; auto|].
  split; cbn [d_log cached_key v_lastLogIdx v_lastLogTerm v_commit v_applied v_fsmLast set_applied_fsm]; try assumption.
  - right. split; [exact Hlt|]. unfold fsm_moved in *. rewrite <- F4, <- F5, <- F1. exact Hm.
  - destruct F6 as [K1 K2 K3 K4]. split; assumption.
Qed.

(* Everything after the term check, for any state, request and failure pattern.  A request whose previous entry
   does not match is refused before anything is read.  fs1 lists the injected store failures still to come, one flag per
   store operation, none once it is empty; `fs1 = [] -> fs' = []`: a run without failures stays one (for the callers
   that run the handler with []). *)
Theorem ae_body_spec P s0 s2 rt tr1 fs1 a :
  let pc := match prev_check s2 a with Some true => true | _ => false end in
  let '(del, sto, ok, k') :=
    if pc then ae_plan a (cached_key s2) (scan_entries (d_log s2) (v_lastLogIdx s2) (aq_entries a))
                       (hd false fs1) (hd false (tl fs1))
    else (None, [], false, cached_key s2) in
  let m' := ae_log (d_log s2) (v_lastLogIdx s2) del sto in
  let c' := if ok then follower_commit (v_commit s2) (aq_commit a) (last_new a) (N.max (fst k') (v_lastSnapIdx s2))
            else v_commit s2 in
  let ops := ae_ops (v_lastLogIdx s2) del sto in
  match ae_body P s0 s2 rt tr1 fs1 a with
  | Done s' r tr fs' => r = mkAResp rt (last_index s0) ok (negb pc) false /\ (fs1 = [] -> fs' = []) /\
                        ae_post P a s2 tr1 m' k' c' sto ops s' tr
  | Panic s' tr => ok = true /\ ae_post P a s2 tr1 m' k' c' sto ops s' tr /\ v_commit s2 < c' /\
                   v_applied s' = v_applied s2 /\ process_logs s' c' = None
  end.
Proof.
  cbv zeta. unfold ae_body.
  destruct (prev_check s2 a) as [[|]|]; [|split; [reflexivity|]; split; [auto|apply ae_post_refl]..].
  pose proof (ae_entries_spec P (mkAResp rt (last_index s0) false false false) s2 tr1 fs1 a) as H.
  assert (Hr : cont_frame v_lastSnapIdx (fun _ => True) s2 tr1 (ae_entries P (mkAResp rt (last_index s0) false false false) s2 tr1 fs1 a))
    by (eapply ae_entries_frame; intros; reflexivity || exact I).
  destruct (ae_plan a _ _ _ _) as [[[del sto] ok] k']. destruct H as (st & tr & fs' & E & Hfs & He).
  rewrite E in *. destruct ok; cbn [ent_result negb] in *; [|split; [reflexivity|]; split; assumption].
  pose proof (ae_commit_spec P (mkAResp rt (last_index s0) true false false) st tr fs' a) as Hc. cbv zeta in Hc.
  destruct Hr as [R3 _]. pose proof He as [L K C A _ _].
  assert (Ha : v_applied st = v_applied s2 /\ v_fsmLast st = v_fsmLast s2) by (destruct A as [A|A]; [exact A|lia]).
  replace (last_index st) with (N.max (fst k') (v_lastSnapIdx s2)) in Hc
    by (unfold last_index; rewrite R3, <- K; reflexivity).
  rewrite C in Hc.
  destruct (ae_commit _ st tr fs' a) as [s' r tr' fs''|s' tr'].
  - destruct Hc as (-> & -> & Hc). split; [reflexivity|]. split; [exact Hfs|].
    exact (ae_post_then _ _ _ _ _ _ _ _ _ _ _ _ _ He (proj1 Ha) (proj2 Ha) Hc).
  - destruct Hc as (Hc & Hlt & Hap & Hpl). split; [reflexivity|].
    split; [exact (ae_post_then _ _ _ _ _ _ _ _ _ _ _ _ _ He (proj1 Ha) (proj2 Ha) Hc)|]. split; [exact Hlt|].
    split; [rewrite Hap; apply Ha|exact Hpl].
Qed.

Lemma store_suffix prev dup news : contig prev (dup ++ news) ->
  (forall i, i <= prev -> find_last i news = None) /\
  (forall e, In e dup -> find_last (e_idx e) news = None) /\
  (forall e, In e news -> find_last (e_idx e) news = Some e).
Proof.
  intros Hc. destruct (contig_app _ _ _ Hc) as (_ & Hcn & _).
  assert (Hnone : forall i, (forall y, In y news -> e_idx y <> i) -> find_last i news = None).
  { intros i H. destruct (find_last i news) as [y|] eqn:F; [|reflexivity].
    apply find_last_In in F. destruct F as [F1 F2]. destruct (H y F1 F2). }
  split; [|split].
  - intros i Hi. apply Hnone. intros y Hy. pose proof (contig_idx _ _ Hc y ltac:(apply in_app_iff; auto)). lia.
  - intros e He. apply Hnone. intros y Hy. pose proof (contig_app_lt _ _ _ Hc e y He Hy). lia.
  - intros e He. exact (contig_find_last _ _ _ Hcn He).
Qed.

Theorem plan_log_ok a k0 prev es m top f1 f2 :
  contig prev es -> (forall i, top < i -> m !! i = None) ->
  let '(del, sto, ok, _) := ae_plan a k0 (scan_entries m top es) f1 f2 in
  log_ok_fail prev es m (ae_log m top del sto) /\
  (ok = true -> log_ok_success prev es m (ae_log m top del sto)).
Proof.
  intros Hc Hcache. pose proof (scan_spec m top es prev Hc Hcache) as Hs.
  assert (Hheld : forall (m' : gmap N entry) dup,
            (forall e, In e dup -> exists se, m !! e_idx e = Some se /\ e_term se = e_term e) ->
            forall e, In e dup -> m' !! e_idx e = m !! e_idx e ->
            exists e', m' !! e_idx e = Some e' /\ e_term e' = e_term e /\ (e' = e \/ m !! e_idx e = Some e')).
  { intros m' dup Hd e He E. destruct (Hd e He) as (se & H1 & H2). exists se. rewrite E. auto. }
  assert (Hnone : log_ok_fail prev es m (ae_log m top None []) /\ (false = true -> log_ok_success prev es m (ae_log m top None [])))
    by (split; [apply log_ok_fail_refl|discriminate]).
  destruct (scan_entries m top es) as [news|c news| |]; cbn [ae_plan];
    [destruct f1; [exact Hnone|] | destruct f1; [exact Hnone|destruct f2] | exact Hnone | ].
  - (* stored beyond the cached last index, where the log holds nothing *)
    destruct Hs as (_ & dup & -> & _ & Hdup & Hnew). destruct (store_suffix _ _ _ Hc) as (S1 & S2 & S3).
    assert (Hf : log_ok_fail prev (dup ++ news) m (ae_log m top None news)).
    { split.
      - intros i Hi. rewrite ae_log_lookup, S1 by exact Hi. reflexivity.
      - intros i x Hm Hne. rewrite ae_log_lookup in Hne. destruct (find_last i news) as [y|] eqn:F; [|contradiction].
        apply find_last_In in F. destruct F as [F1 F2]. specialize (Hnew y F1). rewrite (Hcache i) in Hm by lia. discriminate. }
    split; [exact Hf|]. intros _. split; [exact Hf|]. intros e He. apply in_app_iff in He. destruct He as [He|He].
    + apply (Hheld _ dup Hdup e He). rewrite ae_log_lookup, S2 by exact He. reflexivity.
    + exists e. rewrite ae_log_lookup, S3 by exact He. auto.
  - (* truncated from the first conflict, the store failed *)
    destruct Hs as (Hfc & dup & -> & Hnn & Hc0 & Hcl & Hdup).
    split; [|discriminate]. split.
    + intros i Hi. rewrite ae_log_lookup. simpl.
      assert (prev < c). { destruct news as [|n0 nr]; [congruence|]. subst c. apply (contig_idx _ _ Hc). apply in_app_iff. right. left. reflexivity. }
      destruct (N.leb_spec c i); [lia|]. reflexivity.
    + intros i x Hm Hne. rewrite ae_log_lookup in Hne. simpl in Hne.
      destruct ((c <=? i) && (i <=? top)) eqn:B; [|contradiction]. exists c. split; [exact Hfc|].
      apply andb_true_iff in B. apply N.leb_le. apply B.
  - (* truncated from the first conflict, then stored from there on *)
    destruct Hs as (Hfc & dup & -> & Hnn & Hc0 & Hcl & Hdup). destruct (store_suffix _ _ _ Hc) as (S1 & S2 & S3).
    destruct news as [|n0 nr]; [congruence|]. simpl in Hc0.
    assert (Hprev : prev < c) by (subst c; apply (contig_idx _ _ Hc), in_app_iff; right; left; reflexivity).
    assert (Hcidx : forall y, In y (n0 :: nr) -> c <= e_idx y).
    { destruct (contig_app _ _ _ Hc) as (_ & [Hn0 Hnr] & _). intros y [<-|Hy]; [lia|]. pose proof (contig_idx _ _ Hnr y Hy). lia. }
    assert (Hdupidx : forall e, In e dup -> e_idx e < c).
    { intros e He. subst c. apply (contig_app_lt _ _ _ Hc e n0 He). left. reflexivity. }
    assert (Hf : log_ok_fail prev (dup ++ n0 :: nr) m (ae_log m top (Some c) (n0 :: nr))).
    { split.
      - intros i Hi. rewrite ae_log_lookup, S1 by exact Hi. destruct (N.leb_spec c i); [lia|]. reflexivity.
      - intros i x Hm Hne. exists c. split; [exact Hfc|]. rewrite ae_log_lookup in Hne.
        destruct (find_last i (n0 :: nr)) as [y|] eqn:F.
        + apply find_last_In in F. destruct F as [F1 F2]. specialize (Hcidx y F1). lia.
        + destruct ((c <=? i) && (i <=? top)) eqn:B; [|contradiction]. apply andb_true_iff in B. apply N.leb_le. apply B. }
    split; [exact Hf|]. intros _. split; [exact Hf|]. intros e He. apply in_app_iff in He. destruct He as [He|He].
    + apply (Hheld _ dup Hdup e He). rewrite ae_log_lookup, S2 by exact He. specialize (Hdupidx e He).
      destruct (N.leb_spec c (e_idx e)); [lia|]. reflexivity.
    + exists e. rewrite ae_log_lookup, S3 by exact He. auto.
  - destruct Hs as [_ Hs]. split; [apply log_ok_fail_refl|]. intros _. split; [apply log_ok_fail_refl|].
    intros e He. apply (Hheld _ es Hs e He). reflexivity.
Qed.

Theorem append_entries_log P s fs a s' r tr fs' :
  cache_ok s -> contig (aq_prevIdx a) (aq_entries a) ->
  append_entries P s fs a = Done s' r tr fs' ->
  log_ok_fail (aq_prevIdx a) (aq_entries a) (d_log s) (d_log s') /\
  (ar_success r = true -> log_ok_success (aq_prevIdx a) (aq_entries a) (d_log s) (d_log s')).
Proof.
  intros Hcache Hc H.
  destruct (append_entries_done _ _ _ _ _ _ _ _ H) as [(_ & -> & -> & _)|(s2 & tr1 & fs1 & Hat & Hd)];
    [split; [apply log_ok_fail_refl|discriminate]|].
  pose proof (ae_body_spec P s s2 (aq_term a) tr1 fs1 a) as Hs. cbv zeta in Hs.
  rewrite Hd, (at_term_frame d_log Hat), (at_term_frame v_lastLogIdx Hat) in Hs by reflexivity.
  pose proof (plan_log_ok a (cached_key s2) _ _ _ _ (hd false fs1) (hd false (tl fs1)) Hc Hcache) as Hp.
  destruct (match prev_check s2 a with Some true => true | _ => false end).
  - destruct (ae_plan a _ _ _ _) as [[[del sto] ok] k']. destruct Hs as (-> & _ & [-> _ _ _ _ _]). exact Hp.
  - destruct Hs as (-> & _ & [-> _ _ _ _ _]). split; [apply log_ok_fail_refl|discriminate].
Qed.

Lemma prev_check_true s a : prev_check s a = Some true -> 0 < aq_prevIdx a ->
  (aq_prevIdx a = fst (last_entry s) /\ aq_prevTerm a = snd (last_entry s)) \/
  (aq_prevIdx a = v_lastSnapIdx s /\ aq_prevTerm a = v_lastSnapTerm s) \/
  (exists pe, d_log s !! aq_prevIdx a = Some pe /\ e_term pe = aq_prevTerm a).
Proof.
  unfold prev_check. intros Epc Hp. destruct (N.ltb_spec 0 (aq_prevIdx a)); [|lia].
  destruct (last_entry s) as [li lt]. simpl.
  destruct (N.eqb_spec (aq_prevIdx a) li).
  - inversion Epc as [E]. apply N.eqb_eq in E. left. auto.
  - destruct (N.eqb_spec (aq_prevIdx a) (v_lastSnapIdx s)).
    + inversion Epc as [E]. apply N.eqb_eq in E. right. left. auto.
    + destruct (d_log s !! aq_prevIdx a) as [pe|]; [|discriminate]. inversion Epc as [E].
      apply N.eqb_eq in E. right. right. exists pe. auto.
Qed.

Theorem append_success_prev P s fs a s' r tr fs' :
  append_entries P s fs a = Done s' r tr fs' -> ar_success r = true -> 0 < aq_prevIdx a ->
  (aq_prevIdx a = fst (last_entry s) /\ aq_prevTerm a = snd (last_entry s)) \/
  (aq_prevIdx a = v_lastSnapIdx s /\ aq_prevTerm a = v_lastSnapTerm s) \/
  (exists pe, d_log s !! aq_prevIdx a = Some pe /\ e_term pe = aq_prevTerm a).
Proof.
  intros H Hs Hp.
  destruct (append_entries_done _ _ _ _ _ _ _ _ H) as [(_ & _ & -> & _)|(s2 & tr1 & fs1 & Hat & Hd)]; [discriminate|].
  pose proof (ae_body_spec P s s2 (aq_term a) tr1 fs1 a) as Hsp. cbv zeta in Hsp. rewrite Hd in Hsp.
  assert (E : prev_check s2 a = prev_check s a) by (apply (at_term_frame (fun x => prev_check x a) Hat); reflexivity).
  rewrite E in Hsp. destruct (prev_check s a) as [[|]|] eqn:Epc; [|destruct Hsp as (-> & _); discriminate..].
  exact (prev_check_true s a Epc Hp).
Qed.

(* the commit index is not lowered, and moves only to a value the leader vouched for *)
Lemma append_entries_commit P s fs a s' r tr fs' : append_entries P s fs a = Done s' r tr fs' ->
  v_commit s <= v_commit s' /\ (v_commit s' = v_commit s \/ v_commit s' <= aq_commit a).
Proof.
  intros H.
  destruct (append_entries_done _ _ _ _ _ _ _ _ H) as [(_ & -> & _)|(s2 & tr1 & fs1 & Hat & Hd)]; [split; [lia|auto]|].
  pose proof (ae_body_spec P s s2 (aq_term a) tr1 fs1 a) as Hs. cbv zeta in Hs.
  rewrite Hd, (at_term_frame v_commit Hat) in Hs by reflexivity.
  destruct (if match prev_check s2 a with Some true => true | _ => false end then _ else _) as [[[del sto] ok] k'].
  destruct Hs as (_ & _ & [_ _ -> _ _ _]). destruct ok; [|split; [lia|auto]].
  match goal with |- context [follower_commit ?c ?lc ?ln ?l] => pose proof (follower_commit_spec c lc ln l) as [F1 F2] end.
  cbv zeta in F1, F2. split; [exact F1|]. destruct F2 as [F2|F2]; [left; exact F2|right; apply F2].
Qed.
