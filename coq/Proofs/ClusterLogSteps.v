(* ClusterLogSteps.v — LOG MATCHING read off what every Log Matching invariant says of one server: its entries
   sit under their own indices, were created, carry terms the server has seen, and lie on ONE branch of the ghost
   history - all of them, or those from a bound B on (the system with snapshot transfer: above every snapshot).  (Proofs/ClusterLogSnapMain.v and ClusterLogMain.v read their theorems off it.) *)
From Coq Require Import List NArith Bool Lia.
From stdpp Require Import gmap.
From RaftModel Require Import Base Config Node NodeCodec Cluster ClusterLog.
From RaftProofs Require Import ClusterLogSpec ClusterLogChain ClusterLogNode.
Open Scope N_scope.

Theorem branch_log_matching_above g C B : chain_ok C ->
  (forall a, In a (g_nodes (lg_g g)) ->
     log_in C (log_of a) (d_term (image (gn_run a))) /\
     exists top, forall i e, log_of a !! i = Some e -> B <= i -> anc C (key e) top) ->
  (forall a b, In a (g_nodes (lg_g g)) -> In b (g_nodes (lg_g g)) ->
   forall i ea eb, log_of a !! i = Some ea -> log_of b !! i = Some eb -> e_term ea = e_term eb ->
   forall k ka kb, k <= i -> B <= k -> log_of a !! k = Some ka -> log_of b !! k = Some kb -> ka = kb) /\
  (forall a, In a (g_nodes (lg_g g)) -> forall i j ei ej, B <= i -> i <= j ->
     log_of a !! i = Some ei -> log_of a !! j = Some ej -> e_term ei <= e_term ej /\ e_idx ei = i).
Proof.
  intros HC Hn.
  assert (Hanc : forall a, In a (g_nodes (lg_g g)) -> forall i j ei ej, B <= i -> i <= j ->
            log_of a !! i = Some ei -> log_of a !! j = Some ej -> anc C (key ei) (key ej)).
  { intros a Ha i j ei ej Hbi Hij Hi Hj. destruct (Hn a Ha) as [Hin [top Hbel]].
    apply (anc_linear C _ _ top HC (Hbel i ei Hi Hbi) (Hbel j ej Hj ltac:(lia))).
    destruct (Hin i ei Hi) as (K1 & _). destruct (Hin j ej Hj) as (K2 & _). unfold key. simpl. lia. }
  split.
  - intros a b Ha Hb i ea eb Hea Heb Hterm k ka kb Hk Hbk Hka Hkb.
    destruct (Hn a Ha) as [Hina _]. destruct (Hn b Hb) as [Hinb _].
    destruct (Hina i ea Hea) as (Ia & _). destruct (Hinb i eb Heb) as (Ib & _).
    assert (Hkey : key ea = key eb) by (unfold key; congruence).
    pose proof (Hanc a Ha k i ka ea Hbk Hk Hka Hea) as A1.
    pose proof (Hanc b Hb k i kb eb Hbk Hk Hkb Heb) as A2. rewrite <- Hkey in A2.
    destruct (Hina k ka Hka) as (Ka & (pa & Pa) & _). destruct (Hinb k kb Hkb) as (Kb & (pb & Pb) & _).
    assert (Hkk : key ka = key kb).
    { apply (anc_unique C _ _ (key ea) HC A1 A2). unfold key. simpl. congruence. }
    apply (co_fun C HC ka pa kb pb Pa Pb Hkk).
  - intros a Ha i j ei ej Hbi Hij Hi Hj. destruct (Hn a Ha) as [Hin _].
    split; [|apply (Hin i ei Hi)].
    apply (anc_le C _ _ HC (Hanc a Ha i j ei ej Hbi Hij Hi Hj)).
Qed.

(* every stored entry on the branch: B = 0 *)
Theorem branch_log_matching g C : chain_ok C ->
  (forall a, In a (g_nodes (lg_g g)) ->
     log_in C (log_of a) (d_term (image (gn_run a))) /\ exists top, log_below C (log_of a) top) ->
  log_matching g /\ terms_monotone g.
Proof.
  intros HC Hn. destruct (branch_log_matching_above g C 0 HC) as [H1 H2].
  { intros a Ha. destruct (Hn a Ha) as [Hin [top Hb]]. split; [exact Hin|]. exists top. intros i e Hi _. apply (Hb i e Hi). }
  split.
  - intros a b Ha Hb i ea eb Hea Heb Ht k ka kb Hk. apply (H1 a b Ha Hb i ea eb Hea Heb Ht k ka kb Hk (N.le_0_l _)).
  - intros a Ha i j ei ej. apply (H2 a Ha i j ei ej (N.le_0_l _)).
Qed.
