(* ClusterCommitSnapAE.v — the appendEntries handler on a server that may run on a snapshot: which
   successful term / delete / store operations its trace holds (every crash image is the replay of a
   prefix of them), why the previous entry matched (prev_ok), and the cached last-log key of the
   state it returns.  Stated for any description K of the conflict the scan finds (Section Shape), then for the one
   appendEntries computes (first_conflict: ae_logS, ae_reachS, append_reachS). *)
From Coq Require Import List NArith Bool Lia.
From stdpp Require Import gmap.
From RaftModel Require Import Base Node.
From RaftProofs Require Import NodeFrame VoteProofs AppendProofs ClusterLogSpec ClusterLogNode ClusterLogCut ClusterLogAppend.
Open Scope N_scope.

(* "Verify the last log entry" passed (the third case: the snapshot boundary, ClusterCommitSnapLog.bk) *)
Definition prev_ok (s : nstate) (a : areq) : Prop :=
  aq_prevIdx a = 0 \/ (aq_prevIdx a, aq_prevTerm a) = last_entry s \/
  (aq_prevIdx a, aq_prevTerm a) = (v_lastSnapIdx s, if v_lastSnapIdx s =? 0 then 0 else v_lastSnapTerm s) \/
  exists pe, d_log s !! aq_prevIdx a = Some pe /\ e_term pe = aq_prevTerm a.

Lemma prev_check_ok s2 a : prev_check s2 a = Some true -> prev_ok s2 a.
Proof.
  intros H. destruct (N.eq_dec (aq_prevIdx a) 0) as [E|E]; [left; exact E|right].
  destruct (prev_check_true s2 a H ltac:(lia)) as [[H1 H2]|[[H1 H2]|H1]]; [left|right; left|right; right; exact H1].
  - destruct (last_entry s2); simpl in *; congruence.
  - destruct (N.eqb_spec (v_lastSnapIdx s2) 0); congruence.
Qed.

(* the body of the handler emits no term write: the successful (term, log) operations of what it appends to the
   trace are its successful store operations *)
Lemma tlf_ext tr1 tr ops : ext_tr tr1 tr ops -> tlf tr = tlf tr1 ++ ops.
Proof.
  intros (tr' & -> & H & <-). rewrite tlf_app. f_equal. unfold tlf, sops.
  induction H as [|e r He _ IH]; simpl; [reflexivity|]. rewrite IH. destruct e; try contradiction; reflexivity.
Qed.

(* How the conflict is described is a parameter, K m a c news: "request a conflicts with the log m at index c, where
   its entries news begin".  What the handler does to the log does not depend on it; only the analysis of the
   scan that delivers the description does. *)
Section Shape.
  Variable K : gmap N entry -> areq -> N -> list entry -> Prop.

  Definition scan_okK (m : gmap N entry) (top : N) (a : areq) : Prop :=
    match scan_entries m top (aq_entries a) with
    | ScanNew news => exists dup, aq_entries a = dup ++ news /\ news <> [] /\
                        (forall e, In e dup -> exists se, m !! e_idx e = Some se /\ e_term se = e_term e) /\
                        (forall e, In e news -> top < e_idx e)
    | ScanConflict c news => K m a c news /\
                        exists dup, aq_entries a = dup ++ news /\ news <> [] /\ c = e_idx (hd (mkE 0 0 0 0) news) /\ c <= top /\
                        (forall e, In e dup -> exists se, m !! e_idx e = Some se /\ e_term se = e_term e)
    | _ => True
    end.

  (* m' is the log and k' the cached last-log key after the delete / store operations of the handler:
     es = dup ++ news, the duplicates are stored with the same terms; the new entries lie beyond the cached last
     index (store), or the first of them conflicts at c (delete c..top, then store) *)
  Definition ae_logK (m : gmap N entry) (top : N) (a : areq) (m' : gmap N entry) (k' : N * N) : Prop :=
    exists dup news, aq_entries a = dup ++ news /\ news <> [] /\
      (forall e, In e dup -> exists se, m !! e_idx e = Some se /\ e_term se = e_term e) /\
      ((m' = log_store m news /\ k' = key (last_of news) /\ forall e, In e news -> top < e_idx e) \/
       (exists c, K m a c news /\ c = e_idx (hd (mkE 0 0 0 0) news) /\ c <= top /\
          ((m' = log_delete m c top /\ k' = conflict_pred a news) \/
           (m' = log_store (log_delete m c top) news /\ k' = key (last_of news))))).

  (* the plan of AppendProofs on a scan that is described: every prefix of its operations leaves the log as it was
     or in a state ae_logK describes, and so does the whole *)
  Lemma plan_reachK m top a k0 f1 f2 t : scan_okK m top a ->
    let '(del, sto, ok, k') := ae_plan a k0 (scan_entries m top (aq_entries a)) f1 f2 in
    (forall j, let d := fold_left tl_apply (firstn j (ae_ops top del sto)) (t, m) in
               fst d = t /\ (snd d = m \/ exists k, ae_logK m top a (snd d) k)) /\
    ((ae_log m top del sto = m /\ k' = k0) \/ ae_logK m top a (ae_log m top del sto) k').
  Proof.
    intros Hs. unfold scan_okK in Hs.
    assert (Hnone : (forall j, let d := fold_left tl_apply (firstn j (ae_ops top None [])) (t, m) in
                               fst d = t /\ (snd d = m \/ exists k, ae_logK m top a (snd d) k)) /\
                    ((ae_log m top None [] = m /\ k0 = k0) \/ ae_logK m top a (ae_log m top None []) k0)).
    { split; [intros [|j]; cbn; auto|left; auto]. }
    destruct (scan_entries m top (aq_entries a)) as [news|c news| |]; cbn [ae_plan];
      [destruct f1; [exact Hnone|] | destruct f1; [exact Hnone|] | exact Hnone | exact Hnone].
    - destruct Hs as (dup & Hes & Hnn & Hdup & Hnew).
      assert (L : ae_logK m top a (log_store m news) (key (last_of news))).
      { exists dup, news. repeat (split; [assumption|]). left. auto. }
      destruct news as [|n0 nr]; [congruence|]. split; [|right; exact L].
      intros [|j]; cbn; [auto|]. rewrite firstn_nil. cbn. eauto.
    - destruct Hs as (Hk & dup & Hes & Hnn & Hc & Hcl & Hdup).
      assert (L1 : ae_logK m top a (log_delete m c top) (conflict_pred a news)).
      { exists dup, news. repeat (split; [assumption|]). right. exists c. repeat (split; [assumption|]). left. auto. }
      assert (L2 : ae_logK m top a (log_store (log_delete m c top) news) (key (last_of news))).
      { exists dup, news. repeat (split; [assumption|]). right. exists c. repeat (split; [assumption|]). right. auto. }
      destruct f2.
      + split; [|right; exact L1]. intros [|j]; cbn; [auto|]. rewrite firstn_nil. cbn. eauto.
      + destruct news as [|n0 nr]; [congruence|]. split; [|right; exact L2].
        intros [|[|j]]; cbn; [auto|eauto|]. rewrite firstn_nil. cbn. eauto.
  Qed.

  (* every prefix of the handler's (term, log) operations, applied to the state it started from;
     k is the cached last-log key that goes with the log reached *)
  Definition ae_reachK (s : nstate) (a : areq) (d : N * gmap N entry) (k : N * N) : Prop :=
    (d = tlp s /\ k = cached_key s) \/
    (d_term s <= aq_term a /\ fst d = aq_term a /\
     ((snd d = d_log s /\ k = cached_key s) \/ (prev_ok s a /\ ae_logK (d_log s) (v_lastLogIdx s) a (snd d) k))).

  Theorem append_reachK P s fs a : wfu s -> scan_okK (d_log s) (v_lastLogIdx s) a ->
    (forall j, exists k, ae_reachK s a (fold_left tl_apply (firstn j (tlf (trace_of (append_entries P s fs a)))) (tlp s)) k) /\
    (forall st, done_st (append_entries P s fs a) = Some st -> ae_reachK s a (tlp st) (cached_key st)).
  Proof.
    intros [Hwd Hvt] Hs.
    (* below the term check, from a state s2 that holds the request's term and the log and cached last entry of s *)
    assert (Hb : forall s2 rt tr1 fs1, d_term s <= aq_term a -> d_term s2 = aq_term a -> d_log s2 = d_log s ->
              cached_key s2 = cached_key s -> (prev_ok s2 a -> prev_ok s a) ->
              let o := ae_body P s s2 rt tr1 fs1 a in
              exists ops, tlf (trace_of o) = tlf tr1 ++ ops /\
                (forall j, exists k, ae_reachK s a (fold_left tl_apply (firstn j ops) (aq_term a, d_log s)) k) /\
                (forall st, done_st o = Some st -> ae_reachK s a (tlp st) (cached_key st))).
    { intros s2 rt tr1 fs1 Hle Et El Ek Hpk. cbv zeta.
      pose proof (ae_body_spec P s s2 rt tr1 fs1 a) as Hsp. cbv zeta in Hsp.
      assert (Hd : body_frame d_term (fun _ => True) s2 tr1 (ae_body P s s2 rt tr1 fs1 a))
        by (eapply ae_body_frame; intros; reflexivity || exact I).
      pose proof (plan_reachK (d_log s) (v_lastLogIdx s) a (cached_key s2) (hd false fs1) (hd false (tl fs1)) (aq_term a) Hs) as Hpl.
      pose proof (f_equal fst Ek) as Ei. cbn [fst cached_key] in Ei. rewrite El, Ei in Hsp.
      assert (Hpc : match prev_check s2 a with Some true => true | _ => false end = true -> prev_ok s a).
      { destruct (prev_check s2 a) as [[|]|] eqn:E; try discriminate. intros _. apply Hpk, prev_check_ok, E. }
      destruct (match prev_check s2 a with Some true => true | _ => false end).
      2:{ clear Hpl. exists []. assert (Hst : forall j, exists k, ae_reachK s a (fold_left tl_apply (firstn j []) (aq_term a, d_log s)) k).
          { intros j. exists (cached_key s). rewrite firstn_nil. right. cbn. auto. }
          destruct (ae_body P s s2 rt tr1 fs1 a) as [s' r tr fs'|s' tr]; [destruct Hsp as (_ & _ & [L Kk _ _ _ T])|destruct Hsp; discriminate].
          split; [exact (tlf_ext _ _ _ T)|]. split; [exact Hst|]. intros st E. injection E as <-.
          destruct Hd as [Hd _]. right. unfold tlp. rewrite Hd, Et, L. cbn. split; [exact Hle|]. split; [reflexivity|]. left.
          split; [reflexivity|]. rewrite Kk. exact Ek. }
      destruct (ae_plan a _ _ _ _) as [[[del sto] ok] k']. destruct Hpl as [Hj Hfin].
      exists (ae_ops (v_lastLogIdx s) del sto).
      assert (Hpre : forall j, exists k, ae_reachK s a (fold_left tl_apply (firstn j (ae_ops (v_lastLogIdx s) del sto)) (aq_term a, d_log s)) k).
      { intros j. destruct (Hj j) as [J1 [J2|(k & J2)]]; [exists (cached_key s)|exists k]; right; auto 10. }
      assert (Hfinal : forall st tr, ae_post P a s2 tr1 (ae_log (d_log s) (v_lastLogIdx s) del sto) k'
                                     (v_commit st) sto (ae_ops (v_lastLogIdx s) del sto) st tr -> d_term st = d_term s2 ->
                                     ae_reachK s a (tlp st) (cached_key st)).
      { intros st tr [L Kk _ _ _ _] Hdt. right. unfold tlp. rewrite Hdt, Et, L. cbn. split; [exact Hle|]. split; [reflexivity|].
        rewrite Kk.
        destruct Hfin as [[-> ->]|Hfin]; [left; split; [reflexivity|]|right; auto].
        exact Ek. }
      destruct (ae_body P s s2 rt tr1 fs1 a) as [s' r tr fs'|s' tr].
      - destruct Hsp as (_ & _ & Hp). split; [exact (tlf_ext _ _ _ (ap_trace _ _ _ _ _ _ _ _ _ _ _ Hp))|]. split; [exact Hpre|].
        intros st E. injection E as <-. rewrite <- (ap_commit _ _ _ _ _ _ _ _ _ _ _ Hp) in Hp. apply (Hfinal s' tr Hp), Hd.
      - destruct Hsp as (_ & Hp & _). split; [exact (tlf_ext _ _ _ (ap_trace _ _ _ _ _ _ _ _ _ _ _ Hp))|]. split; [exact Hpre|].
        intros st E. discriminate. }
    destruct (append_entries_enter P s fs a) as [[_ E]|[[_ E]|(s2 & tr1 & fs1 & (Hle & [(He & -> & ->)|(-> & ->)]) & E)]]; rewrite E.
    - split; [intros j; exists (cached_key s); rewrite firstn_nil; left; auto|].
      intros st H. injection H as <-. left. auto.
    - split; [intros j; exists (cached_key s); rewrite firstn_nil; left; auto|discriminate].
    - destruct (Hb (set_leader s (aq_addr a) (aq_id a)) (aq_term a) [] fs1) as (ops & Htr & Hj & Hst);
        [lia|cbn; lia|reflexivity|reflexivity|exact (fun H => H)|].
      cbv zeta in *. rewrite Htr. split; [|exact Hst]. intros j. cbn [tlf filter app].
      unfold tlp. replace (d_term s) with (aq_term a) by lia. apply Hj.
    - destruct (Hb (set_leader (set_vol_term (set_durable_term (set_state s Follower) (aq_term a)) (aq_term a)) (aq_addr a) (aq_id a))
                   (aq_term a) [ESetTerm (aq_term a) true] fs1) as (ops & Htr & Hj & Hst);
        [lia|reflexivity|reflexivity|reflexivity|exact (fun H => H)|].
      cbv zeta in *. rewrite Htr. split; [|exact Hst]. intros [|j]; [exists (cached_key s); left; auto|].
      cbn [tlf filter is_tl app firstn fold_left tl_apply]. apply Hj.
  Qed.
End Shape.

(* the conflict as appendEntries finds it: the first index at which the request and the log disagree *)
Definition KS (m : gmap N entry) (a : areq) (c : N) (news : list entry) : Prop := first_conflict m (aq_entries a) = Some c.
Definition ae_logS := ae_logK KS.
Definition ae_reachS := ae_reachK KS.

Lemma scan_okS m top a : contig (aq_prevIdx a) (aq_entries a) -> (forall i, top < i -> m !! i = None) -> scan_okK KS m top a.
Proof.
  intros Hc Hcache. pose proof (scan_spec m top (aq_entries a) (aq_prevIdx a) Hc Hcache) as Hs. unfold scan_okK.
  destruct (scan_entries m top (aq_entries a)) as [news|c news| |]; [destruct Hs as [_ Hs]; exact Hs|exact Hs|exact I|exact I].
Qed.

Theorem append_reachS P s fs a : wfu s -> cache_ok s -> contig (aq_prevIdx a) (aq_entries a) ->
  (forall j, exists k, ae_reachS s a (fold_left tl_apply (firstn j (tlf (trace_of (append_entries P s fs a)))) (tlp s)) k) /\
  (forall st, done_st (append_entries P s fs a) = Some st -> ae_reachS s a (tlp st) (cached_key st)).
Proof. intros Hw Hcache Hc. apply (append_reachK KS), scan_okS; assumption. Qed.
