(* ClusterLogCut.v — crash cuts: a step that ran a handler returns the handler's state, or the process
   died and NewRaft ran on a crash image (finish_cases); the durable image left by a crash inside a
   handler is the replay of a PREFIX of the handler's trace (finish_replay; prefix_dlf drops the items that
   do not move the image).  Two projections of a
   durable image: (term, log store), which only successful term writes, stores and deletes move, and
   dimg, which adds the snapshot store and the two durable commit indices; how the first is read off
   the second (image_tl), and a bound on the commit indices along a trace (fold_staged).
   Names: tl = (term, log): tlp s the pair of a state, tl_apply one trace item applied to it, is_tl / tlf the items
   that move it and the trace filtered to them; d = dimg: dpr s the image of a state, d_apply one item applied to
   it, is_rel / dlf the items that move it ("relevant") and the trace filtered to them; dtl d the (term, log) of a dimg. *)
From Coq Require Import List NArith Bool Lia.
From stdpp Require Import gmap.
From RaftModel Require Import Base Node NodeCodec.
From RaftProofs Require Import NodeFrame.
Open Scope N_scope.

Definition trace_of {R} (o : outcome R) : list ev := match o with Done _ _ tr _ | Panic _ tr => tr end.
Definition done_st {R} (o : outcome R) : option nstate := match o with Done s _ _ _ => Some s | Panic _ _ => None end.

Lemma finish_cases {R} P (enc : R -> list N) (mk : R -> nobs) si s cut (o : outcome R) r' ob out :
  finish P enc mk si s cut o = (r', ob, out) ->
  (exists s1 r tr fs', o = Done s1 r tr fs' /\ r' = Up s1 /\ ob = mk r) \/
  (exists k oo, boot P (cut_image P si s (trace_of o) k) = (r', oo) /\ ob = OLost).
Proof.
  unfold finish. destruct o as [s1 r tr fs'|s1 tr].
  - destruct ((0 <? cut) && (N.to_nat cut <=? count_durable tr)%nat).
    + destruct (boot P (cut_image P si s tr (N.to_nat cut))) as [rr oo] eqn:EB.
      intros H; inversion H; subst. right. exists (N.to_nat cut), oo. auto.
    + intros H; inversion H; subst. left. exists s1, r, tr, fs'. auto.
  - destruct (boot P (cut_image P si s tr (length tr))) as [rr oo] eqn:EB.
    intros H; inversion H; subst. right. exists (length tr), oo. auto.
Qed.

(* the (current term, log store) projection of a durable image under one trace item *)
Definition tl_apply (d : N * gmap N entry) (e : ev) : N * gmap N entry :=
  match e with
  | ESetTerm t true => (t, snd d)
  | EStore es true => (fst d, log_store (snd d) es)
  | EDelete lo hi true => (fst d, log_delete (snd d) lo hi)
  | _ => d
  end.

Definition tlp (s : nstate) : N * gmap N entry := (d_term s, d_log s).

Definition is_tl (e : ev) : bool :=
  match e with ESetTerm _ true | EStore _ true | EDelete _ _ true => true | _ => false end.
Definition tlf (tr : list ev) : list ev := List.filter is_tl tr.

Lemma tl_apply_not d e : is_tl e = false -> tl_apply d e = d.
Proof. destruct e as [t ok|t ok|c ok|es ok|lo hi ok|c|i t ok|e|i|dd]; simpl; try reflexivity; destruct ok; try reflexivity; discriminate. Qed.

Lemma prefix_tlf tr : forall d j,
  exists j', fold_left tl_apply (firstn j tr) d = fold_left tl_apply (firstn j' (tlf tr)) d.
Proof. apply prefix_filter. intros d e. apply tl_apply_not. Qed.

Lemma tlf_app a b : tlf (a ++ b) = tlf a ++ tlf b.
Proof. apply filter_app. Qed.

Lemma fold_tlf tr : forall d, fold_left tl_apply tr d = fold_left tl_apply (tlf tr) d.
Proof. apply fold_filter. intros d e. apply tl_apply_not. Qed.

(* what of a server survives a crash, as far as the cluster proofs look at it: beside term and log store the
   snapshot store and the staged / persisted commit index (RestoreCommittedLogs reads them at the next boot).
   (term, log store) above is the view of it in which the analysis of appendEntries is stated. *)
Record dimg := mkD { di_term : N; di_log : gmap N entry; di_snaps : list snapshot; di_staged : N; di_pcommit : N }.

Definition dpr (s : nstate) : dimg := mkD (d_term s) (d_log s) (d_snaps s) (d_staged s) (d_pcommit s).

Definition d_apply (P : params) (si : option snapshot) (d : dimg) (e : ev) : dimg :=
  match e with
  | ESetTerm t true => mkD t (di_log d) (di_snaps d) (di_staged d) (di_pcommit d)
  | EStore es true => mkD (di_term d) (log_store (di_log d) es) (di_snaps d) (di_staged d)
                          (if p_track P then di_staged d else di_pcommit d)
  | EDelete lo hi true => mkD (di_term d) (log_delete (di_log d) lo hi) (di_snaps d) (di_staged d) (di_pcommit d)
  | EStage c => if p_track P then mkD (di_term d) (di_log d) (di_snaps d) c (di_pcommit d) else d
  | ESnap _ _ true => match si with
                      | Some sn => mkD (di_term d) (di_log d) (di_snaps d ++ [sn]) (di_staged d) (di_pcommit d)
                      | None => d
                      end
  | _ => d
  end.

Lemma dpr_apply_ev P si s e : dpr (apply_ev P si s e) = d_apply P si (dpr s) e.
Proof.
  destruct e as [t ok|t ok|c ok|es ok|lo hi ok|c|i t ok|e|i|d]; simpl; try reflexivity;
    try (destruct ok; reflexivity).
  - destruct (p_track P); reflexivity.
  - destruct ok; [|reflexivity]. destruct si; reflexivity.
Qed.

Lemma cut_image_d P si tr : forall s k,
  exists j, dpr (cut_image P si s tr k) = fold_left (d_apply P si) (firstn j tr) (dpr s).
Proof. apply cut_image_replay. apply dpr_apply_ev. Qed.

Definition is_rel (e : ev) : bool :=
  match e with ESetTerm _ true | EStore _ true | EDelete _ _ true | EStage _ | ESnap _ _ true => true | _ => false end.
Definition dlf (tr : list ev) : list ev := List.filter is_rel tr.

Lemma d_apply_not P si d e : is_rel e = false -> d_apply P si d e = d.
Proof.
  intros H. destruct e as [t ok|t ok|c ok|es ok|lo hi ok|c|i t ok|e|i|dd]; simpl in *; try reflexivity; try discriminate;
    destruct ok; try reflexivity; discriminate.
Qed.

Lemma prefix_dlf P si tr : forall d j,
  exists j', fold_left (d_apply P si) (firstn j tr) d = fold_left (d_apply P si) (firstn j' (dlf tr)) d.
Proof. apply prefix_filter. intros d e. apply d_apply_not. Qed.

(* a handler completed, or the process died inside it: NewRaft ran on the replay of a prefix of its durable writes *)
Lemma finish_replay {R} P (enc : R -> list N) (mk : R -> nobs) si s cut (o : outcome R) r' ob out :
  finish P enc mk si s cut o = (r', ob, out) ->
  (exists s1 r tr fs', o = Done s1 r tr fs' /\ r' = Up s1 /\ ob = mk r) \/
  (exists img oo j, boot P img = (r', oo) /\ ob = OLost /\
     dpr img = fold_left (d_apply P si) (firstn j (trace_of o)) (dpr s)).
Proof.
  intros HF. destruct (finish_cases P enc mk si s cut o r' ob out HF) as [H|(k & oo & HB & ->)]; [left; exact H|right].
  destruct (cut_image_d P si (trace_of o) s k) as (j & Hj). exists (cut_image P si s (trace_of o) k), oo, j. auto.
Qed.

(* the (term, log store) view of a crash image taken without snapshot info *)
Definition dtl (d : dimg) : N * gmap N entry := (di_term d, di_log d).

Lemma d_apply_tl P d e : dtl (d_apply P None d e) = tl_apply (dtl d) e /\ di_snaps (d_apply P None d e) = di_snaps d.
Proof.
  destruct e as [t ok|t ok|c ok|es ok|lo hi ok|c|i t ok|e|i|dd]; simpl; try (split; reflexivity);
    try (destruct ok; split; reflexivity).
  destruct (p_track P); split; reflexivity.
Qed.

Lemma fold_d_tl P l : forall d, dtl (fold_left (d_apply P None) l d) = fold_left tl_apply l (dtl d) /\
  di_snaps (fold_left (d_apply P None) l d) = di_snaps d.
Proof.
  induction l as [|e r IH]; intros d; simpl; [auto|].
  destruct (IH (d_apply P None d e)) as [-> ->]. destruct (d_apply_tl P d e) as [-> ->]. auto.
Qed.

(* such an image keeps the snapshot store, and its (term, log store) view is the replay of a prefix of the
   successful term / store / delete operations *)
Lemma image_tl P s tr j : let d := fold_left (d_apply P None) (firstn j tr) (dpr s) in
  di_snaps d = d_snaps s /\ exists j', dtl d = fold_left tl_apply (firstn j' (tlf tr)) (tlp s).
Proof.
  cbv zeta. destruct (fold_d_tl P (firstn j tr) (dpr s)) as [E1 E2]. split; [exact E2|]. rewrite E1.
  apply (prefix_tlf tr (dtl (dpr s)) j).
Qed.

(* the two durable commit indices stay below a bound that the staged values respect *)
Definition stage_le (X : N) (e : ev) : Prop := match e with EStage c => c <= X | _ => True end.

Lemma d_apply_staged P si X d e : stage_le X e -> di_staged d <= X -> di_pcommit d <= X ->
  di_staged (d_apply P si d e) <= X /\ di_pcommit (d_apply P si d e) <= X.
Proof.
  intros He H1 H2. destruct e as [t ok|t ok|c ok|es ok|lo hi ok|c|i t ok|e|i|dd]; simpl in *; auto;
    try destruct ok; try destruct si; try destruct (p_track P); simpl; auto.
Qed.

Lemma fold_staged P si X l : Forall (stage_le X) l -> forall d, di_staged d <= X -> di_pcommit d <= X ->
  di_staged (fold_left (d_apply P si) l d) <= X /\ di_pcommit (fold_left (d_apply P si) l d) <= X.
Proof.
  induction 1 as [|e r He _ IH]; intros d H1 H2; simpl; [auto|].
  destruct (d_apply_staged P si X d e He H1 H2). apply IH; assumption.
Qed.

Lemma Forall_prefix {A} (Q : A -> Prop) l j : Forall Q l -> Forall Q (firstn j l).
Proof. intros H. rewrite <- (firstn_skipn j l) in H. apply Forall_app in H. apply H. Qed.
