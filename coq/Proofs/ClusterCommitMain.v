(* ClusterCommitMain.v — STATE MACHINE SAFETY, LEADER COMPLETENESS and applied <= commit <= lastIndex
   for the cluster transition system Model/ClusterCommit.v (no snapshots), with the commit rule of
   appendEntries after the fix: commit (commitIndex <= index of the last entry of the accepted request).

   The theorems are read off the development with snapshots (Proofs/ClusterCommitSnapMain.v) at
   takeSnapshot disabled: every step keeps zinvg of Proofs/ClusterCommitSnapInv2.v at fsm = false, that is
   without its clauses about the FSM index (reach_zinv_plain), no server ever holds a snapshot
   (crun_no_snaps, Proofs/ClusterCommitLog.v), and so "holds the entry or its snapshot covers the index"
   is "holds the entry".

   Side conditions (Proofs/ClusterCommitSpec.v): cinit_ok (in particular RestoreCommittedLogs off and
   nobody has voted in its current term), and along the run no LogConfiguration entry is proposed
   and no stray RequestVote is injected (label_ok; Proofs/ClusterCommitCex.v shows what a forged
   vote request does).  Everything else is free: timers, vote requests and answers of real
   candidates delivered late, repeatedly or never, pre-votes, restarts, TimeoutNow, proposals,
   requests built for the follower's nextIndex with ANY lastIndex, heartbeats, deliveries in any
   order and any number of times, store failures (including DeleteRange) and crash cuts inside
   every handler, answers returning or calls given up, the leader loop committing at any time. *)
From Coq Require Import List NArith Bool Lia.
From stdpp Require Import gmap.
From RaftModel Require Import Base Config Node Cluster ClusterLog ClusterCommit.
From RaftProofs Require Import ClusterLogChain ClusterLogNode ClusterCommitSpec ClusterCommitInit ClusterCommitLog
  ClusterCommitGhost ClusterCommitUpd ClusterCommitSnapLog ClusterCommitSnapInv2 ClusterCommitSnapMain.
Open Scope N_scope.

Section Plain.
  Variable cfg : config.
  Variable Ps : list params.
  Variable fsm : bool.
  Hypothesis HVn : NoDup (voters cfg).
  Variables (g : cgstate) (C : chain) (LL : LLt) (A : At) (V : Vt).
  Hypothesis HI : zinvg cfg Ps fsm g C LL A V.
  Hypothesis Hns : no_snaps g.

  (* no snapshot anywhere: a Leader that holds an entry or runs on a snapshot covering it holds it *)
  Lemma known_leader_holds_plain T e : known_committed cfg C LL A (T, e) ->
    forall l sl, In l (cnodes g) -> gn_run l = NodeCodec.Up sl -> v_role sl = Leader -> T <= v_term sl ->
    d_log sl !! e_idx e = Some e.
  Proof.
    intros Hk l sl Hl Rl Hrole Hterm.
    destruct (known_leader_holds cfg Ps fsm HVn g C LL A V HI T e Hk l sl Hl Rl Hrole Hterm) as [H|H]; [exact H|exfalso].
    destruct Hk as [(p & Pe) _]. destruct (co_idx C (ci_ok (zg_ci HI)) e p Pe) as [Hei _].
    rewrite (proj2 (Hns l Hl) sl Rl) in H. lia.
  Qed.

  Lemma zinv_leader_complete : leader_complete g.
  Proof.
    intros a l sa sl Ha Hl Ra Rl Hrole Hterm i e Hi He.
    destruct (log_known cfg Ps fsm g C LL A V HI a sa i e Ha Ra He Hi) as [<- Hk].
    destruct (znode_zup_wfu HI a sa Ha Ra) as [_ [_ Hwa]]. apply (known_leader_holds_plain _ e Hk l sl Hl Rl Hrole). lia.
  Qed.

  Lemma zinv_applied_within_commit : applied_within_commit g.
  Proof.
    intros a sa Ha Ra. destruct (zinv_applied_within_snap cfg Ps fsm g C LL A V HI a sa Ha Ra) as [H1 H2].
    rewrite (proj2 (Hns a Ha) sa Ra) in H1. split; [lia|exact H2].
  Qed.
End Plain.

(* STATE MACHINE SAFETY, LEADER COMPLETENESS, applied <= commit <= lastIndex *)
Theorem state_machine_safety : forall cfg g0 ls g,
  cinit_ok cfg g0 -> Forall label_ok ls -> crun false [cfg] g0 ls = Some g ->
  committed_agree g /\ leader_complete g /\ applied_within_commit g.
Proof.
  intros cfg g0 ls g H0 Hls Hrun. destruct (reach_zinv_plain cfg g0 ls g H0 Hls Hrun) as (HVn & (C & LL & A & V & HI) & Hns).
  split; [|split].
  - apply (zinv_committed_agree cfg _ false HVn g C LL A V HI).
  - apply (zinv_leader_complete cfg _ false HVn g C LL A V HI Hns).
  - apply (zinv_applied_within_commit cfg _ false g C LL A V HI Hns).
Qed.

Print Assumptions state_machine_safety.

(* non-vacuity: every initial state the driver ClusterCommit.run_clustercommit builds, for any number of
   servers and any initial logs it can express *)
Corollary state_machine_safety_driver : forall n extras ls g,
  Forall label_ok ls ->
  crun false [mk_cfg n]
    (mkCG (mkLG (mkG (map (fun p => mk_node (mk_cfg n) (N.of_nat (fst p)) (snd p)) (combine (seq 1 n) extras)) [] [] []) []) [] [] []) ls = Some g ->
  committed_agree g /\ leader_complete g /\ applied_within_commit g.
Proof. intros n extras ls g. apply state_machine_safety. apply mk_nodes_cinit. Qed.
