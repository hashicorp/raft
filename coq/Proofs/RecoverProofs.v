(* Crash recovery (C10) and the order in which entries reach the FSM (C02, stream part). *)
From Coq Require Import List NArith Bool Lia.
From stdpp Require Import gmap.
From RaftModel Require Import Base Node NodeCodec.
Open Scope N_scope.

(* processLogs hands over exactly log(lastApplied, index], in increasing index order, each entry once *)
Lemma collect_logs_spec m : forall n a es,
  collect_logs m a n = Some es ->
  length es = n /\
  forall k, (k < n)%nat -> m !! (a + 1 + N.of_nat k) = Some (nth k es (mkE 0 0 0 0)).
Proof.
  induction n as [|n IH]; intros a es H; simpl in H.
  - inversion H; subst. split; [reflexivity|]. intros k Hk. lia.
  - destruct (m !! (a + 1)) as [e|] eqn:Hm; [|discriminate].
    destruct (prepare_kind (e_ty e) =? 3); [discriminate|].
    destruct (collect_logs m (a + 1) n) as [r|] eqn:Hr; [|discriminate].
    inversion H; subst. destruct (IH _ _ Hr) as [IH1 IH2]. split; [simpl; lia|].
    intros k Hk. destruct k as [|k]; simpl.
    + rewrite N.add_0_r. exact Hm.
    + replace (a + 1 + N.pos (Pos.of_succ_nat k)) with (a + 1 + 1 + N.of_nat k) by lia.
      apply IH2. lia.
Qed.

Definition handed (e : entry) : bool := prepare_kind (e_ty e) =? 1.

(* the k-th entry collected has index applied+1+k: strictly increasing by one, nothing skipped,
   nothing repeated; what reaches the FSM is the sub-sequence of the types that are handed over *)
Theorem process_logs_stream s idx s' tr :
  process_logs s idx = Some (s', tr) -> v_applied s < idx ->
  exists es,
    length es = N.to_nat (idx - v_applied s) /\
    (forall k, (k < length es)%nat -> d_log s !! (v_applied s + 1 + N.of_nat k) = Some (nth k es (mkE 0 0 0 0))) /\
    tr = flat_map fsm_events (filter handed es) /\
    v_applied s' = idx /\
    v_fsm s' = fold_left fsm_apply (filter handed es) (v_fsm s) /\
    d_log s' = d_log s.
Proof.
  unfold process_logs. intros H Hlt. destruct (N.leb_spec idx (v_applied s)); [lia|].
  destruct (collect_logs (d_log s) (v_applied s) (N.to_nat (idx - v_applied s))) as [es|] eqn:E; [|discriminate].
  inversion H; subst. destruct (collect_logs_spec _ _ _ _ E) as [L1 L2].
  exists es. split; [exact L1|]. split; [intros k Hk; apply L2; lia|]. repeat split.
Qed.

Theorem process_logs_old_index s idx : idx <= v_applied s -> process_logs s idx = Some (s, []).
Proof. intros H. unfold process_logs. destruct (N.leb_spec idx (v_applied s)); [reflexivity|lia]. Qed.

Lemma fsm_apply_command fsm e : e_ty e = LogCommand -> fsm_apply fsm e = fsm ++ [e_data e].
Proof. intros H. unfold fsm_apply. rewrite H. reflexivity. Qed.

Definition durable_eq (a b : nstate) : Prop :=
  d_term a = d_term b /\ d_vterm a = d_vterm b /\ d_vcand a = d_vcand b /\ d_log a = d_log b /\
  d_staged a = d_staged b /\ d_pcommit a = d_pcommit b /\ d_snaps a = d_snaps b.

Lemma durable_eq_refl a : durable_eq a a.
Proof. repeat split. Qed.

Lemma durable_eq_trans a b c : durable_eq a b -> durable_eq b c -> durable_eq a c.
Proof. unfold durable_eq. intuition congruence. Qed.

Lemma process_logs_durable s idx s' tr : process_logs s idx = Some (s', tr) -> durable_eq s' s.
Proof.
  unfold process_logs. destruct (idx <=? v_applied s).
  - intros H; inversion H; apply durable_eq_refl.
  - destruct (collect_logs _ _ _); [|discriminate]. intros H; inversion H; repeat split.
Qed.

Lemma process_config_entry_durable P s e : durable_eq (process_config_entry P s e) s.
Proof. unfold process_config_entry. destruct (e_ty e =? LogConfiguration); repeat split. Qed.

(* the configuration scan of NewRaft writes the two configurations only: the durable fields and nine volatile ones stay *)
Lemma scan_configs_keeps P n : forall s from s', scan_configs P s from n = Some s' ->
  durable_eq s' s /\ v_term s' = v_term s /\ v_applied s' = v_applied s /\ v_fsm s' = v_fsm s /\
  v_lastLogIdx s' = v_lastLogIdx s /\ v_lastLogTerm s' = v_lastLogTerm s /\
  v_lastSnapIdx s' = v_lastSnapIdx s /\ v_lastSnapTerm s' = v_lastSnapTerm s /\ v_role s' = v_role s /\
  v_commit s' = v_commit s.
Proof.
  induction n as [|n IH]; intros s from s' H; simpl in H.
  - inversion H; subst. repeat split.
  - destruct (d_log s !! from) as [e|]; [|discriminate]. apply IH in H.
    destruct H as (H0 & H1 & H2 & H3 & H4 & H5 & H6 & H7 & H8 & H9).
    split; [eapply durable_eq_trans; [exact H0|apply process_config_entry_durable]|].
    unfold process_config_entry in *. destruct (e_ty e =? LogConfiguration); simpl in *; repeat split; assumption.
Qed.

(* the last step of NewRaft (finding F13): a restored commit index that covers the latest configuration
   marks it committed; only v_committed / v_committedIdx change *)
Definition rec_fin (s : nstate) : nstate :=
  if (0 <? v_commit s) && (v_latestIdx s <=? v_commit s)
  then set_committed s (v_latest s) (v_latestIdx s) else s.

Lemma rec_fin_commit0 s : v_commit s = 0 -> rec_fin s = s.
Proof. intros H. unfold rec_fin. rewrite H. reflexivity. Qed.

Lemma rec_fin_cases s : rec_fin s = s \/ rec_fin s = set_committed s (v_latest s) (v_latestIdx s).
Proof. unfold rec_fin. destruct (_ && _); auto. Qed.

Lemma scan_configs_keeps_fin P n s from s' : scan_configs P s from n = Some s' ->
  durable_eq (rec_fin s') s /\ v_term (rec_fin s') = v_term s /\ v_applied (rec_fin s') = v_applied s /\
  v_fsm (rec_fin s') = v_fsm s /\
  v_lastLogIdx (rec_fin s') = v_lastLogIdx s /\ v_lastLogTerm (rec_fin s') = v_lastLogTerm s /\
  v_lastSnapIdx (rec_fin s') = v_lastSnapIdx s /\ v_lastSnapTerm (rec_fin s') = v_lastSnapTerm s /\
  v_role (rec_fin s') = v_role s /\ v_commit (rec_fin s') = v_commit s.
Proof.
  intros H. apply scan_configs_keeps in H. unfold rec_fin. destruct (_ && _); exact H.
Qed.

Lemma rec_snapshot_commit s2 s3 tr3 : rec_snapshot s2 = Some (s3, tr3) -> v_commit s3 = v_commit s2.
Proof.
  unfold rec_snapshot. destruct (find sn_ok _) as [sn|].
  - intros H; inversion H; reflexivity.
  - destruct (list_snaps _); [|discriminate]. intros H; inversion H; reflexivity.
Qed.

(* A NewRaft that returns went through its four stages, and this is what each did.  s2: fresh volatile state with the
   stored term and the last log entry le; s3: the newest usable snapshot restored, if there is one (none is usable only
   if none is stored); s4: restoreFromCommittedLogs, off or one processLogs up to the durable commit index; s5: the
   configuration scan; then the closing step of finding F13. *)
Lemma recover_stages P img s tr : recover P img = RecOk s tr ->
  exists le s3 tr3 s4 tr4 s5,
    let s2 := set_lastlog (set_vol_term (fresh_volatile img) (d_term img)) (e_idx le) (e_term le) in
    rec_last (set_vol_term (fresh_volatile img) (d_term img)) = Some le /\
    match find sn_ok (list_snaps (d_snaps img)) with
    | Some sn => tr3 = [ERestore (sn_data sn)] /\
        s3 = set_latest (set_committed (set_lastsnap (set_applied s2 (sn_idx sn) (sn_data sn)) (sn_idx sn) (sn_term sn))
                                       (sn_cfg sn) (sn_cfgidx sn)) (sn_cfg sn) (sn_cfgidx sn)
    | None => list_snaps (d_snaps img) = [] /\ tr3 = [] /\ s3 = s2
    end /\
    ((p_rc P = false /\ s4 = s3 /\ tr4 = []) \/
     (p_rc P = true /\ p_track P = true /\
      let ci := N.min (d_pcommit s3) (log_last (d_log s3)) in process_logs (set_commit s3 ci) ci = Some (s4, tr4))) /\
    scan_configs P s4 (v_lastSnapIdx s4 + 1) (N.to_nat (e_idx le + 1 - (v_lastSnapIdx s4 + 1))) = Some s5 /\
    s = rec_fin s5 /\ tr = ESetTerm (d_term img) true :: tr3 ++ tr4.
Proof.
  unfold recover. destruct (rec_last _) as [le|] eqn:EL; [|discriminate].
  destruct (rec_snapshot _) as [[s3 tr3]|] eqn:E3; [|discriminate].
  destruct (rec_committed P s3) as [| | |s4 tr4] eqn:E4; try discriminate.
  destruct (scan_configs _ _ _ _) as [s5|] eqn:ES; [|discriminate].
  fold (rec_fin s5). intros H; injection H as <- <-. exists le, s3, tr3, s4, tr4, s5. cbv zeta.
  split; [reflexivity|]. split; [|split; [|auto]].
  - unfold rec_snapshot in E3. cbn [d_snaps set_lastlog set_vol_term fresh_volatile] in E3.
    destruct (find sn_ok (list_snaps (d_snaps img))) as [sn|]; [injection E3 as <- <-; auto|].
    destruct (list_snaps (d_snaps img)); [injection E3 as <- <-; auto|discriminate].
  - unfold rec_committed in E4. destruct (p_rc P); [right|injection E4 as <- <-; auto].
    destruct (p_track P); [|discriminate]. cbn [negb] in E4.
    destruct (process_logs _ _) as [[s4' tr4']|]; [|discriminate]. destruct (_ <? _); [discriminate|].
    injection E4 as <- <-. auto.
Qed.

(* every stored entry sits under its own index (kept by log_store / log_delete: end of this file) *)
Definition keys_ok (m : gmap N entry) : Prop := forall i e, m !! i = Some e -> e_idx e = i.

(* What a successful NewRaft yields, for ANY durable image: *)
Theorem recover_ok P img s tr : keys_ok (d_log img) -> recover P img = RecOk s tr ->
  durable_eq s img /\
  v_term s = d_term img /\ v_role s = Follower /\
  (* the cached tail is the last entry of the log store *)
  v_lastLogIdx s = log_last (d_log img) /\
  (if 0 <? log_last (d_log img)
   then exists e, d_log img !! log_last (d_log img) = Some e /\ v_lastLogTerm s = e_term e
   else v_lastLogTerm s = 0) /\
  (* the snapshot used is the first usable one of the listing (newest first) *)
  (match find sn_ok (list_snaps (d_snaps img)) with
   | Some sn => v_lastSnapIdx s = sn_idx sn /\ v_lastSnapTerm s = sn_term sn
   | None => v_lastSnapIdx s = 0 /\ list_snaps (d_snaps img) = []
   end) /\
  (* without RestoreCommittedLogs the FSM holds exactly that snapshot, and nothing is applied *)
  (p_rc P = false ->
   match find sn_ok (list_snaps (d_snaps img)) with
   | Some sn => v_fsm s = sn_data sn /\ v_applied s = sn_idx sn /\ tr = [ESetTerm (d_term img) true; ERestore (sn_data sn)]
   | None => v_fsm s = [] /\ v_applied s = 0 /\ tr = [ESetTerm (d_term img) true]
   end).
Proof.
  intros Hkeys H. destruct (recover_stages _ _ _ _ H) as (le & s3 & tr3 & s4 & tr4 & s5 & EL & E3 & E4 & ES & -> & ->).
  clear H.
  apply scan_configs_keeps_fin in ES.
  destruct ES as (D5 & T5 & A5 & F5 & LI5 & LT5 & SI5 & ST5 & R5 & C5).
  (* facts about s3 *)
  cbv zeta in E3.
  assert (H3 : durable_eq s3 img /\ v_term s3 = d_term img /\ v_role s3 = Follower /\
               v_lastLogIdx s3 = e_idx le /\ v_lastLogTerm s3 = e_term le /\ v_commit s3 = 0 /\
               match find sn_ok (list_snaps (d_snaps img)) with
               | Some sn => v_lastSnapIdx s3 = sn_idx sn /\ v_lastSnapTerm s3 = sn_term sn /\ v_fsm s3 = sn_data sn /\
                            v_applied s3 = sn_idx sn /\ tr3 = [ERestore (sn_data sn)]
               | None => v_lastSnapIdx s3 = 0 /\ list_snaps (d_snaps img) = [] /\ v_fsm s3 = [] /\ v_applied s3 = 0 /\ tr3 = []
               end).
  { destruct (find sn_ok (list_snaps (d_snaps img))) as [sn|]; [destruct E3 as [-> ->]|destruct E3 as (E0 & -> & ->)];
      repeat split; exact E0. }
  destruct H3 as (D3 & T3 & R3 & LI3 & LT3 & C3 & S3).
  (* facts about s4 *)
  assert (H4 : durable_eq s4 s3 /\ v_term s4 = v_term s3 /\ v_role s4 = v_role s3 /\
               v_lastLogIdx s4 = v_lastLogIdx s3 /\ v_lastLogTerm s4 = v_lastLogTerm s3 /\
               v_lastSnapIdx s4 = v_lastSnapIdx s3 /\ v_lastSnapTerm s4 = v_lastSnapTerm s3 /\
               (p_rc P = false -> s4 = s3 /\ tr4 = [])).
  { destruct E4 as [(_ & -> & ->)|(Erc & _ & EP)]; [repeat split; apply durable_eq_refl|]. cbv zeta in EP.
    pose proof (process_logs_durable _ _ _ _ EP) as Dp. rewrite Erc. unfold process_logs in EP.
    match type of EP with context [if ?B then _ else _] => destruct B end.
    - inversion EP; subst. repeat split; discriminate.
    - destruct (collect_logs _ _ _); [|discriminate]. inversion EP; subst. split; [exact Dp|]. repeat split; discriminate. }
  destruct H4 as (D4 & T4 & R4 & LI4 & LT4 & SI4 & ST4 & NR4).
  assert (Hle : e_idx le = log_last (d_log img) /\
                (if 0 <? log_last (d_log img)
                 then exists e, d_log img !! log_last (d_log img) = Some e /\ e_term le = e_term e
                 else e_term le = 0)).
  { unfold rec_last in EL. change (d_log (set_vol_term (fresh_volatile img) (d_term img))) with (d_log img) in EL.
    destruct (N.ltb_spec 0 (log_last (d_log img))).
    - split; [apply Hkeys; exact EL|]. exists le. auto.
    - inversion EL; subst. simpl. split; [lia|reflexivity]. }
  destruct Hle as [Hle1 Hle2].
  split. { eapply durable_eq_trans; [exact D5|]. eapply durable_eq_trans; [exact D4|exact D3]. }
  split. { congruence. }
  split. { congruence. }
  split. { congruence. }
  split. { rewrite LT5, LT4, LT3. exact Hle2. }
  split.
  { destruct (find sn_ok (list_snaps (d_snaps img))) as [sn|].
    - destruct S3 as (A & B & _). split; congruence.
    - destruct S3 as (A & B & _). split; [congruence|exact B]. }
  intros Hrc. destruct (NR4 Hrc) as [-> ->].
  destruct (find sn_ok (list_snaps (d_snaps img))) as [sn|].
  - destruct S3 as (_ & _ & A & B & ->). rewrite F5, A5. auto.
  - destruct S3 as (_ & _ & A & B & ->). rewrite F5, A5. auto.
Qed.

(* a restart: NewRaft returned a state, or the process stays down with its image *)
Lemma boot_cases P img r oo : boot P img = (r, oo) ->
  (exists s tr, recover P img = RecOk s tr /\ r = Up s) \/ r = Down img.
Proof. unfold boot. destruct (recover P img) as [s tr| | |]; intros H; inversion H; eauto. Qed.

Lemma keys_ok_empty : keys_ok ∅.
Proof. intros i e H. rewrite lookup_empty in H. discriminate. Qed.

Lemma keys_ok_store m es : keys_ok m -> keys_ok (log_store m es).
Proof.
  unfold log_store. revert m. induction es as [|a es IH]; intros m H; simpl; [exact H|].
  apply IH. intros i e Hl. destruct (N.eq_dec (e_idx a) i) as [E|Hne].
  - rewrite E, lookup_insert in Hl. inversion Hl; subst. reflexivity.
  - rewrite lookup_insert_ne in Hl by exact Hne. apply H. exact Hl.
Qed.

Lemma keys_ok_delete m lo hi : keys_ok m -> keys_ok (log_delete m lo hi).
Proof.
  intros H i e Hl. unfold log_delete in Hl. apply map_filter_lookup_Some in Hl. apply H. tauto.
Qed.
