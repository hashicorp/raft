(* ClusterCommitSnapStepA.v — the step lemmas' common ground: the shapes a step of Model/ClusterCommit.v has, each over
   zinv_touch (Proofs/ClusterCommitSnapTouch.v).  No server changes: bookkeeping only, a message is sent, the
   leadership bookkeeping of one server changes (zinv_bookkeeping, zinv_send_msg, zinv_set_lead).  The one server it
   touches keeps its log and snapshot stores, and votes may be recorded (zinv_quiet).  The up-to-date check of
   RequestVote against getLastEntry (which may be the snapshot boundary); what a voter accepted before is below its
   last entry.  A server covers every key at or below its last entry; a leader's last entry is its last log entry.  A
   leader stored one entry after its last (leader_append: what the ghost state is asked, and the server afterwards).
   One handler ran at one server (handler_touch: the state after it; zinv_handler; zinv_handler_down), and only
   RequestVote and electSelf cast a vote (step_no_vote).  A leader's step on its volatile state (zinv_leader_vol). *)
From Coq Require Import List NArith Bool Lia.
From stdpp Require Import gmap.
From RaftModel Require Import Base Config Node Cluster NodeCodec
  ClusterLog ClusterCommit.
From RaftProofs Require Import VoteProofs ClusterProofs ClusterLogSpec ClusterLogChain ClusterLogNode
  ClusterLogLeader ClusterLogVote ClusterLogInv ClusterLogShell ClusterCommitLog ClusterCommitChain ClusterCommitGhost ClusterCommitInv ClusterCommitUpd
  ClusterCommitSnapLog ClusterCommitSnapNode ClusterCommitSnapLinv ClusterCommitSnapInv ClusterCommitSnapInv2
  ClusterCommitSnapTouch ClusterCommitSnapStepL.
Open Scope N_scope.

Section Quiet.
  Variable cfg : config.
  Variable Ps : list params.
  Variable fsm : bool.
  Hypothesis HVn : NoDup (voters cfg).

  Lemma zinv_bookkeeping g g' C LL A V mn an :
    zinvg cfg Ps fsm g C LL A V -> lg_g (cg_l g') = lg_g (cg_l g) ->
    lg_msgs (cg_l g') = lg_msgs (cg_l g) ++ mn -> zlinv [cfg] (cg_l g') C ->
    (forall m, In m mn -> msg_inv cfg Ps C LL A m) ->
    cg_ans g' = cg_ans g ++ an -> (forall x, In x an -> ans_inv g' A x) ->
    (forall n s, In n (cnodes g) -> gn_run n = Up s -> v_role s = Leader -> zlead_inv cfg g' C LL A n s) ->
    zinvg cfg Ps fsm g' C LL A V.
  Proof.
    intros HI Hg Hm Hl Hmn Ha Han Hld.
    assert (Hn : cnodes g' = cnodes g) by (unfold cnodes; rewrite Hg; reflexivity).
    assert (Hgo : gof g' = gof g) by (unfold gof; exact Hg).
    destruct HI as [I1 I2 I3 I4 N I8 I9 I10 I12 I13 I14 I16]. constructor; try rewrite Hn; try rewrite Hgo; auto.
    - intros n Hin. destruct (N n Hin). constructor; auto.
    - intros m Hin. rewrite Hm in Hin. apply in_app_iff in Hin. destruct Hin as [Hin|Hin]; [apply I8, Hin|apply Hmn, Hin].
    - intros x Hin. rewrite Ha in Hin. apply in_app_iff in Hin. destruct Hin as [Hin|Hin]; [|apply Han, Hin].
      destruct (I9 x Hin) as (m & E1 & E2). exists m. split; [rewrite Hm; apply nth_error_app_old, E1|exact E2].
  Qed.

  (* the leaderships after the bookkeeping of server i alone changed *)
  Lemma zleads_set g g' C LL A V i ld' : zinvg cfg Ps fsm g C LL A V -> cg_lead g' = set_lead (cg_lead g) i ld' ->
    (forall n s, In n (cnodes g) -> gn_run n = Up s -> v_role s = Leader -> gn_id n = i -> zlead_inv cfg g' C LL A n s) ->
    forall n s, In n (cnodes g) -> gn_run n = Up s -> v_role s = Leader -> zlead_inv cfg g' C LL A n s.
  Proof.
    intros HI Hg' Hi n s Hin Hr Hrole. destruct (N.eq_dec (gn_id n) i) as [Ei|Hne]; [apply Hi; assumption|].
    pose proof (zg_lead HI n s Hin Hr Hrole) as HZ. pose proof HZ as (_ & Z1 & _).
    apply (zlead_inv_same [] [] [] n HZ); auto. rewrite Hg'. apply find_lead_set_other, Hne.
  Qed.

  (* ... to a state with the same commitment, next index, notification and in-flight list *)
  Lemma zleads_same_cm g g' C LL A V i ld ld' : zinvg cfg Ps fsm g C LL A V ->
    find_lead (cg_lead g) i = Some ld -> cg_lead g' = set_lead (cg_lead g) i ld' ->
    ld_cm ld' = ld_cm ld -> ld_next0 ld' = ld_next0 ld -> ld_notified ld' = ld_notified ld -> ld_infl ld' = ld_infl ld ->
    forall n s, In n (cnodes g) -> gn_run n = Up s -> v_role s = Leader -> zlead_inv cfg g' C LL A n s.
  Proof.
    intros HI Hf Hg' E1 E2 E3 E4. apply (zleads_set g g' C LL A V i ld' HI Hg'). intros n s Hin Hr Hrole <-.
    pose proof (zg_lead HI n s Hin Hr Hrole) as HZ. pose proof HZ as (_ & Z1 & _).
    apply (zlead_inv_ext (ld' := ld') [] [] [] HZ eq_refl eq_refl eq_refl eq_refl Z1 Hf); auto. rewrite Hg'. apply find_lead_set_same.
  Qed.

  (* a step that changes the leadership bookkeeping of server i alone (CGiveUp, CAck without a step-down) *)
  Lemma zinv_set_lead g C LL A V i ld' : zinvg cfg Ps fsm g C LL A V ->
    (forall n s, In n (cnodes g) -> gn_run n = Up s -> v_role s = Leader -> gn_id n = i ->
       zlead_inv cfg (mkCG (cg_l g) (set_lead (cg_lead g) i ld') (cg_hb g) (cg_ans g)) C LL A n s) ->
    zinvg cfg Ps fsm (mkCG (cg_l g) (set_lead (cg_lead g) i ld') (cg_hb g) (cg_ans g)) C LL A V.
  Proof.
    intros HI Hi. apply (zinv_bookkeeping g _ C LL A V [] [] HI); try reflexivity; try (cbn; rewrite app_nil_r; reflexivity).
    - apply (zg_l HI).
    - intros m [].
    - intros x [].
    - apply (zleads_set g (mkCG (cg_l g) (set_lead (cg_lead g) i ld') (cg_hb g) (cg_ans g)) C LL A V i ld' HI eq_refl Hi).
  Qed.

  Lemma zleader_log_tchain g C LL A V n s i e : zinvg cfg Ps fsm g C LL A V -> In n (cnodes g) -> gn_run n = Up s ->
    v_role s = Leader -> d_log s !! i = Some e -> tchain C LL (v_term s) (key e).
  Proof.
    intros HI Hin Hr Hrole He. pose proof (zg_ci HI) as Hci.
    destruct (znode_zup_wfu HI n s Hin Hr) as [Hz _].
    destruct (leader_topk cfg Ps fsm g C LL A V HI n s Hin Hr Hrole) as (tl & _ & _ & _ & _ & Htc).
    apply (tchain_anc C LL Hci (v_term s) (topk s) _ Htc). apply (zs_below Hz i e He).
  Qed.

  (* a heartbeat, or a request built by setupAppendEntries, joins the network *)
  Lemma zinv_send_msg g C LL A V i n s m ldm :
    zinvg cfg Ps fsm g C LL A V -> find_node (cnodes g) i = Some n -> gn_run n = Up s -> v_role s = Leader ->
    am_from m = i -> am_from m <> am_to m -> aq_term (am_req m) = v_term s ->
    mchain C (aq_prevIdx (am_req m), aq_prevTerm (am_req m)) (aq_entries (am_req m)) ->
    (forall e, In e (aq_entries (am_req m)) -> e_term e <= v_term s) ->
    msg_inv cfg Ps C LL A m ->
    (cg_lead g = ldm \/ exists ld ld', find_lead (cg_lead g) i = Some ld /\ ldm = set_lead (cg_lead g) i ld' /\
        ld_cm ld' = ld_cm ld /\ ld_next0 ld' = ld_next0 ld /\ ld_notified ld' = ld_notified ld /\ ld_infl ld' = ld_infl ld) ->
    forall hb, zinvg cfg Ps fsm (mkCG (mkLG (lg_g (cg_l g)) (lg_msgs (cg_l g) ++ [m])) ldm hb (cg_ans g)) C LL A V.
  Proof.
    intros HI Hf Hr Hrole Hfrom Hne Ht Hmc Hts Hmi Hld hb.
    pose proof (zg_l HI) as Hl.
    apply (zinv_bookkeeping g _ C LL A V [m] [] HI); try reflexivity.
    - cbn [cg_l]. eapply (send_zlinv [cfg] (cg_l g) C i n s m); eauto.
    - intros x [<-|[]]. exact Hmi.
    - cbn [cg_ans]. rewrite app_nil_r. reflexivity.
    - intros x [].
    - destruct Hld as [<-|(ld & ld' & E1 & -> & E2 & E3 & E4 & E5)].
      + intros x sx Hx Hrx Hlx. destruct (zg_lead HI x sx Hx Hrx Hlx) as [(tl & ld & L) Z]. split; [exists tl, ld; exact L|exact Z].
      + apply (zleads_same_cm g _ C LL A V i ld ld' HI); auto.
  Qed.

  (* a step that leaves the log and snapshot stores of the server it touches alone, and may record votes *)
  Lemma zinv_quiet g g' C LL A V Vn Gn j n n' :
    zinvg cfg Ps fsm g C LL A V -> touch g g' j n n' [] [] Gn -> zlinv [cfg] (cg_l g') C ->
    quietS (gn_run n) (gn_run n') -> znodeg cfg Ps fsm (gn_P n') (gn_run n') ->
    g_leaders (gof g') = g_leaders (gof g) -> sess_req_ok n n' ->
    (forall se, gn_sess n' = Some se -> exists s, gn_run n' = Up s /\
       (last_entry s = (vq_lastIdx (se_req se), vq_lastTerm (se_req se)) \/ exists c' tl', In (vq_term (se_req se), c', tl') LL)) ->
    (forall s', gn_run n' = Up s' -> v_role s' = Leader ->
       find_lead (cg_lead g') j = find_lead (cg_lead g) j /\ exists s, gn_run n = Up s /\ v_role s = Leader /\ v_term s' = v_term s) ->
    gext cfg C [] LL [] A [] V Vn -> votes_new g' LL V Vn Gn ->
    (forall T' c, live (image (gn_run n')) = Some (T', c) -> recorded LL (Vn ++ V) j T' c) ->
    zinvg cfg Ps fsm g' C LL A (Vn ++ V).
  Proof.
    intros HI Ht Hl' Hq Hcn' Hld Hss Hse Hrole Hge Hvn Hlive. pose proof Ht as [Hfind Hid' Hnodes _ _ _ _].
    destruct (find_node_in _ _ _ Hfind) as [Hin Hid]. destruct Hq as (Hlog & Hsnaps & Hterm & Hup'). pose proof Hterm as Hdtn.
    pose proof (zg_ci HI) as Hci. pose proof (ci_ok Hci) as HC.
    pose proof (zg_n HI n Hin) as HN.
    assert (Ei : gn_id n' = gn_id n) by congruence.
    apply (zinv_touch cfg Ps fsm HVn g g' C [] LL [] A [] V Vn j n n' [] [] Gn HI Ht Hdtn Hl' Hge).
    - intros T c. rewrite Hld. apply (zg_ll HI).
    - intros y p [].
    - intros w k [].
    - constructor.
      + exact Hcn'.
      + (* commit knowledge of the server that changed *)
        intros s' Hs'. rewrite Hs' in Hup'. destruct Hup' as [(s & Hs & K)|(Hc0 & _)].
        * destruct (ni_kc HN s Hs) as [K1 K2]. destruct (rest_fields _ _ K) as ((E1 & E2 & _ & _ & _ & E6) & (_ & _ & _ & _ & L5) & _).
          unfold last_index in *. rewrite E6, E2, E1, L5. split; [exact K1|]. intros i e He Hi.
          eapply (CK_bound cfg); [|apply (K2 i e He Hi)]. rewrite Hs, Hs' in Hterm. exact Hterm.
        * rewrite Hc0. split; [lia|]. intros i e He Hi. exfalso.
          destruct (zl_nodes [cfg] _ C Hl' n' (touch_in Ht)) as [Hnl _]. rewrite Hs' in Hnl.
          pose proof (log_in_pos C _ _ i e HC (zs_in Hnl) He). lia.
      + apply (ni_sk_keep [] [] [] HN Hdtn Hsnaps).
      + (* the position of its FSM *)
        intros s' Hs' Hg. rewrite Hs' in Hup'. destruct Hup' as [(s & Hs & K)|(_ & _ & Hf & _)]; [|left; rewrite Hf; reflexivity].
        destruct (rest_fields _ _ K) as (_ & _ & _ & K4 & _). rewrite K4.
        destruct (ni_fsm HN s Hs Hg) as [E|[F1 F2]]; [left; exact E|right]. split; [exact F1|].
        eapply (CK_bound cfg); [|exact F2]. rewrite Hs, Hs' in Hterm. exact Hterm.
      + (* the server that changed, if it is (still) a leader *)
        intros s' Hs' Hr'. destruct (Hrole s' Hs' Hr') as (Efl & s & Hs & Hrs & Et).
        rewrite Hs' in Hup'. destruct Hup' as [(s0 & Hs0 & K)|(_ & Hf & _)]; [|rewrite Hf in Hr'; discriminate].
        rewrite Hs in Hs0. inversion Hs0; subst s0. destruct (rest_fields _ _ K) as ((_ & _ & _ & _ & _ & K6) & (_ & _ & K3 & K4 & K5) & _).
        pose proof (ni_lead HN s Hs Hrs) as HZ. pose proof HZ as (_ & Z1 & _).
        apply (zlead_inv_same [] [] [] n' HZ Ei Et); [unfold topk; congruence|exact K6|lia|congruence|intros y p []].
      + apply (ni_av_keep [] [] n' HN Ei Hdtn Hci HC). intros k0 _ H. unfold covers in *. rewrite Hlog, Hsnaps. exact H.
      + rewrite Hid'. exact Hlive.
      + exact Hse.
    - exact Hss.
    - intros m [].
    - intros x [].
    - exact Hvn.
  Qed.
End Quiet.

Lemma log_ok_uptodate s li lt : log_ok s li lt = true -> uptodate (li, lt) (last_entry s).
Proof.
  intros H. unfold log_ok in H. destruct (last_entry s) as [a b]. unfold uptodate. simpl.
  apply andb_prop in H. destruct H as [H1 H2]. apply negb_true_iff in H1. apply N.ltb_ge in H1.
  apply negb_true_iff in H2. destruct (N.eqb_spec b lt) as [Et|Hne]; [|lia].
  simpl in H2. apply N.ltb_ge in H2. lia.
Qed.

Lemma rest_last_entry s s' : rest s' = rest s -> last_entry s' = last_entry s.
Proof. intros K. destruct (rest_fields _ _ K) as (_ & (_ & _ & K3 & K4 & K5) & K6 & _). unfold last_entry. rewrite K3, K4, K5, K6. reflexivity. Qed.

Section Cast.
  Variable cfg : config.
  Variable Ps : list params.
  Variable fsm : bool.

  Lemma covers_last g C LL A V n s k0 : zinvg cfg Ps fsm g C LL A V -> In n (cnodes g) -> gn_run n = Up s ->
    covers C s k0 -> anc C k0 (last_entry s).
  Proof.
    intros HI Hin Hr Hc. destruct (znode_zup_wfu HI n s Hin Hr) as [Hz _]. rewrite last_entry_lk.
    destruct Hc as [(x & Hx & Ex)|(sn & Hsn & Ha)].
    - rewrite <- Ex. apply (zshape_log_lk C _ _ _ _ _ Hz _ x Hx).
    - eapply anc_trans; [exact Ha|apply (zshape_sn_lk C _ _ _ _ _ Hz sn Hsn)].
  Qed.

  Lemma zcast_va g C LL A V n s T' k k0 : zinvg cfg Ps fsm g C LL A V -> In n (cnodes g) -> gn_run n = Up s ->
    d_term s <= T' -> ll_has LL T' = false ->
    In (gn_id n, k) A -> snd k < T' -> anc C k0 k -> 1 <= fst k0 ->
    anc C k0 (last_entry s) \/ passed C LL (snd k) (fun T => T < T') k0.
  Proof.
    intros HI Hin Hr Hle Hno Ha Hlt Hanc Hpos.
    destruct (zg_av HI (gn_id n) k n k0 Ha Hin eq_refl Hanc Hpos) as [Hc|H].
    - left. rewrite Hr in Hc. simpl in Hc. apply (covers_last g C LL A V n s k0 HI Hin Hr Hc).
    - right. apply (passed_weaken _ _ _ _ _ _ _) with (2 := H). intros T2 c2 tl2 H1 H2 H3. split; [exact H2|].
      unfold dtn in H3. rewrite Hr in H3. simpl in H3.
      destruct (N.eq_dec T2 T') as [->|]; [exfalso; apply (ll_has_false LL T' c2 tl2 Hno H1)|lia].
  Qed.
End Cast.

(* every key of the server's branch: above the snapshot boundary it is in the log, at or below it the
   newest snapshot covers it *)
Lemma zup_covers C s k0 : chain_ok C -> zup C s -> anc C k0 (last_entry s) -> 1 <= fst k0 -> covers C s k0.
Proof.
  intros HC Hz Ha Hpos. rewrite last_entry_lk in Ha.
  destruct (N.le_gt_cases (fst k0) (v_lastSnapIdx s)) as [Hs|Hs].
  - right. destruct (zs_has Hz) as [E|(sn & Hsn & E)]; [simpl in E; lia|].
    exists sn. split; [exact Hsn|]. rewrite E. apply (anc_linear C k0 (bk s) _ HC Ha (zshape_b_lk C _ _ _ _ _ Hz)). simpl. exact Hs.
  - left. apply (zshape_holds C HC _ _ _ _ _ Hz k0); [|simpl; lia].
    unfold lk in Ha. destruct (N.leb_spec (fst (bk s)) (fst (topk s))); [exact Ha|].
    destruct (anc_le C _ _ HC Ha) as [Hx _]. simpl in Hx. lia.
Qed.

Lemma leader_last s : v_lastSnapIdx s <= v_lastLogIdx s -> last_entry s = topk s /\ last_index s = v_lastLogIdx s.
Proof.
  intros H. unfold last_entry, last_index, topk. destruct (N.leb_spec (v_lastSnapIdx s) (v_lastLogIdx s)); [split; [reflexivity|lia]|lia].
Qed.

Section Append.
  Variable cfg : config.
  Variable Ps : list params.

  Lemma zappend_kc C LL A C' LL' A' s s'' e : incl C C' -> incl LL LL' -> incl A A' ->
    (v_commit s <= last_index s /\ forall i x, d_log s !! i = Some x -> i <= v_commit s -> CK cfg C LL A (d_term s) (key x)) ->
    d_log s'' = log_store (d_log s) [e] -> e_idx e = last_index s + 1 -> last_index s <= last_index s'' ->
    v_commit s'' = v_commit s -> d_term s <= d_term s'' ->
    v_commit s'' <= last_index s'' /\ forall i x, d_log s'' !! i = Some x -> i <= v_commit s'' -> CK cfg C' LL' A' (d_term s'') (key x).
  Proof.
    intros HC HL HA [K1 K2] Hlog Hi Hci Hc Ht. rewrite Hc. split; [lia|].
    intros i x Hx Hle. rewrite Hlog, log_store_one in Hx. destruct (N.eqb_spec (e_idx e) i) as [E|_]; [lia|].
    eapply (CK_bound cfg); [exact Ht|]. eapply CK_mono; eauto.
  Qed.
End Append.

(* A leader stores one entry after its last (LPropose, and the no-op of a new leader).  sL is the state of server i
   after what the step did before (the log, the snapshots and what the node invariants read are those of s), s2 the
   state after dispatchLogs; the history grows by e with predecessor ck, and i accepts e.  What this asks of the update
   lemma, whatever else the step adds to the ghost state. *)
Section LeaderAppend.
  Variable cfg : config.
  Variable Ps : list params.
  Variable fsm : bool.
  Variables (g g' : cgstate) (C : chain) (LL LLn : LLt) (A : At) (V : Vt).
  Variables (i : N) (n : gnode) (s sL s2 : nstate) (e : entry) (ck : N * N) (next' : N).

  Notation C' := ((e, ck) :: C).
  Notation LL' := (LLn ++ LL).
  Notation A' := ((i, key e) :: A).
  Notation n' := (mkGN (gn_P n) (Up s2) None next').

  Hypothesis HI : zinvg cfg Ps fsm g C LL A V.
  Hypothesis Hf : find_node (cnodes g) i = Some n.
  Hypothesis Hr : gn_run n = Up s.
  Hypothesis Hzk : rest sL = rest s.
  Hypothesis Hdts : d_term s <= d_term sL.
  Hypothesis Hvt : v_term sL = d_term sL.
  Hypothesis Happ : appended (gn_P n) sL s2 e.
  Hypothesis He1 : e_idx e = last_index sL + 1.
  Hypothesis He2 : e_term e = v_term sL.
  Hypothesis Hty : e_ty e <> LogConfiguration.
  Hypothesis HC' : chain_ok C'.
  Hypothesis Hnl2 : zup C' s2.
  Hypothesis HLT : exists c tl, In (v_term sL, c, tl) LL'.

  (* what the entry asks of the ghost state, and the server afterwards (its leadership state and its vote are the caller's) *)
  Lemma leader_append :
    (forall w T' c kw rq k k0, In (w, T', c, kw, rq) V -> In (w, k) [(i, key e)] -> snd k < T' -> anc C' k0 k -> 1 <= fst k0 ->
       anc C' k0 kw \/ passed C' LL' (snd k) (fun T => T < T') k0) /\
    (forall w k, In (w, k) [(i, key e)] -> created C' k /\ exists c tl, In (snd k, c, tl) LL') /\
    (forall w k, In (w, k) [(i, key e)] -> w = i /\ snd k <= dtn n') /\
    forall V', (forall s0, gn_run n' = Up s0 -> v_role s0 = Leader -> zlead_inv cfg g' C' LL' A' n' s0) ->
      (forall T' c, live (image (gn_run n')) = Some (T', c) -> recorded LL' V' (gn_id n') T' c) ->
      nodeI cfg Ps fsm g' C' LL' A' V' n'.
  Proof.
    destruct (find_node_in _ _ _ Hf) as [Hin Hid].
    pose proof (zg_ci HI) as Hci. pose proof (ci_ok Hci) as HC.
    pose proof (rest_fields _ _ Hzk) as ((V1 & V2 & _ & _ & _ & V6) & (_ & L2 & _ & _ & L5) & _ & Hfl0 & _).
    destruct (znode_zup_wfu HI n s Hin Hr) as [Hnl _].
    pose proof (zg_n HI n Hin) as HN.
    pose proof (ni_node HN) as (N1 & N2 & N3). rewrite Hr in N3.
    assert (HnL : zup C sL) by (eapply zup_keep; eauto).
    assert (HcL : znode_upg cfg Ps fsm sL) by (eapply znode_up_keep; eauto).
    pose proof (ap_dterm Happ) as Dt.
    assert (Hli2 : last_index s2 = e_idx e) by (unfold last_index at 1; rewrite (ap_lastIdx Happ), (ap_snapIdx Happ), He1; unfold last_index; lia).
    assert (Hdtn : dtn n <= dtn n') by (unfold dtn; rewrite Hr; cbn [gn_run image]; lia).
    assert (Hdtn' : dtn n' = d_term sL) by (unfold dtn; cbn [gn_run image]; exact Dt).
    split; [|split; [|split]].
    - (* nothing to show: the only new acceptance is the leader's, of an entry of its own term, and it has
         voted in no later term *)
      intros w T' c kw rq k k0 Hv [Ek|[]] Hlt. inversion Ek; subst w k. exfalso.
      destruct (zg_v1 HI _ _ _ _ _ Hv) as [(x & Hx & Hxi & Hxt) _].
      rewrite (zinvg_node_eq HI x n Hx Hin) in Hxt by congruence.
      unfold dtn in Hxt. rewrite Hr in Hxt. simpl in Hxt. unfold key in Hlt. cbn [snd] in Hlt. lia.
    - intros w k [Ek|[]]. inversion Ek; subst w k. split; [exists e, ck; split; [left; reflexivity|reflexivity]|].
      unfold key. cbn [snd]. rewrite He2. exact HLT.
    - intros w k [Ek|[]]. inversion Ek; subst w k. split; [reflexivity|]. rewrite Hdtn'. unfold key. cbn [snd]. lia.
    - intros V' Hlead Hlive. constructor; [| | | |exact Hlead| |exact Hlive|discriminate].
      + split; [exact N1|]. split; [exact N2|]. cbn [gn_run].
        pose proof (zu_sa HcL). pose proof (zu_ac HcL). pose proof (zu_fa HcL). pose proof (zu_fs HcL).
        constructor; rewrite ?(ap_log Happ), ?(ap_snaps Happ), ?(ap_latest Happ), ?(ap_committed Happ), ?(ap_snapIdx Happ), ?(ap_applied Happ), ?(ap_commit Happ), ?(ap_fsmLast Happ); try assumption.
        * intros j x Hx. rewrite log_store_one in Hx.
          destruct (e_idx e =? j); [inversion Hx; subst x; intros Hc; destruct (Hty Hc)|apply (zu_dec HcL j x Hx)].
        * apply (zu_scfg HcL).
        * apply (zu_lat HcL).
        * apply (zu_com HcL).
      + intros s0 Hs0. cbn [gn_run] in Hs0. inversion Hs0; subst s0.
        destruct (ni_kc HN s Hr) as [K1 K2].
        assert (HkL : v_commit sL <= last_index sL /\ forall j x, d_log sL !! j = Some x -> j <= v_commit sL -> CK cfg C LL A (d_term sL) (key x)).
        { unfold last_index in *. rewrite V6, V2, V1, L5. split; [exact K1|].
          intros j x Hx Hj. eapply (CK_bound cfg); [exact Hdts|apply (K2 j x Hx Hj)]. }
        apply (zappend_kc cfg C LL A C' LL' A' sL s2 e (incl_tl _ (incl_refl C)) (incl_appr _ (incl_refl LL)) (incl_tl _ (incl_refl A)) HkL (ap_log Happ) He1);
          [lia|exact (ap_commit Happ)|lia].
      + apply (ni_sk_keep [(e, ck)] LLn [(i, key e)] HN Hdtn). cbn [gn_run image]. rewrite Hr, (ap_snaps Happ), L2. reflexivity.
      + (* the position of its FSM *)
        intros s0 Hs0 Hg. cbn [gn_run] in Hs0. inversion Hs0; subst s0. rewrite (ap_fsmLast Happ), Hfl0, Dt.
        destruct (ni_fsm HN s Hr Hg) as [E|[F1 F2]]; [left; exact E|right].
        split; [apply created_cons, F1|]. apply (CK_ext [(e, ck)] LLn [(i, key e)] Hdts F2).
      + intros k k0 [Ek|Ha] Hanc Hpos.
        * (* the new acceptance *)
          inversion Ek; subst k. left. cbn [gn_run image]. apply (zup_covers _ s2 k0 HC' Hnl2); [|exact Hpos].
          assert (E2 : last_entry s2 = key e).
          { destruct (leader_last s2) as [E _]; [rewrite (ap_snapIdx Happ), (ap_lastIdx Happ); unfold last_index; lia|].
            rewrite E. unfold topk, key. rewrite (ap_lastIdx Happ), (ap_lastTerm Happ), He1, He2. reflexivity. }
          rewrite E2. exact Hanc.
        * (* what the leader accepted before is still there *)
          destruct (vi_ac (zg_vi HI) _ _ Ha) as [Hkc _].
          pose proof (anc_stable C C' k0 k HC' (incl_tl _ (incl_refl C)) (or_introl Hkc) (ci_pred Hci) Hanc) as Hanc0.
          apply (ni_av_keep [(e, ck)] LLn n' HN eq_refl Hdtn Hci HC'); [|exact Ha|exact Hanc0|exact Hpos].
          intros k1 _. rewrite Hr. apply covers_sub; cbn [gn_run image]; [|rewrite (ap_snaps Happ), L2; reflexivity].
          rewrite (ap_log Happ), V1. apply log_store_one_sub. rewrite <- V1.
          apply (zshape_cache C HC _ _ _ _ _ HnL). simpl. unfold last_index in He1. lia.
  Qed.
End LeaderAppend.

(* only RequestVote and electSelf cast a vote *)
Lemma step_no_vote P r e cut fs r' ob out : wfr r -> step_full P r e cut fs = (r', ob, out) ->
  (forall q, e <> NVote q) -> e <> NElect ->
  forall T c, live (image r') = Some (T, c) -> live (image r) = Some (T, c).
Proof.
  intros Hw Hsf Hnv Hne T c Hlv. pose proof (step_good P r e cut fs Hw) as Hg. rewrite Hsf in Hg.
  destruct Hg as (_ & (_ & _ & _ & Hcast) & _).
  destruct (live_dec (live (image r)) (Some (T, c))) as [E|No]; [exact E|].
  exfalso. destruct (Hcast T c Hlv No) as [(q & Eq & _)|(Eq & _)]; [apply (Hnv q Eq)|apply (Hne Eq)].
Qed.

Section Handler.
  Variable cfg : config.
  Variable Ps : list params.
  Variable fsm : bool.
  Hypothesis HVn : NoDup (voters cfg).
  Let HQ := quorums_intersect_one cfg HVn.

  (* the state after a handler ran at server j, by which nobody became Leader: g1 is the election part after it, `an`
     the answers it adds *)
  Lemma handler_touch g C LL A V j nj e cut fs r' ob out g1 hb' ans' an :
    zinvg cfg Ps fsm g C LL A V -> find_node (cnodes g) j = Some nj ->
    step_full (gn_P nj) (gn_run nj) e cut fs = (r', ob, out) -> ginv [cfg] g1 ->
    g_nodes g1 = upd_node (cnodes g) j (mkGN (gn_P nj) r' (keep_sess r' (gn_sess nj)) (gn_next nj)) ->
    g_leaders g1 = g_leaders (gof g) -> g_grants g1 = grant_ghost j ob ++ g_grants (gof g) -> ans' = cg_ans g ++ an ->
    znlog C r' -> role_kept (gn_run nj) r' ->
    let g' := mkCG (mkLG g1 (lg_msgs (cg_l g))) (refresh_leads (cnodes g) (g_nodes g1) (cg_lead g)) hb' ans' in
    touch g g' j nj (mkGN (gn_P nj) r' (keep_sess r' (gn_sess nj)) (gn_next nj)) [] an (grant_ghost j ob) /\
    cg_lead g' = cg_lead g /\ g_leaders (gof g') = g_leaders (gof g) /\ zlinv [cfg] (cg_l g') C.
  Proof.
    intros HI Hf Hsf Hg1 Hn1 Hl1 Hgr Ha Hnl Hrk g'. destruct (find_node_in _ _ _ Hf) as [Hin Hid].
    assert (Hleads : cg_lead g' = cg_lead g).
    { cbn [g' cg_lead]. rewrite Hn1. apply (refresh_handler (cnodes g) j nj r' _ (zinvg_nodup HI) Hf).
      intros s' E Hr. destruct (Hrk s' E Hr) as (s & -> & Hrs & _). exact Hrs. }
    split; [|split; [exact Hleads|split; [exact Hl1|]]].
    - constructor; try assumption; [cbn; rewrite app_nil_r; reflexivity|]. intros i _. rewrite Hleads. reflexivity.
    - apply (zhandler_linv [cfg] HQ (cg_l g) C j nj e cut fs r' ob out g1 (zg_l HI) Hf Hsf Hg1 Hn1 Hl1 Hnl Hrk).
  Qed.

  (* an event that is not a restart, at a server that is down *)
  Lemma zinv_handler_down g C LL A V j nj sd e cut fs out g1 hb' :
    zinvg cfg Ps fsm g C LL A V -> find_node (cnodes g) j = Some nj -> gn_run nj = Down sd ->
    step_full (gn_P nj) (gn_run nj) e cut fs = (Down sd, ONone, out) -> ginv [cfg] g1 ->
    g_nodes g1 = upd_node (cnodes g) j (mkGN (gn_P nj) (Down sd) None (gn_next nj)) ->
    g_leaders g1 = g_leaders (gof g) -> g_grants g1 = g_grants (gof g) ->
    zinvg cfg Ps fsm (mkCG (mkLG g1 (lg_msgs (cg_l g))) (refresh_leads (cnodes g) (g_nodes g1) (cg_lead g)) hb' (cg_ans g)) C LL A V.
  Proof.
    intros HI Hf Hr Hsf Hg1 Hn1 Hl1 Hgr. destruct (find_node_in _ _ _ Hf) as [Hin Hid].
    destruct (handler_touch g C LL A V j nj e cut fs (Down sd) ONone out g1 hb' (cg_ans g) [] HI Hf Hsf Hg1 Hn1 Hl1 Hgr (eq_sym (app_nil_r _)))
      as (Ht & Hleads & Hld & Hl'); [destruct (zl_nodes [cfg] _ C (zg_l HI) nj Hin) as [H _]; rewrite Hr in H; exact H|intros s' H; discriminate|].
    change V with ([] ++ V). apply (zinv_quiet cfg Ps fsm HVn _ _ C LL A V [] [] j nj _ HI Ht Hl').
    - rewrite Hr. apply quietS_refl.
    - pose proof (zg_node HI nj Hin) as Hcn. rewrite Hr in Hcn. exact Hcn.
    - exact Hld.
    - apply sess_req_none. reflexivity.
    - intros se H. discriminate.
    - intros s' H. discriminate.
    - apply gext_nil, (zg_ci HI).
    - apply votes_none.
    - intros T' c Hlv. rewrite <- Hid. apply (zg_live HI nj T' c Hin). rewrite Hr. exact Hlv.
  Qed.

  (* one handler ran at one server (GVoteReq, GInput, LDeliver): acceptances An, votes Vn, answers an may be recorded *)
  Lemma zinv_handler g g' C LL A An V Vn j nj e cut fs r' ob out an :
    zinvg cfg Ps fsm g C LL A V -> find_node (cnodes g) j = Some nj ->
    step_full (gn_P nj) (gn_run nj) e cut fs = (r', ob, out) ->
    touch g g' j nj (mkGN (gn_P nj) r' (keep_sess r' (gn_sess nj)) (gn_next nj)) [] an (grant_ghost j ob) ->
    cg_lead g' = cg_lead g -> g_leaders (gof g') = g_leaders (gof g) -> zlinv [cfg] (cg_l g') C ->
    gext cfg C [] LL [] A An V Vn ->
    (* the stores of the server, what it knows to be committed, what it accepted *)
    znodeg cfg Ps fsm (gn_P nj) r' ->
    (forall s', r' = Up s' -> v_commit s' <= last_index s' /\
       forall i x, d_log s' !! i = Some x -> i <= v_commit s' -> CK cfg C LL (An ++ A) (d_term s') (key x)) ->
    (forall sn, In sn (d_snaps (image r')) -> CK cfg C LL (An ++ A) (d_term (image r')) (sk sn)) ->
    (forall s', r' = Up s' -> fsm = true ->
       fst (v_fsmLast s') = 0 \/ (created C (v_fsmLast s') /\ CK cfg C LL (An ++ A) (d_term s') (v_fsmLast s'))) ->
    (forall k k0, In (j, k) (An ++ A) -> anc C k0 k -> 1 <= fst k0 ->
       covers C (image r') k0 \/ passed C LL (snd k) (fun T => T <= d_term (image r')) k0) ->
    (forall w k, In (w, k) An -> w = j /\ snd k <= d_term (image r')) ->
    (* a leader, a candidate that goes on *)
    (forall s', r' = Up s' -> v_role s' = Leader -> exists s, gn_run nj = Up s /\ v_role s = Leader /\ v_term s' = v_term s /\
       topk s' = topk s /\ v_commit s' = v_commit s /\ v_lastSnapIdx s' <= v_lastLogIdx s') ->
    (forall s s' se, gn_run nj = Up s -> r' = Up s' -> v_role s' = Candidate -> gn_sess nj = Some se ->
       last_entry s' = last_entry s \/ exists c tl, In (vq_term (se_req se), c, tl) LL) ->
    (* votes and answers *)
    (forall T' c, live (image r') = Some (T', c) -> recorded LL (Vn ++ V) j T' c) ->
    votes_new g' LL V Vn (grant_ghost j ob) ->
    (forall x, In x an -> ans_inv g' (An ++ A) x) ->
    zinvg cfg Ps fsm g' C LL (An ++ A) (Vn ++ V).
  Proof.
    intros HI Hf Hsf Ht Hleads Hld Hl' Hge Hnode Hkc Hsk Hfsm Hav HAn Hlead Hcand Hlive Hvn Han.
    destruct (find_node_in _ _ _ Hf) as [Hin Hid]. pose proof (ginv_wfr (zl_g [cfg] _ C (zg_l HI)) Hin) as Hw.
    set (nj' := mkGN (gn_P nj) r' (keep_sess r' (gn_sess nj)) (gn_next nj)) in *.
    pose proof (zg_n HI nj Hin) as HN.
    apply (zinv_touch cfg Ps fsm HVn g g' C [] LL [] A An V Vn j nj nj' [] an (grant_ghost j ob) HI Ht); try assumption.
    - apply (vmove_step _ _ _ _ _ _ _ _ Hw Hsf).
    - intros T c. rewrite Hld. apply (zg_ll HI).
    - intros y p [].
    - constructor; try assumption.
      + intros s' Hs' Hr'. destruct (Hlead s' Hs' Hr') as (s & Hs & Hrs & Et & Ek & Ec & Hsn).
        apply (zlead_inv_same [] [] An nj' (ni_lead HN s Hs Hrs) eq_refl Et Ek Ec Hsn); [rewrite Hleads; reflexivity|intros y p []].
      + change (gn_id nj') with (gn_id nj). rewrite Hid. exact Hav.
      + change (gn_id nj') with (gn_id nj). rewrite Hid. exact Hlive.
      + intros se Hse. destruct (keep_sess_some _ _ _ Hse) as (Hse0 & s' & Hs' & Hrc). exists s'. split; [exact Hs'|].
        destruct (ni_se HN se Hse0) as (s & Hs & [Hle|Hll]); [|right; exact Hll].
        destruct (Hcand s s' se Hs Hs' Hrc Hse0) as [E|Hll]; [left; rewrite E; exact Hle|right; exact Hll].
    - apply sess_req_keep.
    - intros m [].
  Qed.

  (* a leader's step that leaves term, vote, log and snapshot stores and the cached last entry alone (CCommit, a
     step-down): the node invariant, the commit knowledge, the FSM position and the leadership state are asked for *)
  Lemma zinv_leader_vol g C LL A V i n s s' leads' hb' :
    zinvg cfg Ps fsm g C LL A V -> find_node (cnodes g) i = Some n -> gn_run n = Up s -> v_role s = Leader ->
    dproj s' = dproj s -> v_term s' = v_term s -> lkeep s' s -> v_lastSnapTerm s' = v_lastSnapTerm s ->
    (forall i', i' <> i -> find_lead leads' i' = find_lead (cg_lead g) i') ->
    znode_upg cfg Ps fsm s' ->
    (v_commit s' <= last_index s' /\ forall j e, d_log s' !! j = Some e -> j <= v_commit s' -> CK cfg C LL A (d_term s') (key e)) ->
    (fsm = true -> fst (v_fsmLast s') = 0 \/ (created C (v_fsmLast s') /\ CK cfg C LL A (d_term s') (v_fsmLast s'))) ->
    (v_role s' = Leader -> exists tl ld, find_lead leads' i = Some ld /\ lead_view cfg C LL A i s' tl ld /\
       v_lastSnapIdx s' <= v_lastLogIdx s' /\ infl_ok C s' ld) ->
    zinvg cfg Ps fsm (mkCG (mkLG (set_node_run (lg_g (cg_l g)) i n (Up s')) (lg_msgs (cg_l g))) leads' hb' (cg_ans g)) C LL A V.
  Proof.
    intros HI Hf Hr Hrole Hd Ht Hk Hst Hlo Hnode Hkc Hfsm Hlead.
    destruct (find_node_in _ _ _ Hf) as [Hin Hid]. pose proof (zg_l HI) as Hl. pose proof (zg_ci HI) as Hci.
    destruct (zl_nodes [cfg] _ C Hl n Hin) as [_ Hlok]. destruct (Hlok s Hr Hrole) as (_ & Hsn & _).
    set (n' := mkGN (gn_P n) (Up s') (keep_sess (Up s') (gn_sess n)) (gn_next n)).
    assert (Hs' : gn_sess n' = None) by (unfold n'; cbn [gn_sess]; rewrite Hsn; reflexivity).
    assert (Hdt : dtn n <= dtn n') by (unfold dtn, dproj in *; rewrite Hr; cbn [n' gn_run image]; injection Hd as -> _ _; lia).
    pose proof (zg_n HI n Hin) as HN. pose proof Hk as (K1 & K2 & _).
    match goal with |- zinvg _ _ _ ?G _ _ _ _ => set (g' := G) end.
    apply (zinv_touch cfg Ps fsm HVn g g' C [] LL [] A [] V [] i n n' [] [] [] HI); [|exact Hdt|..].
    - constructor; try reflexivity; [exact Hf|exact Hid|cbn; rewrite app_nil_r; reflexivity..|exact Hlo].
    - apply (zlinv_volatile [cfg] HQ (cg_l g) C i n s s' Hl Hf Hr Hrole Hd Ht Hk Hst).
    - apply gext_nil, Hci.
    - apply (zg_ll HI).
    - intros y p [].
    - intros w k [].
    - constructor.
      + destruct (ni_node HN) as (N1 & N2 & _). split; [exact N1|split; [exact N2|exact Hnode]].
      + intros s0 E. inversion E; subst s0. exact Hkc.
      + apply (ni_sk_keep [] [] [] HN Hdt). cbn [n' gn_run image]. rewrite Hr. exact K2.
      + intros s0 E. inversion E; subst s0. exact Hfsm.
      + intros s0 E Hr'. inversion E; subst s0. destruct (Hlead Hr') as (tl & ld & E1 & L & Z1 & Z2).
        apply (zlead_inv_of tl ld); try assumption; change (gn_id n') with (gn_id n); rewrite Hid; assumption.
      + apply (ni_av_keep [] [] n' HN eq_refl Hdt Hci (ci_ok Hci)). intros k0 _. rewrite Hr. unfold covers. cbn [n' gn_run image]. rewrite K1, K2. auto.
      + apply (ni_live_keep [] [] n' HN eq_refl). intros T' c. rewrite Hr. unfold live. cbn [n' gn_run image]. rewrite Hd. auto.
      + intros se E. rewrite Hs' in E. discriminate.
    - apply sess_req_none, Hs'.
    - intros m [].
    - intros x [].
    - apply votes_none.
  Qed.
End Handler.
