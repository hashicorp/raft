(* NodeEvent.v — one event at one server (Model/NodeCodec.v step_full), inverted once: the process was started
   again (a restart, or it died inside the handler - crash cut or panic - and the answer is lost), a stopped server
   stays stopped, or the handler of the event returned.  For every fact of the form "NewRaft gives this, and each
   handler that returns gives that": who is advertised, who can be Leader or Candidate afterwards, the commit index.
   What a crash leaves durable needs the handler's trace as well: Proofs/ClusterLogCut.v finish_replay. *)
From Coq Require Import List NArith Bool.
From RaftModel Require Import Base Node NodeCodec.
From RaftProofs Require Import ClusterLogCut.
Open Scope N_scope.

(* what the dispatcher is at a running server for the three events whose handlers write the stores: `finish` (crash cut,
   encoding, observation) around the handler, with the snapshot a crash image may hold *)
Lemma step_append P s a cut fs : step_full P (Up s) (NAppend a) cut fs =
  finish P (fun x : aresp => [ar_term x; ar_last x; b2n (ar_success x); b2n (ar_noretry x); b2n (ar_err x)])
         (fun x => OAppend a x) None s cut (append_entries P s fs a).
Proof. reflexivity. Qed.

Lemma step_install P s q cut fs : step_full P (Up s) (NInstall q) cut fs =
  finish P (fun x : N * bool * bool => [fst (fst x); b2n (snd (fst x)); b2n (snd x)]) (fun x => OInstall q x)
         (Some (mkSnap (iq_lastIdx q) (iq_lastTerm q) (iq_cfg q) (iq_cfgIdx q) (iq_data q) true)) s cut (install_snapshot P s fs q).
Proof. reflexivity. Qed.

Lemma step_snapshot P s cut fs : step_full P (Up s) NSnapshot cut fs =
  finish P (fun x : N => [x]) (fun _ => ONone)
         (Some (mkSnap (fst (v_fsmLast s)) (snd (v_fsmLast s)) (v_committed s) (v_committedIdx s) (v_fsm s) true)) s cut (take_snapshot P s fs).
Proof. unfold step_full, fsm_index. destruct (v_fsmLast s); reflexivity. Qed.

(* the handler of e ran at a server in state s, with store failures fs, and returned leaving s' *)
Definition returned (P : params) (s : nstate) (fs : list bool) (e : nevent) (s' : nstate) : Prop :=
  match e with
  | NVote q => exists x tr fs', request_vote s fs q = Done s' x tr fs'
  | NAppend a => exists x tr fs', append_entries P s fs a = Done s' x tr fs'
  | NInstall q => exists x tr fs', install_snapshot P s fs q = Done s' x tr fs'
  | NElect => exists x tr fs', elect_self P s fs = Done s' x tr fs'
  | NSnapshot => exists x tr fs', take_snapshot P s fs = Done s' x tr fs'
  | NTimeoutNow => s' = timeout_now s
  | NPreVote _ | NTimeoutDecision => s' = s
  | NRestart => False
  end.

Theorem step_full_inv P r e cut fs r' ob out : step_full P r e cut fs = (r', ob, out) ->
  (exists img oo, boot P img = (r', oo) /\ (e = NRestart \/ ob = OLost)) \/
  (exists s, r = Down s /\ r' = Down s) \/
  (exists s s', r = Up s /\ r' = Up s' /\ returned P s fs e s').
Proof.
  (* Hfin is the goal for r = Up s, stated before r is destructed: hence the disjuncts `Up s = Down s0` (never true)
     and `Up s = Up s0` *)
  assert (Hfin : forall s R (enc : R -> list N) (mk : R -> nobs) si (o : outcome R),
            (forall s' x tr fs', o = Done s' x tr fs' -> returned P s fs e s') ->
            finish P enc mk si s cut o = (r', ob, out) ->
            (exists img oo, boot P img = (r', oo) /\ (e = NRestart \/ ob = OLost)) \/
            (exists s0, Up s = Down s0 /\ r' = Down s0) \/
            (exists s0 s', Up s = Up s0 /\ r' = Up s' /\ returned P s0 fs e s')).
  { intros s R enc mk si o Hd HF.
    destruct (finish_cases _ _ _ _ _ _ _ _ _ _ HF) as [(s' & x & tr & fs' & Ho & -> & _)|(k & oo & Hb & Hl)]; [|left; eauto 6].
    right. right. exists s, s'. eauto. }
  assert (Hboot : forall (ob0 : nobs), (let '(rb, oo) := boot P (image r) in (rb, ob0, oo)) = (r', ob, out) -> e = NRestart ->
            exists img oo, boot P img = (r', oo) /\ (e = NRestart \/ ob = OLost)).
  { intros ob0. destruct (boot P (image r)) as [rb oo] eqn:EB. intros H He; inversion H; subst. eauto 6. }
  destruct r as [s|s]; destruct e as [q|q|a|q| | | | |]; cbn [step_full]; intros H;
    try (left; apply (Hboot _ H eq_refl)); try (inversion H; subst; right; left; eauto; fail); clear Hboot.
  - apply (Hfin s) in H; [exact H|]. cbn [returned]. eauto.
  - destruct (request_prevote s q) as [t g]. inversion H; subst. right. right. exists s, s. cbn [returned]. auto.
  - apply (Hfin s) in H; [exact H|]. cbn [returned]. eauto.
  - apply (Hfin s) in H; [exact H|]. cbn [returned]. eauto.
  - inversion H; subst. right. right. exists s, (timeout_now s). cbn [returned]. auto.
  - apply (Hfin s) in H; [exact H|]. cbn [returned]. eauto.
  - inversion H; subst. right. right. exists s, s. cbn [returned]. auto.
  - destruct (fsm_index s) as [fi ft]. apply (Hfin s) in H; [exact H|]. cbn [returned]. eauto.
Qed.
