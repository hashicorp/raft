(* ClusterCommitSnapTouch.v — what re-establishes zinvg (Proofs/ClusterCommitSnapInv2.v) after a step, in four notions.
   touch: a step of Model/ClusterCommit.v changes at most one server and appends to the lists of the state.
   What zinvg says of ONE server, given the ghost state (nodeI): every clause of it reads a few components of the
   server and is kept by a step that keeps those (ni_sk_keep, ni_av_keep, ni_live_keep; zlead_inv_ext for the
   leadership state).  gext: the ghost state may grow by Cn, LLn, An, Vn (a statement about ghost state only);
   votes_new: what the cluster is asked about newly recorded votes and grants.
   zinv_touch puts them together: the touched server is asked for (nodeI), every other server keeps it (nodeI_other). *)
From Coq Require Import List NArith Bool Lia.
From stdpp Require Import gmap.
From RaftModel Require Import Base Config Node Cluster NodeCodec
  ClusterLog ClusterCommit.
From RaftProofs Require Import LeaderProofs ConfigProofs VoteProofs ClusterProofs ClusterLogSpec ClusterLogChain ClusterLogNode
  ClusterLogInv ClusterCommitLog ClusterCommitChain ClusterCommitGhost ClusterCommitInv ClusterCommitUpd
  ClusterCommitSnapLog ClusterCommitSnapNode ClusterCommitSnapLinv ClusterCommitSnapInv ClusterCommitSnapInv2.
Open Scope N_scope.

(* server j changes from n to n'; requests mn, answers an and grants Gn are added; leaderships of other servers stay *)
Record touch (g g' : cgstate) (j : N) (n n' : gnode) (mn : list amsg) (an : list ares) (Gn : list (N * N * N)) : Prop := {
  to_find : find_node (cnodes g) j = Some n;
  to_id : gn_id n' = j;
  to_nodes : cnodes g' = upd_node (cnodes g) j n';
  to_msgs : lg_msgs (cg_l g') = lg_msgs (cg_l g) ++ mn;
  to_ans : cg_ans g' = cg_ans g ++ an;
  to_grants : g_grants (gof g') = Gn ++ g_grants (gof g);
  to_leads : forall i, i <> j -> find_lead (cg_lead g') i = find_lead (cg_lead g) i;
}.

(* the runCandidate invocation of a server that changed: kept with its request, or a new one in a higher term *)
Definition sess_req_ok (n n' : gnode) : Prop :=
  forall se', gn_sess n' = Some se' ->
    (exists se, gn_sess n = Some se /\ se_req se' = se_req se) \/ dtn n < vq_term (se_req se').

Lemma sess_req_none n n' : gn_sess n' = None -> sess_req_ok n n'.
Proof. intros E se' H. congruence. Qed.

Lemma sess_req_keep n P r' nx : sess_req_ok n (mkGN P r' (keep_sess r' (gn_sess n)) nx).
Proof. intros se' H. cbn [gn_sess] in H. destruct (keep_sess_some _ _ _ H) as [E _]. left. eauto. Qed.

(* no request, no answer *)
Lemma touch_nodes g g' j n n' Gn : find_node (cnodes g) j = Some n -> gn_id n' = j -> cnodes g' = upd_node (cnodes g) j n' ->
  lg_msgs (cg_l g') = lg_msgs (cg_l g) -> cg_ans g' = cg_ans g -> g_grants (gof g') = Gn ++ g_grants (gof g) ->
  (forall i, i <> j -> find_lead (cg_lead g') i = find_lead (cg_lead g) i) -> touch g g' j n n' [] [] Gn.
Proof. intros H1 H2 H3 H4 H5 H6 H7. constructor; rewrite ?app_nil_r; assumption. Qed.

Lemma touch_in g g' j n n' mn an Gn : touch g g' j n n' mn an Gn -> In n' (cnodes g').
Proof. intros [Hf _ Hn _ _ _ _]. rewrite Hn. apply in_upd_node with (n := n). exact Hf. Qed.

Lemma touch_at g g' j n n' mn an Gn x : touch g g' j n n' mn an Gn -> In x (cnodes g') -> gn_id x = j -> x = n'.
Proof. intros [_ _ Hn _ _ _ _] Hx Hxi. rewrite Hn in Hx. destruct (upd_node_in _ _ _ _ Hx) as [[-> _]|[_ Hne]]; [reflexivity|congruence]. Qed.

Lemma touch_cases g g' j n n' mn an Gn x : touch g g' j n n' mn an Gn -> In x (cnodes g') -> x = n' \/ (In x (cnodes g) /\ gn_id x <> j).
Proof. intros [_ _ Hn _ _ _ _]. rewrite Hn. intros H. destruct (upd_node_in _ _ _ _ H) as [[-> _]|H']; auto. Qed.

Lemma touch_other g g' j n n' mn an Gn x : touch g g' j n n' mn an Gn -> In x (cnodes g) -> gn_id x <> j -> In x (cnodes g').
Proof.
  intros [_ _ Hn _ _ _ _] Hx Hne. rewrite Hn. unfold upd_node. apply in_map_iff. exists x.
  destruct (N.eqb_spec (gn_id x) j); [contradiction|auto].
Qed.

Arguments to_find {g g' j n n' mn an Gn}.
Arguments to_id {g g' j n n' mn an Gn}.
Arguments to_nodes {g g' j n n' mn an Gn}.
Arguments to_msgs {g g' j n n' mn an Gn}.
Arguments to_ans {g g' j n n' mn an Gn}.
Arguments to_grants {g g' j n n' mn an Gn}.
Arguments to_leads {g g' j n n' mn an Gn}.
Arguments touch_in {g g' j n n' mn an Gn}.
Arguments touch_at {g g' j n n' mn an Gn x}.
Arguments touch_cases {g g' j n n' mn an Gn} x.
Arguments touch_other {g g' j n n' mn an Gn x}.

Section Ghost.
  Variable cfg : config.

  (* the ghost state C, LL, A, V may grow by Cn, LLn, An, Vn *)
  Record gext (C Cn : chain) (LL LLn : LLt) (A An : At) (V Vn : Vt) : Prop := {
    ge_ci : chain_inv (Cn ++ C) (LLn ++ LL);
    ge_vaV : forall w T' c kw rq k k0, In (w, T', c, kw, rq) Vn -> In (w, k) (An ++ A) -> snd k < T' -> anc (Cn ++ C) k0 k -> 1 <= fst k0 ->
      anc (Cn ++ C) k0 kw \/ passed (Cn ++ C) (LLn ++ LL) (snd k) (fun T => T < T') k0;
    ge_vaA : forall w T' c kw rq k k0, In (w, T', c, kw, rq) V -> In (w, k) An -> snd k < T' -> anc (Cn ++ C) k0 k -> 1 <= fst k0 ->
      anc (Cn ++ C) k0 kw \/ passed (Cn ++ C) (LLn ++ LL) (snd k) (fun T => T < T') k0;
    ge_lv : forall T' c tl', In (T', c, tl') LLn ->
      exists W, majority (voters cfg) W /\ forall w, In w W -> exists kw, In (w, T', c, kw, tl') (Vn ++ V);
    ge_up : forall w T' c kw rq, In (w, T', c, kw, rq) Vn -> uptodate rq kw /\ (kw = (0, 0) \/ created (Cn ++ C) kw);
    ge_ac : forall w k, In (w, k) An -> created (Cn ++ C) k /\ exists c tl, In (snd k, c, tl) (LLn ++ LL);
  }.

  Lemma gext_nil C LL A V : chain_inv C LL -> gext C [] LL [] A [] V [].
  Proof.
    intros H. constructor; [exact H|intros w T' c kw rq k k0 []|intros w T' c kw rq k k0 _ []|intros T' c tl' []|intros w T' c kw rq []|intros w k []].
  Qed.

  (* only votes are added *)
  Lemma gext_votes C LL A V Vn : chain_inv C LL ->
    (forall w T' c kw rq k k0, In (w, T', c, kw, rq) Vn -> In (w, k) A -> snd k < T' -> anc C k0 k -> 1 <= fst k0 ->
       anc C k0 kw \/ passed C LL (snd k) (fun T => T < T') k0) ->
    (forall w T' c kw rq, In (w, T', c, kw, rq) Vn -> uptodate rq kw /\ (kw = (0, 0) \/ created C kw)) ->
    gext C [] LL [] A [] V Vn.
  Proof. intros H Hva Hup. constructor; [exact H|exact Hva|intros w T' c kw rq k k0 _ []|intros T' c tl' []|exact Hup|intros w k []]. Qed.
End Ghost.
Arguments ge_ci {cfg C Cn LL LLn A An V Vn}.
Arguments ge_lv {cfg C Cn LL LLn A An V Vn}.
Arguments ge_up {cfg C Cn LL LLn A An V Vn}.
Arguments ge_ac {cfg C Cn LL LLn A An V Vn}.

(* old keys keep their ancestors, so "a leader in between did not hold k0" stays true when the ghost state grows *)
Lemma passed_ext C Cn LL LLn lo hi k0 : chain_inv C LL -> chain_ok (Cn ++ C) ->
  passed C LL lo hi k0 -> passed (Cn ++ C) (LLn ++ LL) lo hi k0.
Proof.
  intros Hci HC' (T & c & tl & H1 & H2 & H3 & H4). exists T, c, tl. split; [apply in_or_app; right; exact H1|]. split; [exact H2|]. split; [exact H3|].
  intros Hx. apply H4. destruct (ci_tl Hci _ _ _ H1) as [_ Htc].
  apply (anc_stable C (Cn ++ C) k0 tl HC' (incl_appr _ (incl_refl _))); [destruct Htc; auto|apply (ci_pred Hci)|exact Hx].
Qed.

Lemma covers_mono C C' img k0 : incl C C' -> covers C img k0 -> covers C' img k0.
Proof. intros Hi [H|(sn & Hsn & Ha)]; [left; exact H|right; exists sn; split; [exact Hsn|eapply anc_mono; eauto]]. Qed.

Section NodeI.
  Variable cfg : config.
  Variable Ps : list params.
  Variable fsm : bool.

  Section Keep.
    Variables (g : cgstate) (C Cn : chain) (LL LLn : LLt) (A An : At) (V Vn : Vt) (n n' : gnode).
    Hypothesis HN : nodeI cfg Ps fsm g C LL A V n.
    Hypothesis Hid : gn_id n' = gn_id n.
    Hypothesis Hdt : dtn n <= dtn n'.

    Lemma CK_ext b b' k : b <= b' -> CK cfg C LL A b k -> CK cfg (Cn ++ C) (LLn ++ LL) (An ++ A) b' k.
    Proof.
      intros Hb H. eapply CK_mono; [apply incl_appr, incl_refl..|]. eapply (CK_bound cfg); eauto.
    Qed.

    Lemma ni_sk_keep : d_snaps (image (gn_run n')) = d_snaps (image (gn_run n)) ->
      forall sn, In sn (d_snaps (image (gn_run n'))) -> CK cfg (Cn ++ C) (LLn ++ LL) (An ++ A) (dtn n') (sk sn).
    Proof. intros E sn Hsn. rewrite E in Hsn. apply (CK_ext _ _ _ Hdt), (ni_sk HN sn Hsn). Qed.

    Lemma ni_live_keep :
      (forall T' c, live (image (gn_run n')) = Some (T', c) -> live (image (gn_run n)) = Some (T', c)) ->
      forall T' c, live (image (gn_run n')) = Some (T', c) -> recorded (LLn ++ LL) (Vn ++ V) (gn_id n') T' c.
    Proof.
      intros Hl T' c Hlv. rewrite Hid. apply (recorded_mono LL _ V); [apply incl_appr, incl_refl..|apply (ni_live HN T' c (Hl T' c Hlv))].
    Qed.

    (* the log store and the snapshot store: what the server accepted before *)
    Lemma ni_av_keep : chain_inv C LL -> chain_ok (Cn ++ C) ->
      (forall k0, 1 <= fst k0 -> covers C (image (gn_run n)) k0 -> covers (Cn ++ C) (image (gn_run n')) k0) ->
      forall k k0, In (gn_id n', k) A -> anc C k0 k -> 1 <= fst k0 ->
        covers (Cn ++ C) (image (gn_run n')) k0 \/ passed (Cn ++ C) (LLn ++ LL) (snd k) (fun T => T <= dtn n') k0.
    Proof.
      intros Hci HC' Hcov k k0 Ha Hanc Hpos. rewrite Hid in Ha.
      destruct (ni_av HN k k0 Ha Hanc Hpos) as [H|H]; [left; apply Hcov; assumption|right].
      apply (passed_ext _ _ _ _ _ _ _ Hci HC'), (passed_weaken _ _ _ _ _ _ _ (fun T _ _ _ H2 H3 => conj H2 (N.le_trans _ _ _ H3 Hdt)) H).
    Qed.

    (* a log store that only grows, the same snapshot store *)
    Lemma covers_sub img img' k0 : log_sub (d_log img) (d_log img') -> d_snaps img' = d_snaps img ->
      covers C img k0 -> covers (Cn ++ C) img' k0.
    Proof.
      intros Hl Hs [H|(sn & Hsn & Ha)]; [left; eapply holds_sub; eauto|right].
      exists sn. rewrite Hs. split; [exact Hsn|eapply anc_mono; [apply incl_appr, incl_refl|exact Ha]].
    Qed.
  End Keep.

  (* the leadership state, for the same commitment, next index, notification and in-flight list *)
  Lemma zlead_inv_ext g g' C Cn LL LLn A An n n' s s' ld ld' :
    zlead_inv cfg g C LL A n s -> gn_id n' = gn_id n ->
    v_term s' = v_term s -> topk s' = topk s -> v_commit s' = v_commit s -> v_lastSnapIdx s' <= v_lastLogIdx s' ->
    find_lead (cg_lead g) (gn_id n) = Some ld -> find_lead (cg_lead g') (gn_id n) = Some ld' ->
    ld_cm ld' = ld_cm ld -> ld_next0 ld' = ld_next0 ld -> ld_notified ld' = ld_notified ld -> ld_infl ld' = ld_infl ld ->
    (forall y p, In (y, p) Cn -> e_term y <> v_term s) ->
    zlead_inv cfg g' (Cn ++ C) (LLn ++ LL) (An ++ A) n' s'.
  Proof.
    intros HZ Ei Et Ek Ec Hs E E' Hcm Hn0 Hnt Hin Hcn. destruct (zlead_inv_at HZ E) as (tl & L & _ & Z2). rewrite <- Ei in E'.
    apply (zlead_inv_of tl ld' E'); [rewrite Ei; apply (lead_view_ext L Cn LLn An s' ld'); try assumption; [rewrite Ec; apply (li_vc L)|congruence]|exact Hs|].
    intros e fid He. rewrite Hin in He. rewrite Et.
    destruct (Z2 e fid He) as [E1 (p & Pp)]. split; [exact E1|exists p; apply in_or_app; right; exact Pp].
  Qed.

  Lemma zlead_inv_same g g' C Cn LL LLn A An n n' s s' :
    zlead_inv cfg g C LL A n s -> gn_id n' = gn_id n ->
    v_term s' = v_term s -> topk s' = topk s -> v_commit s' = v_commit s -> v_lastSnapIdx s' <= v_lastLogIdx s' ->
    find_lead (cg_lead g') (gn_id n) = find_lead (cg_lead g) (gn_id n) ->
    (forall y p, In (y, p) Cn -> e_term y <> v_term s) ->
    zlead_inv cfg g' (Cn ++ C) (LLn ++ LL) (An ++ A) n' s'.
  Proof.
    intros HZ Ei Et Ek Ec Hs E Hcn. destruct (proj1 lead_inv_view (proj1 HZ)) as (tl & ld & L2 & _).
    apply (zlead_inv_ext g g' C Cn LL LLn A An n n' s s' ld ld HZ); auto. rewrite E. exact L2.
  Qed.

  (* what is asked of the votes and grants a step records *)
  Record votes_new (g' : cgstate) (LL : LLt) (V Vn : Vt) (Gn : list (N * N * N)) : Prop := {
    vn_v1 : forall w T' c kw rq, In (w, T', c, kw, rq) Vn ->
      (exists x, In x (cnodes g') /\ gn_id x = w /\ T' <= dtn x) /\ (exists xc, In xc (cnodes g') /\ gn_id xc = c /\ T' <= dtn xc);
    vn_v2 : forall w T' c kw rq xc se, In (w, T', c, kw, rq) Vn -> In xc (cnodes g') -> gn_id xc = c ->
      gn_sess xc = Some se -> vq_term (se_req se) = T' -> rq = (vq_lastIdx (se_req se), vq_lastTerm (se_req se));
    vn_gv : forall w T' c, In (w, T', c) Gn -> recorded LL (Vn ++ V) w T' c;
  }.
  Arguments vn_v1 {g' LL V Vn Gn}.
  Arguments vn_v2 {g' LL V Vn Gn}.
  Arguments vn_gv {g' LL V Vn Gn}.

  Lemma votes_none g' LL V : votes_new g' LL V [] [].
  Proof. constructor; [intros w T' c kw rq []|intros w T' c kw rq xc se []|intros w T' c []]. Qed.

  Lemma votes_new_ext g' LL LLn V Vn Gn : votes_new g' LL V Vn Gn -> votes_new g' (LLn ++ LL) V Vn Gn.
  Proof.
    intros [H1 H2 H3]. constructor; [exact H1|exact H2|]. intros w T' c Hg.
    apply (recorded_mono LL _ (Vn ++ V) _ _ _ _ (incl_appr LLn (incl_refl LL)) (incl_refl _)), H3, Hg.
  Qed.

  Hypothesis HVn : NoDup (voters cfg).

  Section Touch.
    Variables (g g' : cgstate) (C Cn : chain) (LL LLn : LLt) (A An : At) (V Vn : Vt) (j : N) (n n' : gnode).
    Variables (mn : list amsg) (an : list ares) (Gn : list (N * N * N)).
    Notation C' := (Cn ++ C).
    Notation LL' := (LLn ++ LL).
    Notation A' := (An ++ A).
    Notation V' := (Vn ++ V).
    Hypothesis HI : zinvg cfg Ps fsm g C LL A V.
    Hypothesis Ht : touch g g' j n n' mn an Gn.
    Hypothesis Hdt : dtn n <= dtn n'.
    Hypothesis Hl' : zlinv [cfg] (cg_l g') C'.
    Hypothesis Hge : gext cfg C Cn LL LLn A An V Vn.
    Hypothesis Hll' : forall T c, In (T, c) (g_leaders (gof g')) <-> exists tl, In (T, c, tl) LL'.
    (* every new entry was created by the touched server j as recorded leader of its term; every new acceptance is
       j's, in a term it has reached: so nothing new concerns another server (nodeI_other) *)
    Hypothesis Hcn : forall y p, In (y, p) Cn -> In (e_term y, j) (g_leaders (gof g')).
    Hypothesis HAn : forall w k, In (w, k) An -> w = j /\ snd k <= dtn n'.

    Let HiC : incl C C' := incl_appr Cn (incl_refl C).
    Let HiL : incl LL LL' := incl_appr LLn (incl_refl LL).
    Let HiA : incl A A' := incl_appr An (incl_refl A).
    Let HiV : incl V V' := incl_appr Vn (incl_refl V).
    Let Hci := zg_ci HI.
    Let Hvi := zg_vi HI.
    Let Hci' := ge_ci Hge.
    Let HC'ok := ci_ok Hci'.

    Lemma touch_n : In n (cnodes g) /\ gn_id n = j.
    Proof. apply (find_node_in _ _ _ (to_find Ht)). Qed.

    Lemma touch_succ x : In x (cnodes g) -> exists x', In x' (cnodes g') /\ gn_id x' = gn_id x /\ dtn x <= dtn x'.
    Proof.
      intros Hx. destruct touch_n as [Hn Hnj]. destruct (N.eq_dec (gn_id x) j) as [E|Hne].
      - exists n'. split; [apply (touch_in Ht)|]. split; [rewrite (to_id Ht); congruence|].
        rewrite (zinvg_node_eq HI x n Hx Hn) by congruence. exact Hdt.
      - exists x. split; [apply (touch_other Ht Hx Hne)|]. split; [reflexivity|lia].
    Qed.

    (* old keys keep their ancestors *)
    Lemma anc_old k0 k : created C k \/ k = (0, 0) -> anc C' k0 k -> anc C k0 k.
    Proof. intros Hk. apply (anc_stable C C' k0 k HC'ok HiC Hk (ci_pred Hci)). Qed.

    Lemma touch_vote_inv : vote_inv cfg C' LL' A' V'.
    Proof.
      constructor.
      - intros w T' c kw rq k k0 Hv Ha Hlt Hanc Hpos.
        apply in_app_iff in Hv. destruct Hv as [Hv|Hv]; [eapply (ge_vaV _ _ _ _ _ _ _ _ _ Hge); eauto|].
        apply in_app_iff in Ha. destruct Ha as [Ha|Ha]; [eapply (ge_vaA _ _ _ _ _ _ _ _ _ Hge); eauto|].
        destruct (vi_ac Hvi w k Ha) as [Hkc _].
        destruct (vi_va Hvi w T' c kw rq k k0 Hv Ha Hlt (anc_old k0 k (or_introl Hkc) Hanc) Hpos) as [H|H]; [left; eapply anc_mono; eauto|right].
        apply (passed_ext _ _ _ _ _ _ _ Hci HC'ok H).
      - intros T' c tl' Hl. apply in_app_iff in Hl. destruct Hl as [Hl|Hl]; [apply (ge_lv Hge), Hl|].
        destruct (vi_lv Hvi T' c tl' Hl) as (W & HW & H). exists W. split; [exact HW|].
        intros w Hw. destruct (H w Hw) as (kw & Hk). exists kw. apply HiV, Hk.
      - intros w T' c kw rq Hv. apply in_app_iff in Hv. destruct Hv as [Hv|Hv]; [apply (ge_up Hge _ _ _ _ _ Hv)|].
        destruct (vi_up Hvi _ _ _ _ _ Hv) as [H1 H2]. split; [exact H1|].
        destruct H2 as [->|H2]; [left; reflexivity|right; eapply created_mono; eauto].
      - intros w k Ha. apply in_app_iff in Ha. destruct Ha as [Ha|Ha]; [apply (ge_ac Hge _ _ Ha)|].
        destruct (vi_ac Hvi _ _ Ha) as [H1 (c & tl & H2)]. split; [eapply created_mono; eauto|].
        exists c, tl. apply HiL, H2.
    Qed.

    (* a server the step did not touch *)
    Lemma nodeI_other x : In x (cnodes g) -> gn_id x <> j -> nodeI cfg Ps fsm g' C' LL' A' V' x.
    Proof.
      intros Hx Hne. pose proof (zg_n HI x Hx) as HN. constructor.
      - apply (ni_node HN).
      - intros s Hr. destruct (ni_kc HN s Hr) as [K1 K2]. split; [exact K1|].
        intros i e He Hi. apply (CK_ext C Cn LL LLn A An _ _ _ (N.le_refl _)), (K2 i e He Hi).
      - apply (ni_sk_keep g C Cn LL LLn A An V x x HN (N.le_refl _) eq_refl).
      - intros s Hr Hf. destruct (ni_fsm HN s Hr Hf) as [E|[H1 H2]]; [left; exact E|right].
        split; [eapply created_mono; eauto|apply (CK_ext C Cn LL LLn A An _ _ _ (N.le_refl _)), H2].
      - intros s Hr Hrole. pose proof (ni_lead HN s Hr Hrole) as HZ. pose proof HZ as (HL & Z1 & _).
        destruct (proj1 lead_inv_view HL) as (tl & ld & _ & L).
        apply (zlead_inv_same g g' C Cn LL LLn A An x x s s HZ); auto; [apply (to_leads Ht), Hne|].
        intros y p Hy Hty. apply Hne. pose proof (Hcn y p Hy) as Hj. rewrite Hty in Hj.
        assert (Hxl : In (v_term s, gn_id x) (g_leaders (gof g'))) by (apply Hll'; exists tl; apply HiL, (li_rec L)).
        apply (leaders_fun [cfg] (gof g') (v_term s) (gn_id x) j (quorums_intersect_one cfg HVn) (zl_g [cfg] _ C' Hl') Hxl Hj).
      - intros k k0 Ha Hanc Hpos. apply in_app_iff in Ha. destruct Ha as [Ha|Ha]; [destruct (HAn _ _ Ha) as [E _]; contradiction|].
        destruct (vi_ac Hvi _ k Ha) as [Hkc _].
        destruct (ni_av HN k k0 Ha (anc_old k0 k (or_introl Hkc) Hanc) Hpos) as [H|H]; [left; eapply covers_mono; eauto|right].
        apply (passed_ext _ _ _ _ _ _ _ Hci HC'ok H).
      - apply (ni_live_keep g C LL LLn A V Vn x x HN eq_refl). auto.
      - intros se Hse. destruct (ni_se HN se Hse) as (s & Hs & [H|(c' & tl' & H)]); exists s; (split; [exact Hs|]);
          [left; exact H|right; exists c', tl'; apply HiL, H].
    Qed.

    Lemma msg_inv_mono m : In m (lg_msgs (cg_l g)) -> msg_inv cfg Ps C LL A m -> msg_inv cfg Ps C' LL' A' m.
    Proof.
      intros Hm (M1 & M2 & M3). pose proof (zg_l HI) as Hl.
      destruct (zl_msgs [cfg] _ C Hl m Hm) as (_ & _ & Hmc & _). split; [|split].
      - intros e He. destruct (M1 e He) as [D T]. split; [exact D|eapply tchain_mono; eauto].
      - destruct M2 as [M2|M2]; [left; exact M2|right; eapply created_mono; eauto].
      - intros k0 Hanc Hpos Hle. apply (CK_ext C Cn LL LLn A An _ _ _ (N.le_refl _)). apply M3; [|exact Hpos|exact Hle].
        apply anc_old; [|exact Hanc].
        unfold last_key_of. destruct (aq_entries (am_req m)) as [|e0 r] eqn:Ees.
        + destruct M2 as [M2|M2]; [right; exact M2|left; exact M2].
        + left. destruct (mchain_in C _ _ Hmc (last_of (e0 :: r))) as [q Hq]; [apply last_in; discriminate|].
          exists (last_of (e0 :: r)), q. auto.
    Qed.

    Hypothesis HN : nodeI cfg Ps fsm g' C' LL' A' V' n'.
    Hypothesis Hss : sess_req_ok n n'.
    Hypothesis Hmn : forall m, In m mn -> msg_inv cfg Ps C' LL' A' m.
    Hypothesis Han : forall x, In x an -> ans_inv g' A' x.
    Hypothesis Hvn : votes_new g' LL' V Vn Gn.

    Lemma nodeI_all x : In x (cnodes g') -> nodeI cfg Ps fsm g' C' LL' A' V' x.
    Proof. intros Hx. destruct (touch_cases x Ht Hx) as [->|[Hxo Hne]]; [exact HN|apply nodeI_other; assumption]. Qed.

    Theorem zinv_touch : zinvg cfg Ps fsm g' C' LL' A' V'.
    Proof.
      destruct Ht as [Hf Hid Hnodes Hm Ha Hg Hlo]. destruct touch_n as [Hn Hnj]. constructor.
      - exact Hl'.
      - exact Hci'.
      - exact touch_vote_inv.
      - exact Hll'.
      - exact nodeI_all.
      - intros m. rewrite Hm. intros Hin. apply in_app_iff in Hin. destruct Hin as [Hin|Hin]; [|apply Hmn, Hin].
        apply msg_inv_mono; [exact Hin|apply (zg_msg HI m Hin)].
      - intros x. rewrite Ha. intros Hx. apply in_app_iff in Hx. destruct Hx as [Hx|Hx]; [|apply Han, Hx].
        destruct (zg_ans HI x Hx) as (m & Hnth & Hacc). exists m. split; [rewrite Hm; apply nth_error_app_old, Hnth|].
        intros H1 H2 H3. apply HiA, (Hacc H1 H2 H3).
      - intros w k Hk. apply in_app_iff in Hk. destruct Hk as [Hk|Hk].
        + destruct (HAn w k Hk) as [-> Hle]. exists n'. split; [apply (touch_in Ht)|auto].
        + destruct (zg_a1 HI w k Hk) as (x & Hx & Hxi & Hxt). destruct (touch_succ x Hx) as (x' & Hx' & Hi' & Ht').
          exists x'. split; [exact Hx'|]. split; [congruence|lia].
      - intros w T' c kw rq Hv. apply in_app_iff in Hv. destruct Hv as [Hv|Hv]; [apply (vn_v1 Hvn _ _ _ _ _ Hv)|].
        destruct (zg_v1 HI _ _ _ _ _ Hv) as [(x & Hx & Hxi & Hxt) (xc & Hxc & Hxci & Hxct)]. split.
        * destruct (touch_succ x Hx) as (x' & Hx' & Hi' & Ht'). exists x'. split; [exact Hx'|]. split; [congruence|lia].
        * destruct (touch_succ xc Hxc) as (x' & Hx' & Hi' & Ht'). exists x'. split; [exact Hx'|]. split; [congruence|lia].
      - intros w T' c kw rq xc se Hv Hx Hxi Hse Hts. apply in_app_iff in Hv. destruct Hv as [Hv|Hv]; [eapply (vn_v2 Hvn); eauto|].
        destruct (touch_cases xc Ht Hx) as [->|[Hxo Hne]]; [|apply (zg_v2 HI w T' c kw rq xc se Hv Hxo Hxi Hse Hts)].
        destruct (Hss se Hse) as [(se0 & Hse0 & Er)|Hlt].
        * rewrite Er. apply (zg_v2 HI w T' c kw rq n se0 Hv Hn); [congruence|exact Hse0|congruence].
        * exfalso. destruct (zg_v1 HI _ _ _ _ _ Hv) as [_ (xc & Hxc & Hxci & Hxct)].
          rewrite (zinvg_node_eq HI xc n Hxc Hn) in Hxct by congruence. lia.
      - intros w T' c. rewrite Hg. intros Hgr. apply in_app_iff in Hgr. destruct Hgr as [Hgr|Hgr]; [apply (vn_gv Hvn), Hgr|].
        apply (recorded_mono LL _ V _ _ _ _ HiL HiV), (zg_gv HI w T' c Hgr).
      - intros x se Hx Hse. destruct (touch_cases x Ht Hx) as [->|[Hxo _]]; [|apply (zg_se1 HI x se Hxo Hse)].
        destruct (Hss se Hse) as [(se0 & Hse0 & ->)|Hlt]; [apply (zg_se1 HI n se0 Hn Hse0)|lia].
    Qed.
  End Touch.
End NodeI.
Arguments vn_v1 {g' LL V Vn Gn}.
Arguments vn_v2 {g' LL V Vn Gn}.
Arguments vn_gv {g' LL V Vn Gn}.
Arguments CK_ext {cfg C} Cn {LL} LLn {A} An {b b' k}.
Arguments ni_sk_keep {cfg Ps fsm g C} Cn {LL} LLn {A} An {V n n'}.
Arguments ni_av_keep {cfg Ps fsm g C} Cn {LL} LLn {A V n} n'.
Arguments ni_live_keep {cfg Ps fsm g C LL} LLn {A V} Vn {n} n'.
Arguments zlead_inv_ext {cfg g g' C} Cn {LL} LLn {A} An {n n' s s' ld ld'}.
Arguments zlead_inv_same {cfg g g' C} Cn {LL} LLn {A} An {n} n' {s s'}.
