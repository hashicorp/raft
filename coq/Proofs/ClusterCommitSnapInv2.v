(* ClusterCommitSnapInv2.v — the invariant of Proofs/ClusterCommitSnapInv.v with a flag that says whether its
   clauses about the FSM index are kept: the form in which the step lemmas (ClusterCommitSnapStep*.v)
   preserve it, for runs with and without takeSnapshot: clauses about the ghost state, one clause about every
   server (nodeI), clauses about the lists of the state.  A leadership state zlead_inv is read and built through
   lead_view of Proofs/ClusterCommitUpd.v (zlead_inv_at, zlead_inv_of; zg_lead_view).  It implies the statements of
   Proofs/ClusterCommitSnapSpec.v; facts about committed keys used by the step lemmas. *)
From Coq Require Import List NArith Bool Lia.
From stdpp Require Import gmap.
From RaftModel Require Import Base Config Node Cluster NodeCodec
  ClusterLog ClusterCommit.
From RaftProofs Require Import VoteProofs ClusterProofs ClusterLogSpec ClusterLogChain ClusterCommitChain ClusterCommitGhost
  ClusterCommitInv ClusterCommitUpd ClusterCommitSnapSpec ClusterCommitSnapLog ClusterCommitSnapNode
  ClusterCommitSnapLinv ClusterCommitSnapInv.
Open Scope N_scope.

Section Inv.
  Variable cfg : config.
  Variable Ps : list params.

  (* the server n agrees with the ghost state *)
  Record nodeI (fsm : bool) (g : cgstate) (C : chain) (LL : LLt) (A : At) (V : Vt) (n : gnode) : Prop := {
    ni_node : znodeg cfg Ps fsm (gn_P n) (gn_run n);
    (* what a running server knows to be committed *)
    ni_kc : forall s, gn_run n = Up s ->
              v_commit s <= last_index s /\
              forall i e, d_log s !! i = Some e -> i <= v_commit s -> CK cfg C LL A (d_term s) (key e);
    (* snapshots are taken at committed keys *)
    ni_sk : forall sn, In sn (d_snaps (image (gn_run n))) -> CK cfg C LL A (dtn n) (sk sn);
    ni_fsm : forall s, gn_run n = Up s -> fsm = true ->
              fst (v_fsmLast s) = 0 \/ (created C (v_fsmLast s) /\ CK cfg C LL A (d_term s) (v_fsmLast s));
    ni_lead : forall s, gn_run n = Up s -> v_role s = Leader -> zlead_inv cfg g C LL A n s;
    ni_av : forall k k0, In (gn_id n, k) A -> anc C k0 k -> 1 <= fst k0 ->
              covers C (image (gn_run n)) k0 \/
              passed C LL (snd k) (fun T => T <= dtn n) k0;
    ni_live : forall T' c, live (image (gn_run n)) = Some (T', c) -> recorded LL V (gn_id n) T' c;
    ni_se : forall se, gn_sess n = Some se ->
              exists s, gn_run n = Up s /\
                (last_entry s = (vq_lastIdx (se_req se), vq_lastTerm (se_req se)) \/
                 exists c' tl', In (vq_term (se_req se), c', tl') LL);
  }.

  (* zinv with the clauses about the index the FSM goroutine reports under the guard of znode_upg: the ghost state,
     every server against it, the requests, answers, acceptances, votes and sessions against the servers *)
  Record zinvg (fsm : bool) (g : cgstate) (C : chain) (LL : LLt) (A : At) (V : Vt) : Prop := {
    zg_l : zlinv [cfg] (cg_l g) C;
    zg_ci : chain_inv C LL;
    zg_vi : vote_inv cfg C LL A V;
    zg_ll : forall T c, In (T, c) (g_leaders (gof g)) <-> exists tl, In (T, c, tl) LL;
    zg_n : forall n, In n (cnodes g) -> nodeI fsm g C LL A V n;
    zg_msg : forall m, In m (lg_msgs (cg_l g)) -> msg_inv cfg Ps C LL A m;
    zg_ans : forall x, In x (cg_ans g) -> ans_inv g A x;
    zg_a1 : forall w k, In (w, k) A -> exists n, In n (cnodes g) /\ gn_id n = w /\ snd k <= dtn n;
    zg_v1 : forall w T' c kw rq, In (w, T', c, kw, rq) V ->
              (exists n, In n (cnodes g) /\ gn_id n = w /\ T' <= dtn n) /\ (exists nc, In nc (cnodes g) /\ gn_id nc = c /\ T' <= dtn nc);
    zg_v2 : forall w T' c kw rq nc se, In (w, T', c, kw, rq) V -> In nc (cnodes g) -> gn_id nc = c ->
              gn_sess nc = Some se -> vq_term (se_req se) = T' -> rq = (vq_lastIdx (se_req se), vq_lastTerm (se_req se));
    zg_gv : forall w T' c, In (w, T', c) (g_grants (gof g)) -> recorded LL V w T' c;
    zg_se1 : forall n se, In n (cnodes g) -> gn_sess n = Some se -> 1 <= vq_term (se_req se);
  }.

End Inv.
Arguments ni_node {cfg Ps fsm g C LL A V n}.
Arguments ni_kc {cfg Ps fsm g C LL A V n}.
Arguments ni_sk {cfg Ps fsm g C LL A V n}.
Arguments ni_fsm {cfg Ps fsm g C LL A V n}.
Arguments ni_lead {cfg Ps fsm g C LL A V n}.
Arguments ni_av {cfg Ps fsm g C LL A V n}.
Arguments ni_live {cfg Ps fsm g C LL A V n}.
Arguments ni_se {cfg Ps fsm g C LL A V n}.
Arguments zg_l {cfg Ps fsm g C LL A V}.
Arguments zg_ci {cfg Ps fsm g C LL A V}.
Arguments zg_vi {cfg Ps fsm g C LL A V}.
Arguments zg_ll {cfg Ps fsm g C LL A V}.
Arguments zg_n {cfg Ps fsm g C LL A V}.
Arguments zg_msg {cfg Ps fsm g C LL A V}.
Arguments zg_ans {cfg Ps fsm g C LL A V}.
Arguments zg_a1 {cfg Ps fsm g C LL A V}.
Arguments zg_v1 {cfg Ps fsm g C LL A V}.
Arguments zg_v2 {cfg Ps fsm g C LL A V}.
Arguments zg_gv {cfg Ps fsm g C LL A V}.
Arguments zg_se1 {cfg Ps fsm g C LL A V}.

(* zlead_inv through lead_view (Proofs/ClusterCommitUpd.v), for the lead record the step has found *)
Lemma zlead_inv_at {cfg g C LL A n s ld} : zlead_inv cfg g C LL A n s -> find_lead (cg_lead g) (gn_id n) = Some ld ->
  exists tl, lead_view cfg C LL A (gn_id n) s tl ld /\ v_lastSnapIdx s <= v_lastLogIdx s /\ infl_ok C s ld.
Proof.
  intros (L & Z1 & Z2) E. destruct (proj1 lead_inv_view L) as (tl & ld0 & E0 & Lv).
  rewrite E in E0. injection E0 as ->. exists tl. auto.
Qed.

Lemma zlead_inv_of {cfg g C LL A n s} tl ld : find_lead (cg_lead g) (gn_id n) = Some ld ->
  lead_view cfg C LL A (gn_id n) s tl ld -> v_lastSnapIdx s <= v_lastLogIdx s -> infl_ok C s ld -> zlead_inv cfg g C LL A n s.
Proof. intros E L Z1 Z2. split; [apply lead_inv_view; exists tl, ld; auto|]. split; [exact Z1|]. intros ld0 E0. rewrite E in E0. injection E0 as <-. exact Z2. Qed.

(* the clauses about the servers, as zinv states them *)
Section Fields.
  Context {cfg : config} {Ps : list params} {fsm : bool} {g : cgstate} {C : chain} {LL : LLt} {A : At} {V : Vt}
    (HI : zinvg cfg Ps fsm g C LL A V).

  Lemma zg_node n : In n (cnodes g) -> znodeg cfg Ps fsm (gn_P n) (gn_run n).
  Proof. intros Hin. apply (zg_n HI n Hin). Qed.
  Lemma zg_kc n s : In n (cnodes g) -> gn_run n = Up s ->
    v_commit s <= last_index s /\ forall i e, d_log s !! i = Some e -> i <= v_commit s -> CK cfg C LL A (d_term s) (key e).
  Proof. intros Hin. apply (zg_n HI n Hin). Qed.
  Lemma zg_sk n sn : In n (cnodes g) -> In sn (d_snaps (image (gn_run n))) -> CK cfg C LL A (dtn n) (sk sn).
  Proof. intros Hin. apply (zg_n HI n Hin). Qed.
  Lemma zg_fsm n s : In n (cnodes g) -> gn_run n = Up s -> fsm = true ->
    fst (v_fsmLast s) = 0 \/ (created C (v_fsmLast s) /\ CK cfg C LL A (d_term s) (v_fsmLast s)).
  Proof. intros Hin. apply (zg_n HI n Hin). Qed.
  Lemma zg_lead n s : In n (cnodes g) -> gn_run n = Up s -> v_role s = Leader -> zlead_inv cfg g C LL A n s.
  Proof. intros Hin. apply (zg_n HI n Hin). Qed.
  Lemma zg_lead_view n s : In n (cnodes g) -> gn_run n = Up s -> v_role s = Leader ->
    exists tl ld, find_lead (cg_lead g) (gn_id n) = Some ld /\ lead_view cfg C LL A (gn_id n) s tl ld /\
      v_lastSnapIdx s <= v_lastLogIdx s /\ infl_ok C s ld.
  Proof.
    intros Hin Hr Hl. pose proof (zg_lead n s Hin Hr Hl) as HZ. destruct (proj1 lead_inv_view (proj1 HZ)) as (_ & ld & E & _).
    destruct (zlead_inv_at HZ E) as (tl & H). exists tl, ld. auto.
  Qed.
  Lemma zg_av w k n k0 : In (w, k) A -> In n (cnodes g) -> gn_id n = w -> anc C k0 k -> 1 <= fst k0 ->
    covers C (image (gn_run n)) k0 \/ passed C LL (snd k) (fun T => T <= dtn n) k0.
  Proof. intros Ha Hin <-. apply (ni_av (zg_n HI n Hin) k k0 Ha). Qed.
  Lemma zg_live n T' c : In n (cnodes g) -> live (image (gn_run n)) = Some (T', c) -> recorded LL V (gn_id n) T' c.
  Proof. intros Hin. apply (zg_n HI n Hin). Qed.
  Lemma zg_se n se : In n (cnodes g) -> gn_sess n = Some se ->
    exists s, gn_run n = Up s /\
      (last_entry s = (vq_lastIdx (se_req se), vq_lastTerm (se_req se)) \/ exists c' tl', In (vq_term (se_req se), c', tl') LL).
  Proof. intros Hin. apply (zg_n HI n Hin). Qed.
End Fields.

Lemma zinvg_true cfg Ps g C LL A V : zinv cfg Ps g C LL A V <-> zinvg cfg Ps true g C LL A V.
Proof.
  split.
  - intros [L Ci Vi Ll Nd Kc Sk Fs Ld Ms An A1 Av V1 V2 Gv Lv S1 Se]; constructor; try assumption. intros n Hin. constructor.
    + apply (proj1 (znodeg_true cfg Ps _ _)), Nd, Hin.
    + intros s. apply (Kc n s Hin).
    + intros sn. apply (Sk n sn Hin).
    + intros s Hr _. apply (Fs n s Hin Hr).
    + intros s. apply (Ld n s Hin).
    + intros k k0 Ha. apply (Av _ k n k0 Ha Hin eq_refl).
    + intros T' c. apply (Lv n T' c Hin).
    + intros se. apply (Se n se Hin).
  - intros HI. pose proof HI as [L Ci Vi Ll N Ms An A1 V1 V2 Gv S1]. constructor; try assumption.
    + intros n Hin. apply (proj2 (znodeg_true cfg Ps _ _)), (zg_node HI n Hin).
    + apply (zg_kc HI).
    + apply (zg_sk HI).
    + intros n s Hin Hr. apply (zg_fsm HI n s Hin Hr eq_refl).
    + apply (zg_lead HI).
    + apply (zg_av HI).
    + apply (zg_live HI).
    + apply (zg_se HI).
Qed.

Section Final.
  Variable cfg : config.
  Variable Ps : list params.
  Variable fsm : bool.
  Hypothesis HV : NoDup (voters cfg).

  Variable g : cgstate.
  Variable C : chain.
  Variable LL : LLt.
  Variable A : At.
  Variable V : Vt.
  Hypothesis HI : zinvg cfg Ps fsm g C LL A V.

  Let Hci := zg_ci HI.
  Let Hvi := zg_vi HI.

  Lemma zCK_same_idx b1 b2 k1 k2 : CK cfg C LL A b1 k1 -> CK cfg C LL A b2 k2 -> fst k1 = fst k2 -> k1 = k2.
  Proof.
    intros H1 H2 E. apply (anc_idx_eq C k1 k2 (ci_ok Hci)); [|exact E]. apply (CK_linear_g cfg C LL A V b1 b2 k1 k2 HV Hci Hvi H1 H2). lia.
  Qed.

  Lemma zinv_pclosed : pclosed C.
  Proof. exact (ci_pred Hci). Qed.

  Lemma znode_zup_wfu n s : In n (cnodes g) -> gn_run n = Up s -> zup C s /\ wfu s.
  Proof.
    intros Hin Hr. pose proof (zg_l HI) as Hl.
    destruct (zl_nodes [cfg] (cg_l g) C Hl n Hin) as [Hn _]. rewrite Hr in Hn.
    pose proof (ginv_wfr (zl_g [cfg] _ C Hl) Hin) as Hw. rewrite Hr in Hw. auto.
  Qed.

  Lemma zinvg_nodup : NoDup (map gn_id (cnodes g)).
  Proof. apply (gi_ids [cfg] _ (zl_g [cfg] _ C (zg_l HI))). Qed.

  Lemma zinvg_node_eq x y : In x (cnodes g) -> In y (cnodes g) -> gn_id x = gn_id y -> x = y.
  Proof. apply (nodup_id_eq _ x y zinvg_nodup). Qed.

  Lemma bk_CK n s : In n (cnodes g) -> gn_run n = Up s -> v_lastSnapIdx s = 0 \/ CK cfg C LL A (d_term s) (bk s).
  Proof.
    intros Hin Hr. destruct (znode_zup_wfu n s Hin Hr) as [Hz _].
    destruct (zs_has Hz) as [E|(sn & Hsn & E)]; [left; rewrite <- bk_fst; exact E|right].
    rewrite <- E. pose proof (zg_sk HI n sn Hin) as H. unfold dtn in H. rewrite Hr in H. apply H, Hsn.
  Qed.

  Lemma held_CK n s i e : In n (cnodes g) -> gn_run n = Up s -> d_log s !! i = Some e ->
    i <= N.max (v_commit s) (v_lastSnapIdx s) -> CK cfg C LL A (d_term s) (key e).
  Proof.
    intros Hin Hr He Hi. destruct (zg_kc HI n s Hin Hr) as [_ K].
    destruct (N.le_gt_cases i (v_commit s)) as [Hc|Hc]; [apply (K i e He Hc)|].
    destruct (znode_zup_wfu n s Hin Hr) as [Hz _]. pose proof (ci_ok Hci) as HC.
    destruct (bk_CK n s Hin Hr) as [E|Hb]; [lia|].
    apply (CK_anc cfg C LL A _ (bk s) _ Hci); [exact Hb|]. apply (zshape_log_b C HC _ _ _ _ _ Hz i e He). simpl. lia.
  Qed.

  Lemma lastk_CK n s k0 : In n (cnodes g) -> gn_run n = Up s -> anc C k0 (last_entry s) -> 1 <= fst k0 ->
    fst k0 <= N.max (v_commit s) (v_lastSnapIdx s) -> CK cfg C LL A (d_term s) k0.
  Proof.
    intros Hin Hr Ha Hpos Hle. destruct (znode_zup_wfu n s Hin Hr) as [Hz _]. pose proof (ci_ok Hci) as HC.
    rewrite last_entry_lk in Ha.
    destruct (N.le_gt_cases (fst k0) (v_lastSnapIdx s)) as [Hs|Hs].
    - destruct (bk_CK n s Hin Hr) as [E|Hb]; [lia|]. apply (CK_anc cfg C LL A _ (bk s) k0 Hci Hb).
      apply (anc_linear C k0 (bk s) _ HC Ha (zshape_b_lk C _ _ _ _ _ Hz)). simpl. exact Hs.
    - assert (Hk : anc C k0 (topk s)).
      { unfold lk in Ha. destruct (N.leb_spec (fst (bk s)) (fst (topk s))); [exact Ha|].
        destruct (anc_le C _ _ HC Ha) as [Hx _]. simpl in Hx. lia. }
      destruct (zshape_holds C HC _ _ _ _ _ Hz k0 Hk) as (x & Hx & Ex); [simpl; lia|].
      rewrite <- Ex. apply (held_CK n s _ x Hin Hr Hx). lia.
  Qed.

  Lemma CK_below_last n s b k : In n (cnodes g) -> gn_run n = Up s -> CK cfg C LL A b k -> 1 <= fst k ->
    fst k <= N.max (v_commit s) (v_lastSnapIdx s) -> anc C k (last_entry s).
  Proof.
    intros Hin Hr Hk Hpos Hle. destruct (znode_zup_wfu n s Hin Hr) as [Hz _]. pose proof (ci_ok Hci) as HC.
    rewrite last_entry_lk.
    destruct (N.le_gt_cases (fst k) (v_lastSnapIdx s)) as [Hs|Hs].
    - destruct (bk_CK n s Hin Hr) as [E|Hb]; [lia|].
      eapply anc_trans; [apply (CK_linear_g cfg C LL A V _ _ k (bk s) HV Hci Hvi Hk Hb); simpl; exact Hs|apply (zshape_b_lk C _ _ _ _ _ Hz)].
    - destruct (zg_kc HI n s Hin Hr) as [K1 K2]. unfold last_index in K1.
      destruct (zs_seg Hz (fst k)) as [x Hx]; [simpl; lia|simpl; lia|].
      destruct (zs_in Hz _ x Hx) as (Ix & _).
      assert (E : key x = k) by (apply (zCK_same_idx _ _ _ _ (K2 _ x Hx ltac:(lia)) Hk); unfold key; simpl; exact Ix).
      rewrite <- E. apply (zshape_log_lk C _ _ _ _ _ Hz _ x Hx).
  Qed.

  Theorem zinv_applied_within_snap : applied_within_snap g.
  Proof.
    intros a sa Ha Ra. destruct (zg_kc HI a sa Ha Ra) as [Kc _].
    pose proof (zg_node HI a Ha) as (_ & _ & Hn). rewrite Ra in Hn.
    split; [apply (zu_ac Hn)|exact Kc].
  Qed.
  Lemma leader_topk l sl : In l (cnodes g) -> gn_run l = Up sl -> v_role sl = Leader ->
    exists tl, In (v_term sl, gn_id l, tl) LL /\ created C (topk sl) /\ snd (topk sl) = v_term sl /\ anc C tl (topk sl) /\
      tchain C LL (v_term sl) (topk sl).
  Proof.
    intros Hl Rl Hrole. pose proof (ci_ok Hci) as HC.
    destruct (znode_zup_wfu l sl Hl Rl) as [Hz _].
    destruct (zg_lead_view HI l sl Hl Rl Hrole) as (tl & ld & _ & L & _). pose proof (li_rec L) as Hll. pose proof (li_last L) as Htt.
    destruct (ci_tl Hci _ _ _ Hll) as [Htl1 _].
    assert (Hcr : created C (topk sl)).
    { destruct (zs_tk Hz) as [E|H]; [|exact H]. unfold topk in E. inversion E. lia. }
    exists tl. split; [exact Hll|]. split; [exact Hcr|]. split; [exact Htt|].
    destruct Hcr as (xt & pt & Pt & Ekt). assert (Ett : e_term xt = v_term sl) by (unfold key, topk in Ekt; inversion Ekt; congruence).
    split.
    - rewrite <- Ekt. eapply anc_trans; [apply (ci_root Hci _ _ _ xt pt Hll Pt Ett)|].
      eapply anc_up; [exact Pt|reflexivity|apply anc_refl].
    - eapply tchain_created; [exact Hll|exists xt, pt; auto|exact Htt].
  Qed.

  Lemma leader_has_CK l sl b k : In l (cnodes g) -> gn_run l = Up sl -> v_role sl = Leader -> b <= v_term sl ->
    CK cfg C LL A b k -> created C k -> anc C k (topk sl).
  Proof.
    intros Hl Rl Hrole Hb Hck Hkc.
    destruct (leader_topk l sl Hl Rl Hrole) as (tl & Hll & _ & _ & Htla & _).
    destruct (zg_lead_view HI l sl Hl Rl Hrole) as (tl' & ld & _ & L & _).
    destruct (CK_on_branch cfg C LL A V b k _ _ tl HV Hci Hvi Hck Hb Hll) as (c' & tl2 & Hl2 & Hk).
    destruct (ci_uniq Hci _ _ _ _ _ Hl2 Hll) as [-> ->].
    destruct Hk as [[Hk1 _]|Hk]; [|eapply anc_trans; eauto].
    destruct Hkc as (x & p & Px & Ex). rewrite <- Ex. apply (li_anc L x p Px). rewrite <- Ex in Hk1. exact Hk1.
  Qed.

  (* known_committed (T, e) (Proofs/ClusterCommitUpd.v): what a running server holds inside its commit index is such
     an entry, and so is an acknowledged one (Proofs/ClusterCommitSnapAcks.v); every Leader of a term >= T holds it or
     runs on a snapshot covering it, and it is what every running server that knows its index committed holds there *)
  Lemma log_known a sa i e : In a (cnodes g) -> gn_run a = Up sa -> d_log sa !! i = Some e -> i <= v_commit sa ->
    e_idx e = i /\ known_committed cfg C LL A (d_term sa, e).
  Proof.
    intros Ha Ra He Hi. destruct (znode_zup_wfu a sa Ha Ra) as [Hza _]. destruct (zs_in Hza i e He) as (Ie & Hcr & _).
    split; [exact Ie|]. split; [exact Hcr|]. apply (proj2 (zg_kc HI a sa Ha Ra) i e He Hi).
  Qed.

  Lemma known_leader_holds T e : known_committed cfg C LL A (T, e) ->
    forall l sl, In l (cnodes g) -> gn_run l = Up sl -> v_role sl = Leader -> T <= v_term sl ->
    d_log sl !! e_idx e = Some e \/ e_idx e <= v_lastSnapIdx sl.
  Proof.
    intros [(p & Pe) Hck] l sl Hl Rl Hrole Hterm. cbn [fst snd] in *. pose proof (ci_ok Hci) as HC.
    destruct (N.le_gt_cases (e_idx e) (v_lastSnapIdx sl)) as [Hs|Hs]; [right; exact Hs|left].
    destruct (znode_zup_wfu l sl Hl Rl) as [Hzl _].
    assert (Hanc : anc C (key e) (topk sl)) by (apply (leader_has_CK l sl T (key e) Hl Rl Hrole Hterm Hck); exists e, p; auto).
    destruct (zshape_holds C HC _ _ _ _ _ Hzl (key e) Hanc) as (y & Hy & Ey); [unfold key, bk; simpl; lia|].
    unfold key in Hy at 1. simpl in Hy. destruct (zs_in Hzl _ y Hy) as (_ & (py & Py) & _).
    rewrite Hy. f_equal. apply (co_fun C HC y py e p Py Pe Ey).
  Qed.

  Lemma known_agree T e : known_committed cfg C LL A (T, e) ->
    forall a sa ea, In a (cnodes g) -> gn_run a = Up sa -> e_idx e <= v_commit sa -> d_log sa !! e_idx e = Some ea -> ea = e.
  Proof.
    intros [(p & Pe) Hck] a sa ea Ha Ra Hi Hea. cbn [fst snd] in *.
    destruct (log_known a sa _ ea Ha Ra Hea Hi) as (Ia & (pa & Pa) & Hcka). cbn [fst snd] in *.
    apply (co_fun C (ci_ok Hci) ea pa e p Pa Pe). apply (zCK_same_idx _ _ _ _ Hcka Hck). unfold key. simpl. exact Ia.
  Qed.

  Theorem zinv_committed_agree : committed_agree g.
  Proof.
    intros a b sa sb Ha Hb Ra Rb i ea eb Hia Hib Hea Heb.
    destruct (log_known b sb i eb Hb Rb Heb Hib) as [<- Hk]. apply (known_agree _ eb Hk a sa ea Ha Ra Hia Hea).
  Qed.

  Theorem zinv_leader_complete_snap : leader_complete_snap g.
  Proof.
    intros a l sa sl Ha Hl Ra Rl Hrole Hterm i e Hi He.
    destruct (log_known a sa i e Ha Ra He Hi) as [<- Hk]. destruct (znode_zup_wfu a sa Ha Ra) as [_ [_ Hwa]].
    apply (known_leader_holds _ e Hk l sl Hl Rl Hrole). lia.
  Qed.

  Theorem zinv_snapshots_committed : snapshots_committed g.
  Proof.
    split.
    - intros a b sa sn e Ha Hb Ra Hsn Hi He.
      destruct (zg_kc HI a sa Ha Ra) as [_ Ka].
      destruct (znode_zup_wfu a sa Ha Ra) as [Hza _]. destruct (zs_in Hza _ e He) as (Ie & _).
      assert (E : key e = sk sn).
      { apply (zCK_same_idx _ _ _ _ (Ka _ e He Hi) (zg_sk HI b sn Hb Hsn)). unfold key, sk. simpl. exact Ie. }
      unfold key, sk in E. congruence.
    - intros a b sna snb Ha Hb Hsa Hsb Ei.
      assert (E : sk sna = sk snb).
      { apply (zCK_same_idx _ _ _ _ (zg_sk HI a sna Ha Hsa) (zg_sk HI b snb Hb Hsb)). exact Ei. }
      unfold sk in E. congruence.
  Qed.
End Final.
Arguments znode_zup_wfu {cfg Ps fsm g C LL A V}.
Arguments zinvg_nodup {cfg Ps fsm g C LL A V}.
Arguments zinvg_node_eq {cfg Ps fsm g C LL A V}.
