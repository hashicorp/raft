(* ConvergeProofs.v — catch-up converges: the leader's replicateTo (Model/Replicate.v) against the
   follower's AppendEntries handler (Model/Node.v), composed in Model/Converge.v. *)
From Coq Require Import List NArith Bool Lia.
From stdpp Require Import gmap.
From RaftModel Require Import Base Node Replicate Converge.
From RaftProofs Require Import AppendProofs ConvergeLeader ConvergeFollower.
Open Scope N_scope.

Lemma cu_round_accept PL PF sL s n rs B :
  leader_ok PL sL n -> follower_wf (v_term sL) s -> 1 <= r_next rs <= n -> r_match rs < r_next rs ->
  caught_up sL s (r_next rs - 1) -> v_applied s <= B -> v_commit sL <= B ->
  exists rs' s', cu_round PL PF sL rs s n = Some (rs', s', if r_next rs' <=? n then None else Some false) /\
    follower_wf (v_term sL) s' /\ r_next rs < r_next rs' <= n + 1 /\ r_match rs' = r_next rs' - 1 /\
    caught_up sL s' (r_next rs' - 1) /\ v_applied s' <= B.
Proof.
  intros HL Hwf Hn Hm Hcu Ha Hc.
  destruct (setup_send_ok PL sL n (r_next rs) HL Hn) as (pt & es & Hsend & Hne & Hcontig & Hprev & Hes & Hlast).
  unfold cu_round. rewrite Hsend.
  destruct (append_accept PF s (mkAReq (v_term sL) (p_self PL) (p_self PL) (r_next rs - 1) pt es (v_commit sL))
              (v_term sL) Hwf eq_refl) as (s' & r & tr & E & R1 & R2 & W & Hbelow & Hheld & Happ).
  { exact Hcontig. }
  { intros e He. apply (Hes e He). }
  { cbn [aq_prevIdx aq_prevTerm]. destruct (N.eq_dec (r_next rs) 1) as [E1|E1]; [left; lia|right].
    destruct Hprev as (pe & Hpe & Hpt); [lia|].
    destruct (Hcu (r_next rs - 1) pe ltac:(lia) Hpe) as (pe' & H1 & H2). exists pe'. split; [exact H1|congruence]. }
  cbn [aq_prevIdx aq_entries aq_commit] in *.
  rewrite E, R1, R2. unfold round_step. rewrite N.ltb_irrefl.
  destruct (contig_last _ _ Hcontig Hne) as [_ Hli]. change (e_idx (last_of es)) with (last_idx_of es) in Hli.
  destruct es as [|e0 r0]; [contradiction|]. set (es := e0 :: r0) in *.
  cbv zeta. cbn [r_next r_match].
  exists (mkRS (last_idx_of es + 1) 0 (N.max (r_match rs) (last_idx_of es))), s'.
  split; [reflexivity|]. cbn [r_next r_match].
  split; [exact W|]. split; [lia|]. split; [lia|]. split; [|lia].
  replace (last_idx_of es + 1 - 1) with (last_idx_of es) by lia.
  intros i e Hi He. destruct (N.le_gt_cases i (r_next rs - 1)) as [Hlow|Hhigh].
  - rewrite Hbelow by exact Hlow. apply Hcu; [lia|exact He].
  - destruct (contig_nth _ _ Hcontig i) as (x & Hx & Hxi); [lia|].
    destruct (Hes x Hx) as (Hlx & _). rewrite Hxi, He in Hlx. inversion Hlx; subst x.
    destruct (Hheld e Hx) as (se & S1 & S2). exists se. rewrite <- Hxi. auto.
Qed.

Lemma cu_round_reject PL PF sL s n rs :
  leader_ok PL sL n -> follower_wf (v_term sL) s -> 1 < r_next rs <= n ->
  (forall pe pe', d_log sL !! (r_next rs - 1) = Some pe -> d_log s !! (r_next rs - 1) = Some pe' ->
                  e_term pe' <> e_term pe) ->
  exists rs' s', cu_round PL PF sL rs s n = Some (rs', s', None) /\
    follower_wf (v_term sL) s' /\ d_log s' = d_log s /\ v_applied s' = v_applied s /\
    1 <= r_next rs' < r_next rs /\ r_match rs' = r_match rs.
Proof.
  intros HL Hwf Hn Hno.
  destruct (setup_send_ok PL sL n (r_next rs) HL ltac:(lia)) as (pt & es & Hsend & Hne & Hcontig & Hprev & Hes & Hlast).
  unfold cu_round. rewrite Hsend.
  destruct Hprev as (pe & Hpe & Hpt); [lia|].
  destruct (append_reject PF s (mkAReq (v_term sL) (p_self PL) (p_self PL) (r_next rs - 1) pt es (v_commit sL))
              (v_term sL) Hwf eq_refl) as (s' & r & tr & E & R1 & R2 & R3 & R4 & W & D & A).
  { cbn [aq_prevIdx]. lia. }
  { cbn [aq_prevIdx aq_prevTerm]. intros pe' Hpe'. rewrite <- Hpt. eapply Hno; eauto. }
  rewrite E, R1, R2, R3, R4. unfold round_step. rewrite N.ltb_irrefl. cbv zeta.
  set (nx := N.max (N.min (r_next rs - 1) (v_lastLogIdx s + 1)) 1).
  assert (Hnx : 1 <= nx < r_next rs) by (unfold nx; lia).
  destruct (N.leb_spec nx n); [|lia].
  exists (mkRS nx 0 (r_match rs)), s'. split; [reflexivity|]. cbn [r_next r_match]. auto 10.
Qed.

(* from (rs, s) the call returns within `bound` trips with the follower caught up *)
Definition ends_caught_up PL PF sL n B fuel rs s (bound : nat) : Prop :=
  exists rs' s' k, cu_run fuel PL PF sL rs s n = Some (rs', s', k) /\
    r_next rs' = n + 1 /\ r_match rs' = n /\ caught_up sL s' n /\ follower_wf (v_term sL) s' /\
    v_applied s' <= B /\ (k <= bound)%nat.

Lemma ends_later PL PF sL n B fuel rs s b b' :
  (b <= b')%nat -> ends_caught_up PL PF sL n B fuel rs s b -> ends_caught_up PL PF sL n B fuel rs s b'.
Proof. intros Hb (rs' & s' & k & H). exists rs', s', k. repeat (split; [apply H|]). destruct H as (_ & _ & _ & _ & _ & _ & H). lia. Qed.

Lemma ends_after_trip PL PF sL n B fuel rs s rs1 s1 b :
  cu_round PL PF sL rs s n = Some (rs1, s1, None) -> ends_caught_up PL PF sL n B fuel rs1 s1 b ->
  ends_caught_up PL PF sL n B (S fuel) rs s (S b).
Proof.
  intros E (rs' & s' & k & E' & H). exists rs', s', (S k). split; [cbn [cu_run]; rewrite E, E'; reflexivity|].
  repeat (split; [apply H|]). destruct H as (_ & _ & _ & _ & _ & H). lia.
Qed.

(* after the first acceptance every trip is accepted *)
Lemma phase2 PL PF sL n B : leader_ok PL sL n -> v_commit sL <= B ->
  forall fuel rs s, follower_wf (v_term sL) s -> 1 <= r_next rs <= n -> r_match rs < r_next rs ->
  caught_up sL s (r_next rs - 1) -> v_applied s <= B -> (N.to_nat (n + 1 - r_next rs) <= fuel)%nat ->
  ends_caught_up PL PF sL n B fuel rs s (N.to_nat (n + 1 - r_next rs)).
Proof.
  intros HL Hc. induction fuel as [|fuel IH]; intros rs s Hwf Hn Hm Hcu Ha Hf; [lia|].
  destruct (cu_round_accept PL PF sL s n rs B HL Hwf Hn Hm Hcu Ha Hc) as (rs1 & s1 & E & W1 & N1 & M1 & C1 & A1).
  destruct (N.leb_spec (r_next rs1) n) as [Hle|Hgt].
  - apply (ends_later _ _ _ _ _ _ _ _ (S (N.to_nat (n + 1 - r_next rs1)))); [lia|].
    apply (ends_after_trip _ _ _ _ _ _ _ _ _ _ _ E). apply IH; try assumption; lia.
  - exists rs1, s1, 1%nat. split; [cbn [cu_run]; rewrite E; destruct (N.leb_spec (r_next rs1) n); [lia|reflexivity]|].
    assert (r_next rs1 = n + 1) by lia.
    split; [assumption|]. split; [lia|]. split; [|split; [exact W1|split; [exact A1|lia]]].
    replace n with (r_next rs1 - 1) by lia. exact C1.
Qed.

(* before it, refusals lower nextIndex *)
Lemma phase1 PL PF sL n B : leader_ok PL sL n -> v_commit sL <= B ->
  forall fuel rs s, follower_wf (v_term sL) s -> log_matching_premise sL s -> 1 <= r_next rs <= n ->
  r_match rs = 0 -> v_applied s <= B -> (N.to_nat (r_next rs + n) <= fuel)%nat ->
  ends_caught_up PL PF sL n B fuel rs s (N.to_nat (r_next rs + n)).
Proof.
  intros HL Hc. induction fuel as [|fuel IH]; intros rs s Hwf Hlm Hn Hm Ha Hf; [lia|].
  assert (P2 : caught_up sL s (r_next rs - 1) -> ends_caught_up PL PF sL n B (S fuel) rs s (N.to_nat (r_next rs + n))).
  { intros Hcu. apply (ends_later _ _ _ _ _ _ _ _ (N.to_nat (n + 1 - r_next rs))); [lia|].
    apply phase2; try assumption; lia. }
  assert (P1 : (forall pe pe', d_log sL !! (r_next rs - 1) = Some pe -> d_log s !! (r_next rs - 1) = Some pe' ->
                               e_term pe' <> e_term pe) -> 1 < r_next rs ->
               ends_caught_up PL PF sL n B (S fuel) rs s (N.to_nat (r_next rs + n))).
  { intros Hno H1.
    destruct (cu_round_reject PL PF sL s n rs HL Hwf ltac:(lia) Hno) as (rs1 & s1 & E & W1 & D1 & A1 & N1 & M1).
    apply (ends_later _ _ _ _ _ _ _ _ (S (N.to_nat (r_next rs1 + n)))); [lia|].
    apply (ends_after_trip _ _ _ _ _ _ _ _ _ _ _ E). apply IH; try assumption; try lia.
    unfold log_matching_premise. rewrite D1. exact Hlm. }
  destruct (N.eq_dec (r_next rs) 1) as [E1|E1].
  { apply P2. intros i e Hi. lia. }
  destruct HL as (Hk & Hall & Hrest). destruct (Hall (r_next rs - 1)) as (pe & Hpe & _); [lia|].
  destruct (d_log s !! (r_next rs - 1)) as [pe'|] eqn:Hpe'.
  - destruct (N.eq_dec (e_term pe') (e_term pe)) as [Et|Et].
    + apply P2. intros j ej Hj Hej. apply (Hlm (r_next rs - 1) pe pe' Hpe Hpe' (eq_sym Et) j ej Hj Hej).
    + apply P1; [|lia]. intros x y Hx Hy. congruence.
  - apply P1; [|lia]. intros x y Hx Hy. congruence.
Qed.

(* The statement

     Theorem catch_up_converges : forall PL PF sL sF n next0,
       leader_ok PL sL n -> follower_ok (v_term sL) sF -> log_matching_premise sL sF -> 1 <= next0 <= n ->
       exists rs' sF' k,
         cu_run (N.to_nat (next0 + n) + 1) PL PF sL (mkRS next0 0 0) sF n = Some (rs', sF', k) /\
         r_next rs' = n + 1 /\ r_match rs' = n /\
         caught_up sL sF' n /\ follower_ok (v_term sL) sF' /\ (k <= N.to_nat (next0 + n))%nat.

   is false for the models as written: the last clause of follower_ok (v_applied <= v_lastLogIdx) does
   not survive a conflict truncation below lastApplied (Proofs/ConvergeCounter.v, by vm_compute; before
   the fix: commit of the follower's commit rule a leader commit index above n against a follower log
   longer than n broke it as well).  Everything else holds:
   follower_wf is follower_ok without that clause, and lastApplied stays below max(lastApplied, leader commit). *)
Theorem catch_up_converges_partial : forall PL PF sL sF n next0,
  leader_ok PL sL n -> follower_ok (v_term sL) sF -> log_matching_premise sL sF -> 1 <= next0 <= n ->
  exists rs' sF' k,
    cu_run (N.to_nat (next0 + n) + 1) PL PF sL (mkRS next0 0 0) sF n = Some (rs', sF', k) /\
    r_next rs' = n + 1 /\ r_match rs' = n /\
    caught_up sL sF' n /\ follower_wf (v_term sL) sF' /\ n <= v_lastLogIdx sF' /\
    v_applied sF' <= N.max (v_applied sF) (v_commit sL) /\ (k <= N.to_nat (next0 + n))%nat.
Proof.
  intros PL PF sL sF n next0 HL HF Hlm Hn.
  destruct (follower_ok_wf _ _ HF) as [Hwf _].
  destruct (phase1 PL PF sL n (N.max (v_applied sF) (v_commit sL)) HL ltac:(lia)
              (N.to_nat (next0 + n) + 1)%nat (mkRS next0 0 0) sF Hwf Hlm Hn eq_refl ltac:(lia))
    as (rs' & s' & k & E & R1 & R2 & R3 & R4 & R5 & R6).
  { cbn [r_next]. lia. }
  cbn [r_next] in R6. exists rs', s', k. repeat (split; [assumption|]). split; [|split; assumption].
  destruct HL as (_ & Hall & _). destruct (Hall n) as (e & He & _); [lia|].
  destruct (R3 n e ltac:(lia) He) as (e' & He' & _).
  destruct R4 as (_ & _ & _ & (W1 & _) & _).
  destruct (N.le_gt_cases n (v_lastLogIdx s')) as [|Hgt]; [assumption|].
  rewrite (W1 _ Hgt) in He'. discriminate.
Qed.

(* with the leader's commit index and the follower's lastApplied within 1..n, the conclusion of the statement quoted above *)
Theorem catch_up_converges_bounded : forall PL PF sL sF n next0,
  leader_ok PL sL n -> follower_ok (v_term sL) sF -> log_matching_premise sL sF -> 1 <= next0 <= n ->
  v_commit sL <= n -> v_applied sF <= n ->
  exists rs' sF' k,
    cu_run (N.to_nat (next0 + n) + 1) PL PF sL (mkRS next0 0 0) sF n = Some (rs', sF', k) /\
    r_next rs' = n + 1 /\ r_match rs' = n /\
    caught_up sL sF' n /\ follower_ok (v_term sL) sF' /\ (k <= N.to_nat (next0 + n))%nat.
Proof.
  intros PL PF sL sF n next0 HL HF Hlm Hn Hc Ha.
  destruct (catch_up_converges_partial PL PF sL sF n next0 HL HF Hlm Hn)
    as (rs' & s' & k & E & R1 & R2 & R3 & R4 & R5 & R6 & R7).
  exists rs', s', k. repeat (split; [assumption|]). split; [|assumption].
  apply follower_wf_ok; [assumption|lia].
Qed.

Print Assumptions catch_up_converges_partial.
Print Assumptions catch_up_converges_bounded.
