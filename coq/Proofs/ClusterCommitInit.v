(* ClusterCommitInit.v — NewRaft without RestoreCommittedLogs starts with commitIndex 0, nothing handed to the FSM
   goroutine, lastApplied at the newest usable snapshot and configurations decoded from the log and that snapshot
   (recover_snap); with an empty snapshot store lastApplied = 0 (recover_fresh, boot_fresh); non-vacuity of cinit_ok:
   every initial state the driver ClusterCommit.run_clustercommit builds satisfies it. *)
From Coq Require Import List NArith Bool Lia FinFun.
From stdpp Require Import gmap.
From RaftModel Require Import Base Config Node NodeCodec Cluster ClusterLog ClusterCommit.
From RaftProofs Require Import VoteProofs RecoverProofs ClusterLogSnapBoot ClusterLogExample ClusterCommitSpec.
Open Scope N_scope.

Lemma process_config_entry_cfg P cfg s e :
  (e_ty e = LogConfiguration -> p_decode P (e_data e) = cfg) ->
  cfg_or_nil cfg (v_latest s) -> cfg_or_nil cfg (v_committed s) ->
  cfg_or_nil cfg (v_latest (process_config_entry P s e)) /\ cfg_or_nil cfg (v_committed (process_config_entry P s e)).
Proof.
  intros Hd Hl Hc. unfold process_config_entry. destruct (N.eqb_spec (e_ty e) LogConfiguration) as [E|_]; [|auto].
  cbn. split; [left; apply Hd, E|exact Hl].
Qed.

Lemma process_config_entry_log P s e : d_log (process_config_entry P s e) = d_log s.
Proof. unfold process_config_entry. destruct (e_ty e =? LogConfiguration); reflexivity. Qed.

Lemma scan_configs_cfg P cfg n : forall s from s',
  (forall i e, d_log s !! i = Some e -> e_ty e = LogConfiguration -> p_decode P (e_data e) = cfg) ->
  cfg_or_nil cfg (v_latest s) -> cfg_or_nil cfg (v_committed s) ->
  scan_configs P s from n = Some s' -> cfg_or_nil cfg (v_latest s') /\ cfg_or_nil cfg (v_committed s').
Proof.
  induction n as [|n IH]; intros s from s' Hd Hl Hc H; simpl in H.
  - inversion H; subst. auto.
  - destruct (d_log s !! from) as [e|] eqn:E; [|discriminate].
    destruct (process_config_entry_cfg P cfg s e (Hd from e E) Hl Hc) as [A B].
    apply (IH _ _ _ (fun i x Hx => Hd i x (eq_ind _ (fun m => m !! i = Some x) Hx _ (process_config_entry_log P s e))) A B H).
Qed.

(* NewRaft with RestoreCommittedLogs off: commitIndex is 0, nothing is handed to the FSM goroutine, the newest usable
   snapshot is the boundary and lastApplied its index, and the configurations come from the log and that snapshot *)
Lemma recover_snap P img s tr : p_rc P = false -> recover P img = RecOk s tr ->
  v_commit s = 0 /\ v_fsmLast s = (0, 0) /\
  match find sn_ok (list_snaps (d_snaps img)) with
  | Some sn => v_lastSnapIdx s = sn_idx sn /\ v_lastSnapTerm s = sn_term sn /\ v_applied s = sn_idx sn
  | None => v_lastSnapIdx s = 0 /\ v_applied s = 0
  end /\
  forall cfg, (forall i e, d_log img !! i = Some e -> e_ty e = LogConfiguration -> p_decode P (e_data e) = cfg) ->
    (forall sn, In sn (d_snaps img) -> cfg_or_nil cfg (sn_cfg sn)) ->
    cfg_or_nil cfg (v_latest s) /\ cfg_or_nil cfg (v_committed s).
Proof.
  intros Hrc ER. destruct (recover_stages _ _ _ _ ER) as (le & s3 & tr3 & s4 & tr4 & s5 & _ & E3 & E4 & ES & -> & _).
  cbv zeta in E3. destruct E4 as [(_ & -> & _)|(E & _)]; [|congruence].
  pose proof (scan_configs_fsm _ _ _ _ _ ES) as F5.
  pose proof (scan_configs_keeps _ _ _ _ _ ES) as (_ & _ & A5 & _ & _ & _ & SI5 & ST5 & _ & C5).
  assert (H3 : v_commit s3 = 0 /\ v_fsmLast s3 = (0, 0))
    by (destruct (find sn_ok _); [destruct E3 as [_ ->]|destruct E3 as (_ & _ & ->)]; split; reflexivity).
  rewrite rec_fin_commit0 by (rewrite C5; apply H3). rewrite C5, F5, SI5, ST5, A5. split; [apply H3|]. split; [apply H3|].
  destruct (find sn_ok (list_snaps (d_snaps img))) as [sn|] eqn:EF.
  - destruct E3 as [_ ->]. assert (Hin : In sn (d_snaps img)) by (apply find_some in EF; apply list_snaps_spec, EF).
    split; [repeat split|]. intros cfg Hd Hsc.
    match type of ES with scan_configs P ?S ?F ?N = _ =>
      apply (scan_configs_cfg P cfg N S F s5 Hd (Hsc sn Hin) (Hsc sn Hin) ES) end.
  - destruct E3 as (_ & _ & ->). split; [split; reflexivity|]. intros cfg Hd Hsc.
    match type of ES with scan_configs P ?S ?F ?N = _ =>
      apply (scan_configs_cfg P cfg N S F s5 Hd (or_intror eq_refl) (or_intror eq_refl) ES) end.
Qed.

(* ... with an empty snapshot store *)
Lemma recover_fresh P img s tr : p_rc P = false -> d_snaps img = [] -> recover P img = RecOk s tr ->
  v_commit s = 0 /\ v_applied s = 0 /\
  forall cfg, (forall i e, d_log img !! i = Some e -> e_ty e = LogConfiguration -> p_decode P (e_data e) = cfg) ->
    cfg_or_nil cfg (v_latest s) /\ cfg_or_nil cfg (v_committed s).
Proof.
  intros Hrc Hsn ER. destruct (recover_snap P img s tr Hrc ER) as (Hc & _ & Hm & Hcfg). rewrite Hsn in Hm, Hcfg.
  split; [exact Hc|]. split; [apply Hm|]. intros cfg Hd. apply (Hcfg cfg Hd). intros sn [].
Qed.

Lemma boot_fresh P img r out : p_rc P = false -> d_snaps img = [] -> boot P img = (r, out) ->
  match r with
  | Up s => v_commit s = 0 /\ v_applied s = 0 /\
            forall cfg, (forall i e, d_log img !! i = Some e -> e_ty e = LogConfiguration -> p_decode P (e_data e) = cfg) ->
              cfg_or_nil cfg (v_latest s) /\ cfg_or_nil cfg (v_committed s)
  | Down _ => True
  end.
Proof.
  intros Hrc Hsn H. destruct (boot_cases _ _ _ _ H) as [(s & tr & ER & ->)| ->]; [|exact I].
  apply (recover_fresh P img s tr Hrc Hsn ER).
Qed.

Lemma mk_node_cinit cfg nodes i x : (forall n' d, In n' nodes -> p_decode (gn_P n') d = cfg) ->
  cnode_init cfg nodes (mk_node cfg i x).
Proof.
  intros Hdec. unfold cnode_init, mk_node. cbn [gn_P gn_run p_rc].
  split; [reflexivity|].
  set (P := mkP i false false false 100 4 (fun _ => cfg)).
  destruct (boot P (mk_image cfg x)) as [r out] eqn:EB. cbn [fst].
  pose proof (boot_fresh P (mk_image cfg x) r out eq_refl eq_refl EB) as Hr.
  split.
  { assert (Hwd : wfd (mk_image cfg x)) by (unfold wfd; simpl; lia).
    destruct (boot_spec P _ r out Hwd EB) as [_ Hd]. unfold live. rewrite Hd. reflexivity. }
  split; [intros k e _ _ n' Hn'; apply Hdec, Hn'|].
  destruct r as [s|s]; [|exact I]. destruct Hr as (A & B & D).
  split; [exact A|]. split; [exact B|]. apply D. intros k e _ _. reflexivity.
Qed.

Theorem mk_nodes_cinit n extras :
  cinit_ok (mk_cfg n)
    (mkCG (mkLG (mkG (map (fun p => mk_node (mk_cfg n) (N.of_nat (fst p)) (snd p)) (combine (seq 1 n) extras)) [] [] []) []) [] [] []).
Proof.
  split; [apply mk_nodes_linit|]. split; [reflexivity|]. split; [reflexivity|]. split; [reflexivity|].
  split; [apply nodup_voters_mk_cfg|].
  unfold cnodes. cbn [cg_l lg_g g_nodes]. intros nd Hin.
  apply in_map_iff in Hin. destruct Hin as (p & <- & _). apply mk_node_cinit.
  intros n' d Hn'. apply in_map_iff in Hn'. destruct Hn' as (q & <- & _). reflexivity.
Qed.

Example cinit_is_the_drivers :
  run_clustercommit [3; 0; 1; 2] = run_clabels (mk_cfg 3) 0
    (mkCG (mkLG (mkG (map (fun p => mk_node (mk_cfg 3) (N.of_nat (fst p)) (snd p)) (combine (seq 1 3) [0; 1; 2])) [] [] []) []) [] [] []) [].
Proof. reflexivity. Qed.
