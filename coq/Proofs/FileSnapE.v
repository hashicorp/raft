(* FileSnapE.v — runs of several ops: which directories stay, which go; Q along ops on a directory that was never
   renamed (tmp_op, QP_tmp); the ops of RemoveAll and of the flush are of that kind; find_dir. *)
From Coq Require Import List Arith NArith Bool Lia Permutation.
From RaftModel Require Import FileSnap FileSnapSpec.
From RaftProofs Require Import FileSnapA FileSnapB FileSnapC FileSnapD.
Import ListNotations.
Open Scope N_scope.

Lemma run_keep : forall ops f d, In d f -> (forall o, In o ops -> op_sid o <> Some (d_sid d)) ->
  In d (fs_run f ops).
Proof.
  induction ops as [|o ops IH]; simpl; intros f d Hd H; [exact Hd|].
  apply IH; [|intros; apply H; right; assumption].
  apply apply_in_other; [exact Hd|]. apply H. left; reflexivity.
Qed.

Lemma run_back : forall ops f d', (forall o, In o ops -> forall x, o <> FMkdir x) ->
  In d' (fs_run f ops) -> (forall o, In o ops -> op_sid o <> Some (d_sid d')) -> In d' f.
Proof.
  induction ops as [|o ops IH]; simpl; intros f d' Hm Hd H; [exact Hd|].
  apply IH in Hd; [|intros; apply Hm; right; assumption|intros; apply H; right; assumption].
  destruct (apply_in_inv f o d' (Hm o (or_introl eq_refl)) Hd) as [d [Hin [[E _]|[Hs [Hu E]]]]].
  - subst; exact Hin.
  - exfalso. apply (H o (or_introl eq_refl)). rewrite Hs, E, dstep_sid. reflexivity.
Qed.

Lemma mkdir_dec : forall o, (exists x, o = FMkdir x) \/ (forall x, o <> FMkdir x).
Proof. intros []; try (right; intros; discriminate). left; eauto. Qed.

Lemma run_sids : forall ops f d', In d' (fs_run f ops) ->
  In (d_sid d') (map d_sid f) \/ In (FMkdir (d_sid d')) ops.
Proof.
  induction ops as [|o ops IH]; simpl; intros f d' Hd; [left; apply in_map; exact Hd|].
  destruct (IH _ _ Hd) as [H|H]; [|right; right; exact H].
  apply in_map_iff in H. destruct H as [d1 [E H1]].
  destruct (mkdir_dec o) as [[x Ex]|Hm].
  - subst o. simpl in H1. apply in_app_or in H1. destruct H1 as [H1|[<-|[]]].
    + left. rewrite <- E. apply in_map. exact H1.
    + right. left. simpl in E. rewrite E. reflexivity.
  - destruct (apply_in_inv f o d1 Hm H1) as [d [Hin [[E' _]|[Hs [Hu E']]]]];
      left; rewrite <- E, E'; try rewrite dstep_sid; apply in_map; exact Hin.
Qed.

Lemma run_same : forall ops f d, In d f ->
  (forall o, In o ops -> op_sid o = Some (d_sid d) /\ is_upd o = true) ->
  In (fold_left (fun d o => dstep o d) ops d) (fs_run f ops).
Proof.
  induction ops as [|o ops IH]; simpl; intros f d Hd H; [exact Hd|].
  destruct (H o (or_introl eq_refl)) as [Hs Hu].
  apply IH; [apply apply_in_same; assumption|].
  intros o' Ho'. rewrite dstep_sid. apply H. right; exact Ho'.
Qed.

Lemma rmdir_gone : forall ops f sid, (forall o, In o ops -> forall x, o <> FMkdir x) ->
  In (FRmdir sid) ops -> forall d, In d (fs_run f ops) -> d_sid d <> sid.
Proof.
  induction ops as [|o ops IH]; simpl; intros f sid Hm Hin d Hd; [contradiction|].
  destruct Hin as [E|Hin].
  - subst o. intro Es. 
    destruct (run_sids ops _ d Hd) as [H|H].
    + apply in_map_iff in H. destruct H as [d1 [E1 H1]]. simpl in H1. apply filter_In in H1.
      destruct H1 as [_ H1]. rewrite E1, Es, N.eqb_refl in H1. discriminate.
    + eapply Hm; [right; exact H|reflexivity].
  - eapply IH; eauto.
Qed.

Definition tmp_op (sid : N) (o : fsop) : Prop :=
  op_sid o = Some sid /\ (forall x, o <> FRename x) /\ (forall x, o <> FMkdir x).

Lemma QP_tmp : forall r s sid ops h f, Q r s h f -> ~ In (FRename sid) h ->
  (forall o, In o ops -> tmp_op sid o) ->
  QP r s h f ops /\ ~ In (FRename sid) (h ++ ops).
Proof.
  intros r s sid. apply (QP_steps r s (fun h _ => ~ In (FRename sid) h)).
  intros h f o HQ Hn [Hs [Hr Hm]]. split.
  - apply Q_keep_step; [exact HQ| |exact Hm|intros x E; destruct (Hr x E)].
    intros x E. rewrite Hs in E. inversion E; subst x. exact Hn.
  - intro Hi. apply in_snoc_ne in Hi; [contradiction|]. intro E. eapply Hr. symmetry. exact E.
Qed.

Lemma rm_tmp_op : forall o sid, is_rm o = true -> op_sid o = Some sid -> tmp_op sid o.
Proof. intros o sid H1 H2. split; [exact H2|]. split; intros x E; subst o; discriminate. Qed.

Lemma remove_all_ops : forall b f sid o, In o (remove_all b f sid) -> is_rm o = true /\ op_sid o = Some sid.
Proof.
  intros b f sid o H. unfold remove_all in H. destruct (find_dir f sid) as [d|]; [|contradiction].
  destruct b, (d_meta d), (d_state d); simpl in H;
    repeat (destruct H as [H|H]; [subst o; split; reflexivity|]); contradiction.
Qed.

Lemma remove_all_rmdir : forall b f sid d, find_dir f sid = Some d -> In (FRmdir sid) (remove_all b f sid).
Proof.
  intros b f sid d H. unfold remove_all. rewrite H. apply in_or_app. right. left. reflexivity.
Qed.

Lemma find_dir_some : forall f sid d, find_dir f sid = Some d -> In d f /\ d_sid d = sid.
Proof.
  induction f as [|d0 f IH]; simpl; intros sid d H; [discriminate|].
  destruct (N.eqb_spec (d_sid d0) sid) as [E|E].
  - inversion H; subst. auto.
  - destruct (IH _ _ H). auto.
Qed.

Lemma find_dir_in : forall f d, In d f -> exists d', find_dir f (d_sid d) = Some d'.
Proof.
  induction f as [|d0 f IH]; simpl; intros d H; [contradiction|].
  destruct (N.eqb_spec (d_sid d0) (d_sid d)) as [E|E]; [eauto|].
  destruct H as [H|H]; [subst; contradiction|]. apply IH; exact H.
Qed.

Lemma flush_tmp : forall k o, In o (flush_ops k) -> tmp_op (k_sid k) o /\ is_upd o = true.
Proof.
  intros k o H. unfold flush_ops in H. destruct (k_buf k); simpl in H;
    repeat (destruct H as [H|H]; [subst o; repeat split; intros; discriminate|]); contradiction.
Qed.
