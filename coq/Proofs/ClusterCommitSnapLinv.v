(* ClusterCommitSnapLinv.v — the cluster-level Log Matching invariant of Proofs/ClusterLogInv.v with
   the per-server part replaced by the snapshot-aware one (znlog of Proofs/ClusterCommitSnapLog.v): an instance of
   Proofs/ClusterLogShell.v.  Read off there: a handler ran, a request was sent, and the steps that leave the log and
   snapshot stores of the touched server alone (state changes of a non-leader, the volatile-only steps of a leader). *)
From Coq Require Import List NArith Bool Lia.
From stdpp Require Import gmap.
From RaftModel Require Import Base Config Node Cluster NodeCodec
  ClusterLog.
From RaftProofs Require Import VoteProofs ClusterProofs ClusterLogChain ClusterLogVote ClusterLogInv
  ClusterLogShell ClusterCommitInv ClusterCommitSnapLog.
Open Scope N_scope.

Record zlinv (cfgs : list config) (g : lgstate) (C : chain) : Prop := {
  zl_g : ginv cfgs (lg_g g);
  zl_chain : chain_ok C;
  zl_nodes : forall n, In n (g_nodes (lg_g g)) -> znlog C (gn_run n) /\ lead_ok (lg_g g) C n;
  zl_src : forall e p, In (e, p) C -> term_src (lg_g g) (e_term e);
  zl_leaders : forall T i, In (T, i) (g_leaders (lg_g g)) -> leader_rec_ok (lg_g g) T i;
  zl_msgs : forall m, In m (lg_msgs g) -> msg_ok (lg_g g) C m;
}.

Definition znp (C : chain) (_ : params) (r : nrun) : Prop := znlog C r.

Lemma znp_mono C C' P r : incl C C' -> znp C P r -> znp C' P r.
Proof. apply znlog_mono. Qed.

Lemma zlinv_shell cfgs g C : zlinv cfgs g C <-> shell cfgs chain_ok znp lrq g C.
Proof. split; intros [A B D E F G]; constructor; assumption. Qed.

Section Update.
  Variable cfgs : list config.
  Hypothesis HQ : quorums_intersect cfgs.

  Lemma zhandler_linv g C j nj e cut fs r' ob out g1 :
    zlinv cfgs g C -> find_node (g_nodes (lg_g g)) j = Some nj ->
    step_full (gn_P nj) (gn_run nj) e cut fs = (r', ob, out) ->
    ginv cfgs g1 ->
    g_nodes g1 = upd_node (g_nodes (lg_g g)) j (mkGN (gn_P nj) r' (keep_sess r' (gn_sess nj)) (gn_next nj)) ->
    g_leaders g1 = g_leaders (lg_g g) ->
    znlog C r' -> role_kept (gn_run nj) r' -> zlinv cfgs (mkLG g1 (lg_msgs g)) C.
  Proof.
    intros Hinv Hfind Hstep Hg1 Hn1 Hl1 Hnl Hrole. apply zlinv_shell. apply zlinv_shell in Hinv.
    exact (shell_handler cfgs HQ _ _ _ znp_mono lrq_mono g C j nj e cut fs r' ob out g1 Hinv Hfind Hstep Hg1 Hn1 Hl1 Hnl Hrole).
  Qed.

  Lemma send_zlinv g C i n s m :
    zlinv cfgs g C -> find_node (g_nodes (lg_g g)) i = Some n -> gn_run n = Up s -> v_role s = Leader ->
    am_from m = i -> am_from m <> am_to m -> aq_term (am_req m) = v_term s ->
    mchain C (aq_prevIdx (am_req m), aq_prevTerm (am_req m)) (aq_entries (am_req m)) ->
    (forall e, In e (aq_entries (am_req m)) -> e_term e <= v_term s) ->
    zlinv cfgs (mkLG (lg_g g) (lg_msgs g ++ [m])) C.
  Proof.
    intros Hinv Hfind Hrun Hrole Hfrom Hne Hterm Hmc Hts. apply zlinv_shell. apply zlinv_shell in Hinv.
    apply (shell_send cfgs _ _ _ g C i n s m Hinv Hfind Hrun Hrole Hfrom Hne Hterm). split; [exact Hmc|]. rewrite Hterm. exact Hts.
  Qed.

  Lemma plain_zlinv g C g1 j n s s' sess' next' :
    zlinv cfgs g C -> ginv cfgs g1 ->
    find_node (g_nodes (lg_g g)) j = Some n -> gn_run n = Up s ->
    g_nodes g1 = upd_node (g_nodes (lg_g g)) j (mkGN (gn_P n) (Up s') sess' next') ->
    g_leaders g1 = g_leaders (lg_g g) ->
    lkeep s' s -> v_lastSnapTerm s' = v_lastSnapTerm s -> d_term s <= d_term s' -> v_role s' <> Leader ->
    (forall se, sess' = Some se ->
       (exists se0, gn_sess n = Some se0 /\ vq_term (se_req se) = vq_term (se_req se0)) \/ d_term s < vq_term (se_req se)) ->
    zlinv cfgs (mkLG g1 (lg_msgs g)) C.
  Proof.
    intros Hinv Hg1 Hfind Hrun Hn1 Hl1 Hk Hst Hdt Hrole Hsess. destruct (find_node_in _ _ _ Hfind) as [Hin _].
    apply zlinv_shell. apply zlinv_shell in Hinv.
    destruct (sh_nodes Hinv n Hin) as [Hnl _]. unfold znp in Hnl. rewrite Hrun in Hnl.
    apply (shell_plain cfgs HQ _ _ _ znp_mono lrq_mono g C g1 j n s s' sess' next' Hinv Hg1 Hfind Hrun Hn1 Hl1); try assumption.
    eapply zup_lkeep; eauto.
  Qed.

  Lemma zlinv_volatile g C i n s s' :
    zlinv cfgs g C -> find_node (g_nodes (lg_g g)) i = Some n -> gn_run n = Up s -> v_role s = Leader ->
    dproj s' = dproj s -> v_term s' = v_term s -> lkeep s' s -> v_lastSnapTerm s' = v_lastSnapTerm s ->
    zlinv cfgs (mkLG (set_node_run (lg_g g) i n (Up s')) (lg_msgs g)) C.
  Proof.
    intros Hinv Hfind Hrun Hrole Hd Ht Hk Hst. destruct (find_node_in _ _ _ Hfind) as [Hin _].
    apply zlinv_shell. apply zlinv_shell in Hinv.
    destruct (sh_nodes Hinv n Hin) as [Hnl _]. unfold znp in Hnl. rewrite Hrun in Hnl.
    apply (shell_volatile cfgs HQ _ _ _ znp_mono lrq_mono g C i n s s' Hinv Hfind Hrun Hrole Hd Ht); [apply Hk|].
    eapply zup_lkeep; [exact Hnl|exact Hk|exact Hst|]. unfold dproj in Hd. inversion Hd. lia.
  Qed.
End Update.
