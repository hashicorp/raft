(* ClusterCommitSnapMain.v — STATE MACHINE SAFETY, LEADER COMPLETENESS (up to the leader's snapshot),
   lastApplied <= max(commitIndex, snapshot index), and "snapshots record committed entries", for the
   cluster transition system Model/ClusterCommit.v WITH takeSnapshot and log compaction (crun true).

   Every step keeps zinvg of Proofs/ClusterCommitSnapInv2.v (ClusterCommitSnapStep*.v), with
   takeSnapshot enabled or not (cstep_zinv_ext: its clauses about the FSM index are needed only where
   takeSnapshot can run).  The initial states are shown to satisfy cinv of Proofs/ClusterCommitInv.v
   (Proofs/ClusterCommitInit2.v), which implies zinvg when nobody is leader and no FSM has applied
   anything (cinv_zinv below): cinv is the form of the invariant the initial states are checked
   against, zinvg the form the steps keep.  zinvg implies the statements of
   Proofs/ClusterCommitSnapSpec.v (ClusterCommitSnapInv2.v).  The statements
   without snapshots are derived from the same theorems in Proofs/ClusterCommitMain.v.

   Side conditions: cinit_snap_ok (Proofs/ClusterCommitSnapSpec.v), label_ok (Proofs/ClusterCommitSpec.v:
   no LogConfiguration proposals, no forged RequestVote).  Everything else is free, as in
   Proofs/ClusterCommitMain.v, and in addition: takeSnapshot at any server at any time, with failing
   snapshot stores, failing DeleteRange, any TrailingLogs, and crash cuts inside it. *)
From Coq Require Import List NArith Bool Lia.
From stdpp Require Import gmap.
From RaftModel Require Import Base Config Node NodeCodec Cluster ClusterLog ClusterCommit.
From RaftProofs Require Import ClusterStepInv ClusterLogChain ClusterLogNode ClusterLogInv ClusterCommitSpec
  ClusterCommitLog ClusterCommitChain ClusterCommitNode ClusterCommitGhost ClusterCommitInv ClusterCommitInit2
  ClusterCommitUpd ClusterCommitSnapSpec ClusterCommitSnapLog ClusterCommitSnapInv2 ClusterCommitSnapStepLeader
  ClusterCommitSnapStepVote ClusterCommitSnapStepDeliver ClusterCommitSnapStepSnapshot.
Open Scope N_scope.

Section Convert.
  Variable cfg : config.
  Variable Ps : list params.
  Variable fsm : bool.

  Lemma nlog_znlog C P r : chain_ok C -> pclosed C -> nlog C r -> cnode cfg Ps P r -> znlog C r.
  Proof.
    intros HC Hp Hn (_ & _ & Hcn). destruct r as [s|s]; simpl in *.
    - pose proof Hn as (Hsn & Hin & Hsi & Hlt & Hz & Hbel). destruct Hcn as (Hlc & _ & Htop & _).
      assert (Hrt : rootc C (topk s)) by (apply (topk_created C s HC Hn Htop)).
      unfold zup. rewrite Hsn, (bk_zero s Hsi). constructor; try assumption.
      + left. reflexivity.
      + simpl. lia.
      + intros _. apply (anc_root_all C HC Hp _ Hrt).
      + simpl. lia.
      + simpl. intros i Hi Hi'. apply (lcontig_down _ Hlc i (v_lastLogIdx s)); [apply (proj2 Htop); lia|lia|exact Hi'].
      + intros sn [].
      + left. reflexivity.
    - destruct Hn as (Hsn & Hin & top & Hbel). destruct Hcn as (Hlc & _).
      unfold zimg. rewrite Hsn. constructor.
      + exact Hin.
      + exists top. split; [exact Hbel|intros sn []].
      + intros sn [].
      + intros i Hi _ Hi'. destruct (log_last_in (d_log s)) as [E0|(e & He)]; [lia|].
        apply (lcontig_down _ Hlc i (log_last (d_log s))); [rewrite He; eauto|exact Hi|exact Hi'].
  Qed.

  Lemma cinv_zinv g C LL A V : cinv cfg Ps g C LL A V ->
    (forall n s, In n (cnodes g) -> gn_run n = Up s -> v_role s <> Leader) ->
    (fsm = true -> forall n s, In n (cnodes g) -> gn_run n = Up s -> fst (v_fsmLast s) = 0) ->
    zinvg cfg Ps fsm g C LL A V.
  Proof.
    intros HI Hq Hf0. pose proof (cv_l cfg Ps g C LL A V HI) as Hl. pose proof (cv_ci cfg Ps g C LL A V HI) as Hci.
    pose proof (ci_ok Hci) as HC. assert (Hp : pclosed C) by (exact (ci_pred Hci)).
    assert (Hnz : forall n, In n (cnodes g) -> znlog C (gn_run n)).
    { intros n Hin. destruct (li_nodes [cfg] _ C Hl n Hin) as [Hn _].
      apply (nlog_znlog C (gn_P n) _ HC Hp Hn (cv_node cfg Ps g C LL A V HI n Hin)). }
    assert (Hsnaps : forall n, In n (cnodes g) -> d_snaps (image (gn_run n)) = []).
    { intros n Hin. destruct (li_nodes [cfg] _ C Hl n Hin) as [Hn _]. destruct (gn_run n); apply Hn. }
    constructor.
    - destruct Hl as [L1 L2 L3 L4 L5 L6]. constructor; auto. intros n Hin. split; [apply Hnz, Hin|apply (L3 n Hin)].
    - exact Hci.
    - apply (cv_vi cfg Ps g C LL A V HI).
    - apply (cv_ll cfg Ps g C LL A V HI).
    - intros n Hin. constructor.
      + pose proof (cv_node cfg Ps g C LL A V HI n Hin) as (N1 & N2 & N3). split; [exact N1|]. split; [exact N2|].
        pose proof (Hsnaps n Hin) as Hs0. destruct (li_nodes [cfg] _ C Hl n Hin) as [Hn _].
        destruct (gn_run n) as [s|s] eqn:Hr; simpl in *.
        * destruct N3 as (_ & Hdec & _ & Hlat & Hcm & Hac). destruct Hn as (_ & _ & Hsi & _).
          constructor; rewrite ?Hs0, ?Hsi; try assumption; try lia.
          -- intros sn [].
          -- intros Hg. rewrite (Hf0 Hg n s Hin Hr). lia.
        * destruct N3 as (_ & Hdec). split; [exact Hdec|]. rewrite Hs0. intros sn [].
      + intros s Hr. destruct (cv_kc cfg Ps g C LL A V HI n s Hin Hr) as [K1 K2]. split; [unfold last_index; lia|exact K2].
      + intros sn Hsn. rewrite (Hsnaps n Hin) in Hsn. destruct Hsn.
      + intros s Hr Hg. left. apply (Hf0 Hg n s Hin Hr).
      + intros s Hr Hrole. exfalso. apply (Hq n s Hin Hr), Hrole.
      + intros k k0 H1 H4 H5. destruct (cv_av cfg Ps g C LL A V HI _ k n k0 H1 Hin eq_refl H4 H5) as [H|H]; [left; left; exact H|right; exact H].
      + intros T' c. apply (cv_live cfg Ps g C LL A V HI n T' c Hin).
      + intros se. apply (cv_se cfg Ps g C LL A V HI n se Hin).
    - apply (cv_msg cfg Ps g C LL A V HI).
    - apply (cv_ans cfg Ps g C LL A V HI).
    - apply (cv_a1 cfg Ps g C LL A V HI).
    - apply (cv_v1 cfg Ps g C LL A V HI).
    - apply (cv_v2 cfg Ps g C LL A V HI).
    - apply (cv_gv cfg Ps g C LL A V HI).
    - apply (cv_se1 cfg Ps g C LL A V HI).
  Qed.
End Convert.

Section Main.
  Variable cfg : config.
  Variable Ps : list params.
  Variable fsm : bool.
  Hypothesis HVn : NoDup (voters cfg).

  (* one step: the invariant is kept, the ghost state only grows (the votes may also be re-chosen);
     the FSM clauses are needed where takeSnapshot can run *)
  Theorem cstep_zinv_ext sn g l g' C LL A V : (sn = true -> fsm = true) ->
    zinvg cfg Ps fsm g C LL A V -> label_ok l -> cstep sn [cfg] g l = Some g' ->
    exists Cn LLn An V', zinvg cfg Ps fsm g' (Cn ++ C) (LLn ++ LL) (An ++ A) V'.
  Proof.
    intros Hsf HI [Hnc Hnv] Hstep.
    assert (Hsame : forall V', zinvg cfg Ps fsm g' C LL A V' -> exists Cn LLn An V'', zinvg cfg Ps fsm g' (Cn ++ C) (LLn ++ LL) (An ++ A) V'').
    { intros V' H. exists [], [], [], V'. exact H. }
    assert (Hh : handler_label l -> exists Cn LLn An V'', zinvg cfg Ps fsm g' (Cn ++ C) (LLn ++ LL) (An ++ A) V'').
    { intros Hl. destruct (zinv_handler_step cfg Ps fsm HVn sn g l g' C LL A V Hsf HI Hnv Hstep Hl) as (An & V' & H). exists [], [], An, V'. exact H. }
    destruct l as [bl|k|i j|i].
    - destruct bl as [gl|i ty data fs|i j next last|i j|k cut fs].
      + destruct gl as [i|i j cut fs|i j|j e cut fs].
        * destruct (zinv_timeout cfg Ps fsm HVn sn g C LL A V i g' HI Hstep) as (C' & LL' & A' & V' & H). exists C', LL', A', (V' ++ V). exact H.
        * apply Hh. exact I.
        * destruct (zinv_voteresp cfg Ps fsm HVn sn g C LL A V i j g' HI Hstep) as (C' & LL' & A' & H). exists C', LL', A', V. exact H.
        * apply Hh. exact I.
      + destruct (zinv_propose cfg Ps fsm HVn sn g C LL A V i ty data fs g' HI Hnc Hstep) as (C' & A' & H). exists C', [], A', V. exact H.
      + apply (Hsame V). apply (zinv_lsend cfg Ps fsm sn g C LL A V i j next last g' HI Hstep).
      + apply (Hsame V). apply (zinv_lheartbeat cfg Ps fsm sn g C LL A V i j g' HI Hstep).
      + apply Hh. exact I.
    - apply (Hsame V). apply (zinv_ack cfg Ps fsm HVn sn g C LL A V k g' HI Hstep).
    - apply (Hsame V). apply (zinv_giveup cfg Ps fsm sn g C LL A V i j g' HI Hstep).
    - apply (Hsame V). apply (zinv_commit cfg Ps fsm HVn sn g C LL A V i g' HI Hstep).
  Qed.

  Definition Zinvg (g : cgstate) : Prop := exists C LL A V, zinvg cfg Ps fsm g C LL A V.

  Theorem cstep_zinvg sn g l g' : (sn = true -> fsm = true) -> Zinvg g -> label_ok l -> cstep sn [cfg] g l = Some g' -> Zinvg g'.
  Proof.
    intros Hsf (C & LL & A & V & HI) Hl Hstep. destruct (cstep_zinv_ext sn g l g' C LL A V Hsf HI Hl Hstep) as (Cn & LLn & An & V' & H).
    exists (Cn ++ C), (LLn ++ LL), (An ++ A), V'. exact H.
  Qed.

  (* a property kept by every step from a state satisfying the invariant holds along every run *)
  Lemma crun_along sn (J : cgstate -> Prop) ls : (sn = true -> fsm = true) ->
    (forall g l g', Zinvg g -> J g -> cstep sn [cfg] g l = Some g' -> J g') ->
    forall g g', Zinvg g -> J g -> Forall label_ok ls -> crun sn [cfg] g ls = Some g' -> Zinvg g' /\ J g'.
  Proof.
    intros Hsf HJ. induction ls as [|l r IH]; intros g g' HZ Hg Hls H; simpl in H.
    - inversion H; subst. auto.
    - destruct (cstep sn [cfg] g l) as [g1|] eqn:E; [|discriminate]. inversion Hls as [|? ? Hl Hr]; subst.
      apply (IH g1 g'); [apply (cstep_zinvg sn g l g1 Hsf HZ Hl E)|apply (HJ g l g1 HZ Hg E)|exact Hr|exact H].
  Qed.

  Corollary crun_zinvg sn ls : (sn = true -> fsm = true) -> forall g g', Zinvg g -> Forall label_ok ls -> crun sn [cfg] g ls = Some g' -> Zinvg g'.
  Proof. intros Hsf g g' HZ Hls H. apply (crun_along sn (fun _ => True) ls Hsf (fun _ _ _ _ _ _ => I) g g' HZ I Hls H). Qed.
End Main.

Lemma cinit_zinvg cfg g0 fsm : cinit_ok cfg g0 ->
  (fsm = true -> forall n s, In n (cnodes g0) -> gn_run n = Up s -> fst (v_fsmLast s) = 0) ->
  Zinvg cfg (map gn_P (cnodes g0)) fsm g0.
Proof.
  intros H0 Hf. destruct (cinit_cinv cfg g0 H0) as [C0 HI0]. exists C0, [], [], [].
  apply (cinv_zinv cfg _ fsm g0 C0 [] [] [] HI0); [|exact Hf]. intros n s Hin Hr.
  destruct H0 as ((_ & _ & base & _ & Hni) & _). destruct (Hni n Hin) as (_ & _ & k & _ & Hrun). rewrite Hr in Hrun. apply Hrun.
Qed.

(* the states a run reaches: sn says whether takeSnapshot may run, fsm whether the FSM clauses are kept *)
Lemma reach_zinvg fsm sn cfg g0 ls g : cinit_ok cfg g0 ->
  (fsm = true -> forall n s, In n (cnodes g0) -> gn_run n = Up s -> fst (v_fsmLast s) = 0) -> (sn = true -> fsm = true) ->
  Forall label_ok ls -> crun sn [cfg] g0 ls = Some g ->
  NoDup (voters cfg) /\ Zinvg cfg (map gn_P (cnodes g0)) fsm g.
Proof.
  intros H0 Hf Hsf Hls Hrun. pose proof H0 as (_ & _ & _ & _ & HVn & _). split; [exact HVn|].
  apply (crun_zinvg cfg _ fsm HVn sn ls Hsf g0 g (cinit_zinvg cfg g0 fsm H0 Hf) Hls Hrun).
Qed.

Lemma reach_zinv_snap sn cfg g0 ls g : cinit_snap_ok cfg g0 -> Forall label_ok ls -> crun sn [cfg] g0 ls = Some g ->
  NoDup (voters cfg) /\ Zinvg cfg (map gn_P (cnodes g0)) true g.
Proof.
  intros [H0 Hf]. apply (reach_zinvg true sn cfg g0 ls g H0); [intros _; exact Hf|reflexivity].
Qed.

(* ... and a property J with them, with or without takeSnapshot *)
Lemma reach_along (J : cgstate -> Prop) sn cfg g0 ls g : cinit_snap_ok cfg g0 -> J g0 ->
  (NoDup (voters cfg) -> forall g l g', Zinvg cfg (map gn_P (cnodes g0)) true g -> J g -> cstep sn [cfg] g l = Some g' -> J g') ->
  Forall label_ok ls -> crun sn [cfg] g0 ls = Some g ->
  NoDup (voters cfg) /\ Zinvg cfg (map gn_P (cnodes g0)) true g /\ J g.
Proof.
  intros H0 HJ0 Hstep Hls Hrun. pose proof H0 as ((_ & _ & _ & _ & HVn & _) & _). split; [exact HVn|].
  apply (crun_along cfg _ true HVn sn J ls (fun _ => eq_refl) (Hstep HVn) g0 g); [|exact HJ0|exact Hls|exact Hrun].
  apply (cinit_zinvg cfg g0 true (proj1 H0)). intros _. exact (proj2 H0).
Qed.

(* without takeSnapshot no server ever holds a snapshot *)
Lemma reach_zinv_plain cfg g0 ls g : cinit_ok cfg g0 -> Forall label_ok ls -> crun false [cfg] g0 ls = Some g ->
  NoDup (voters cfg) /\ Zinvg cfg (map gn_P (cnodes g0)) false g /\ no_snaps g.
Proof.
  intros H0 Hls Hrun. destruct (reach_zinvg false false cfg g0 ls g H0) as [HVn HZ]; try discriminate; try assumption.
  split; [exact HVn|]. split; [exact HZ|]. apply (crun_no_snaps [cfg] g0 ls g (ClusterProofs.quorums_intersect_one cfg HVn) (proj1 H0) Hrun).
Qed.

(* STATE MACHINE SAFETY, LEADER COMPLETENESS up to the leader's snapshot, lastApplied <= max(commitIndex,
   snapshot index) and commitIndex <= last index, snapshots record committed entries — in every state
   reachable with takeSnapshot and log compaction *)
Theorem state_machine_safety_snapshots : forall cfg g0 ls g,
  cinit_snap_ok cfg g0 -> Forall label_ok ls -> crun true [cfg] g0 ls = Some g ->
  committed_agree g /\ leader_complete_snap g /\ applied_within_snap g /\ snapshots_committed g.
Proof.
  intros cfg g0 ls g H0 Hls Hrun. destruct (reach_zinv_snap true cfg g0 ls g H0 Hls Hrun) as [HVn (C & LL & A & V & HI)].
  split; [|split; [|split]].
  - apply (zinv_committed_agree cfg _ true HVn g C LL A V HI).
  - apply (zinv_leader_complete_snap cfg _ true HVn g C LL A V HI).
  - apply (zinv_applied_within_snap cfg _ true g C LL A V HI).
  - apply (zinv_snapshots_committed cfg _ true HVn g C LL A V HI).
Qed.

Print Assumptions state_machine_safety_snapshots.
