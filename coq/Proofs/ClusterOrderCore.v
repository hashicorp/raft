(* ClusterOrderCore.v — the argument behind Proofs/ClusterOrderSpec.v (acks_ordered), from the invariant of
   Proofs/ClusterCommitSnapInv2.v.  What it uses of it: every step keeps it while the ghost history only grows
   (cstep_zinv_ext, carried along runs by run_ext / acks_ext of Proofs/ClusterCommitSnapAcks.v); it carries chain_inv /
   vote_inv (Leader Completeness: lc_core); an acknowledged (T, e) is a created entry whose key is known committed
   (zinv_step_ack); at a Leader the entries created in its term lie at or below its last index (li_bound,
   Proofs/ClusterCommitUpd.v).
   Argument.  Let e be acknowledged before the cut, e' after it, key e' = (last index + 1, term) of the
   proposing leader at the cut.  Both keys are "known committed" in the ghost state at the end, so they
   lie on one branch (CK_linear_g).  Were e_idx e' <= e_idx e, key e' would be an ancestor of key e.
   But e was created BEFORE the cut, the history of created entries is closed under predecessors and
   only grows by fresh keys (anc_stable), so key e' would have been created before the cut (later_known_above:
   this half speaks of the ghost chains before and after only) — in the leader's own term, above its last
   index: li_bound says no. *)
From Coq Require Import List NArith Bool Lia.
From stdpp Require Import gmap.
From RaftModel Require Import Base Config Node NodeCodec Leader Cluster ClusterLog ClusterCommit.
From RaftProofs Require Import ClusterProofs ClusterCommitSnapLog ClusterStepInv ClusterLogSpec ClusterLogChain ClusterCommitSpec ClusterCommitLog ClusterCommitChain
  ClusterCommitGhost ClusterCommitInv ClusterCommitUpd ClusterCommitSnapInv2 ClusterCommitSnapStepA ClusterCommitSnapMain
  ClusterCommitSnapAcks ClusterOrderSpec.
Open Scope N_scope.

(* C1 the chain at some moment, C3 a later one: a committed key created in between lies above every committed
   key created before *)
Lemma later_known_above cfg C1 LL1 C3 LL3 A3 V3 T e T' e' : NoDup (voters cfg) ->
  chain_inv C1 LL1 -> chain_inv C3 LL3 -> vote_inv cfg C3 LL3 A3 V3 -> incl C1 C3 ->
  (exists p, In (e, p) C1) -> CK cfg C3 LL3 A3 T (key e) -> CK cfg C3 LL3 A3 T' (key e') ->
  1 <= e_idx e' -> ~ created C1 (key e') -> e_idx e < e_idx e'.
Proof.
  intros HVn Hci1 Hci3 Hvi3 Hinc (p & Pe) Hck Hck' Hpos Hnew.
  destruct (N.lt_ge_cases (e_idx e) (e_idx e')) as [Hlt|Hge]; [exact Hlt|exfalso].
  assert (Ha3 : anc C3 (key e') (key e)) by (apply (CK_linear_g cfg C3 LL3 A3 V3 T' T _ _ HVn Hci3 Hvi3 Hck' Hck); exact Hge).
  assert (Hcre : created C1 (key e)) by (exists e, p; auto).
  pose proof (anc_stable C1 C3 (key e') (key e) (ci_ok Hci3) Hinc (or_introl Hcre) (ci_pred Hci1) Ha3) as Ha1.
  destruct (anc_rootc C1 (key e) (key e') (ci_pred Hci1) (or_intror Hcre) Ha1) as [E0|Hc]; [|exact (Hnew Hc)].
  unfold key in E0. inversion E0. lia.
Qed.

Lemma propose_leader sn cfgs g i ty data fs g' n s : cstep sn cfgs g (CBase (LPropose i ty data fs)) = Some g' ->
  NoDup (map gn_id (cnodes g)) -> In n (cnodes g) -> gn_id n = i -> gn_run n = Up s -> v_role s = Leader.
Proof.
  intros Hstep Hnd Hin Hid Hr. apply cstep_base_inv in Hstep. destruct Hstep as (_ & l' & Hl & _).
  destruct (lstep_propose_inv _ _ _ _ _ _ _ _ Hl) as (n0 & s0 & _ & _ & _ & _ & Hf & Hr0 & Hrole & _).
  fold (cnodes g) in Hf. rewrite <- Hid, (find_node_self _ n Hnd Hin) in Hf. inversion Hf; subst n0. rewrite Hr in Hr0. inversion Hr0; subst s0. exact Hrole.
Qed.

Section Order.
  Variable cfg : config.
  Variable Ps : list params.
  Variable fsm : bool.
  Hypothesis HVn : NoDup (voters cfg).

  Theorem zinv_acks_ordered sn g0 C0 LL0 A0 V0 : (sn = true -> fsm = true) -> zinvg cfg Ps fsm g0 C0 LL0 A0 V0 -> acks_ordered sn cfg g0.
  Proof.
    intros Hsf HI0 ls1 g1 i ty data fs g2 ls2 n s T e T' e' Hl1 Hl Hl2 Hrun1 Hstep Hn Hid Hr HinT HinT' Hidx Hterm.
    (* the cut *)
    destruct (run_ext cfg Ps fsm HVn sn Hsf ls1 g0 g1 C0 LL0 A0 V0 [] HI0 (Forall_nil _) Hl1 Hrun1) as (Cn1 & LLn1 & An1 & V1 & HI1 & Hacks1).
    simpl in Hacks1. rewrite Forall_forall in Hacks1. pose proof (Hacks1 _ HinT) as Hok1.
    set (C1 := Cn1 ++ C0) in *. set (LL1 := LLn1 ++ LL0) in *. set (A1 := An1 ++ A0) in *.
    pose proof (zg_ci HI1) as Hci1.
    assert (Hrole : v_role s = Leader).
    { apply (propose_leader sn [cfg] g1 i ty data fs g2 n s Hstep (zinvg_nodup HI1) Hn Hid Hr). }
    (* the proposal, and the rest of the run up to the acknowledgement of e' *)
    destruct (cstep_zinv_ext cfg Ps fsm HVn sn g1 _ g2 C1 LL1 A1 V1 Hsf HI1 Hl Hstep) as (Cn2 & LLn2 & An2 & V2 & HI2).
    destruct (acks_ext cfg Ps fsm HVn sn Hsf ls2 g2 _ _ _ V2 HI2 Hl2 (T', e') HinT') as (g3 & Cn3 & LLn3 & An3 & V3 & HI3 & Hok3).
    pose proof (known_committed_mono cfg _ _ _ Cn3 LLn3 An3 _ (known_committed_mono cfg _ _ _ Cn2 LLn2 An2 _ Hok1)) as Hok13.
    set (C3 := Cn3 ++ Cn2 ++ C1) in *. set (LL3 := LLn3 ++ LLn2 ++ LL1) in *. set (A3 := An3 ++ An2 ++ A1) in *.
    pose proof (zg_ci HI3) as Hci3. pose proof (zg_vi HI3) as Hvi3.
    destruct Hok1 as [Hcr1 _]. destruct Hok13 as [_ Hck]. destruct Hok3 as [_ Hck']. cbn [fst snd] in *.
    apply (later_known_above cfg C1 LL1 C3 LL3 A3 V3 T e T' e' HVn Hci1 Hci3 Hvi3); try assumption; [|lia|].
    - unfold C3. apply incl_appr, incl_appr, incl_refl.
    - (* the leader's term holds no entry above its last index at the cut *)
      intros (x & px & Px & Ex). unfold key in Ex. inversion Ex as [[Ei Et]].
      destruct (zg_lead_view HI1 n s Hn Hr Hrole) as (tl & ld & _ & L & _). pose proof (li_bound L (ci_ok Hci1) x px Px) as Hb.
      rewrite Et, Hterm in Hb. specialize (Hb eq_refl). unfold last_index in *. lia.
  Qed.
End Order.
