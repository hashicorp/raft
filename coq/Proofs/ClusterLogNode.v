(* ClusterLogNode.v — what the Log Matching invariant says about one server's log store and cached
   last-log; LastIndex of a log store; and the common history of the initial states of
   Proofs/ClusterLogSpec.v read as a ghost history, with what a prefix of it in a log store
   satisfies. *)
From Coq Require Import List NArith Bool Lia.
From stdpp Require Import gmap.
From RaftModel Require Import Base Node NodeCodec.
From RaftProofs Require Import RecoverProofs ClusterLogSpec ClusterLogChain.
Open Scope N_scope.

(* every stored entry sits under its own index, was created (is in the ghost history), and is of a
   term the holder has seen *)
Definition log_in (C : chain) (m : gmap N entry) (dt : N) : Prop :=
  forall i e, m !! i = Some e -> e_idx e = i /\ (exists p, In (e, p) C) /\ e_term e <= dt.

Definition log_below (C : chain) (m : gmap N entry) (top : N * N) : Prop :=
  forall i e, m !! i = Some e -> anc C (key e) top.

Definition nlog_img (C : chain) (s : nstate) : Prop :=
  d_snaps s = [] /\ log_in C (d_log s) (d_term s) /\ exists top, log_below C (d_log s) top.

(* a running server: the cached last-log dominates the store.  The invariant does not ask it to be
   the last stored entry (that is all the proof needs).  After DeleteRange succeeded inside
   appendEntries the cache moves at once to the entry before the truncation point
   (Node.conflict_pred; ClusterCommitSnapAE3.qk_onb shows that key is one of the server's branch, and
   ClusterCommitSnapAE2.zshape_delete that it dominates what survives), so
   a failed StoreLogs on that path does not leave a stale cache. *)
Definition nlog_up (C : chain) (s : nstate) : Prop :=
  d_snaps s = [] /\ log_in C (d_log s) (d_term s) /\ v_lastSnapIdx s = 0 /\
  v_lastLogTerm s <= d_term s /\ (v_lastLogIdx s = 0 -> v_lastLogTerm s = 0) /\
  log_below C (d_log s) (v_lastLogIdx s, v_lastLogTerm s).

Definition nlog (C : chain) (r : nrun) : Prop :=
  match r with Up s => nlog_up C s | Down s => nlog_img C s end.

Definition log_sub (m' m : gmap N entry) : Prop := forall i e, m' !! i = Some e -> m !! i = Some e.

Lemma log_sub_refl m : log_sub m m.
Proof. intros i e H. exact H. Qed.

Lemma log_in_sub C m m' dt dt' : log_sub m' m -> dt <= dt' -> log_in C m dt -> log_in C m' dt'.
Proof. intros Hs Hd H i e Hl. destruct (H i e (Hs i e Hl)) as (A & B & D). repeat split; auto. lia. Qed.

Lemma log_below_sub C m m' top : log_sub m' m -> log_below C m top -> log_below C m' top.
Proof. intros Hs H i e Hl. apply (H i e (Hs i e Hl)). Qed.

Lemma log_in_mono C C' m dt : incl C C' -> log_in C m dt -> log_in C' m dt.
Proof.
  intros Hi H i e Hl. destruct (H i e Hl) as (A & (p & B) & D). repeat split; auto. exists p. apply Hi, B.
Qed.

Lemma log_below_mono C C' m top : incl C C' -> log_below C m top -> log_below C' m top.
Proof. intros Hi H i e Hl. eapply anc_mono; [exact Hi|apply (H i e Hl)]. Qed.

Lemma nlog_up_img C s : nlog_up C s -> nlog_img C s.
Proof. intros (A & B & _ & _ & _ & D). split; [exact A|]. split; [exact B|]. eexists. exact D. Qed.

Lemma nlog_image C r : nlog C r -> nlog_img C (image r).
Proof. destruct r as [s|s]; simpl; [apply nlog_up_img|auto]. Qed.

Lemma nlog_img_sub C s s' : nlog_img C s -> log_sub (d_log s') (d_log s) -> d_snaps s' = d_snaps s ->
  d_term s <= d_term s' -> nlog_img C s'.
Proof.
  intros (A & B & top & D) Hs Hn Ht. split; [congruence|]. split; [eapply log_in_sub; eauto|].
  exists top. eapply log_below_sub; eauto.
Qed.

Lemma log_in_pos C m dt i e : chain_ok C -> log_in C m dt -> m !! i = Some e -> 1 <= i.
Proof.
  intros HC H Hl. destruct (H i e Hl) as (A & (p & B) & _). destruct (co_idx C HC e p B) as [E _]. lia.
Qed.

Lemma fold_max_ge l : forall a, a <= fold_left N.max l a /\ forall x, In x l -> x <= fold_left N.max l a.
Proof.
  induction l as [|y r IH]; intros a; simpl; [split; [lia|intros x []]|].
  destruct (IH (N.max a y)) as [A B]. split; [lia|]. intros x [<-|Hx]; [lia|apply B, Hx].
Qed.

Lemma fold_max_in l : forall a, fold_left N.max l a = a \/ In (fold_left N.max l a) l.
Proof.
  induction l as [|y r IH]; intros a; simpl; [left; reflexivity|].
  destruct (IH (N.max a y)) as [E|Hin]; [|right; right; exact Hin].
  rewrite E. destruct (N.max_spec a y) as [[_ ->]|[_ ->]]; [right; left; reflexivity|left; reflexivity].
Qed.

Lemma keys_of_in (m : gmap N entry) k : In k (keys_of m) <-> exists e, m !! k = Some e.
Proof.
  unfold keys_of. rewrite in_map_iff. split.
  - intros ([k' e] & E & Hin). simpl in E. subst k'. exists e.
    apply elem_of_map_to_list. apply elem_of_list_In. exact Hin.
  - intros (e & He). exists (k, e). split; [reflexivity|].
    apply elem_of_list_In. apply elem_of_map_to_list. exact He.
Qed.

Lemma log_last_ge (m : gmap N entry) i e : m !! i = Some e -> i <= log_last m.
Proof.
  intros H. unfold log_last. apply (fold_max_ge (keys_of m) 0). apply keys_of_in. eauto.
Qed.

Lemma log_last_in (m : gmap N entry) : log_last m = 0 \/ exists e, m !! log_last m = Some e.
Proof.
  unfold log_last. destruct (fold_max_in (keys_of m) 0) as [E|Hin]; [left; exact E|right].
  apply keys_of_in. exact Hin.
Qed.

Lemma fold_min_le l : forall a, fold_left N.min l a <= a /\ forall x, In x l -> fold_left N.min l a <= x.
Proof.
  induction l as [|y r IH]; intros a; simpl; [split; [lia|intros x []]|].
  destruct (IH (N.min a y)) as [A B]. split; [lia|]. intros x [<-|Hx]; [lia|apply B, Hx].
Qed.

Lemma log_first_le (m : gmap N entry) i e : m !! i = Some e -> log_first m <= i.
Proof.
  intros H. assert (Hin : In i (keys_of m)) by (apply keys_of_in; eauto).
  unfold log_first. destruct (keys_of m) as [|k ks]; [contradiction|].
  destruct (fold_min_le ks k) as [A B]. destruct Hin as [<-|Hin]; [exact A|apply B, Hin].
Qed.

Lemma log_in_keys C m dt : log_in C m dt -> keys_ok m.
Proof. intros H i e Hl. apply (H i e Hl). Qed.

(* each entry appended after the one before it *)
Fixpoint base_chain (prev : N * N) (es : list entry) : chain :=
  match es with
  | [] => []
  | e :: r => (e, prev) :: base_chain (key e) r
  end.

Lemma base_chain_in prev es : hist_ok prev es -> forall e p, In (e, p) (base_chain prev es) ->
  In e es /\ e_idx e = fst p + 1 /\ snd p <= e_term e /\ fst prev < e_idx e /\ (p = prev \/ fst prev < fst p).
Proof.
  revert prev. induction es as [|e0 r IH]; intros prev H e p Hin; simpl in *; [contradiction|].
  destruct H as (H1 & H2 & H3). destruct Hin as [E|Hin].
  - inversion E; subst. repeat split; auto; lia.
  - destruct (IH _ H3 e p Hin) as (A & B & D & E & F). unfold key in E, F. simpl in E, F.
    split; [right; exact A|]. split; [exact B|]. split; [exact D|]. split; [lia|].
    right. destruct F as [->|F]; simpl; lia.
Qed.

Lemma base_chain_fun prev es : hist_ok prev es -> forall e p e' p',
  In (e, p) (base_chain prev es) -> In (e', p') (base_chain prev es) -> e_idx e = e_idx e' -> e = e' /\ p = p'.
Proof.
  revert prev. induction es as [|e0 r IH]; intros prev H e p e' p' Hin Hin' Hi; simpl in *; [contradiction|].
  destruct H as (H1 & H2 & H3). destruct Hin as [E|Hin], Hin' as [E'|Hin'].
  - inversion E; inversion E'; subst. auto.
  - inversion E; subst. destruct (base_chain_in _ _ H3 e' p' Hin') as (_ & _ & _ & F & _).
    unfold key in F. simpl in F. lia.
  - inversion E'; subst. destruct (base_chain_in _ _ H3 e p Hin) as (_ & _ & _ & F & _).
    unfold key in F. simpl in F. lia.
  - apply (IH _ H3 e p e' p' Hin Hin' Hi).
Qed.

Lemma base_chain_ok es : hist_ok (0, 0) es -> chain_ok (base_chain (0, 0) es).
Proof.
  intros H. constructor.
  - intros e p e' p' H1 H2 Hk. apply (base_chain_fun _ _ H e p e' p' H1 H2). unfold key in Hk. congruence.
  - intros e p Hin. destruct (base_chain_in _ _ H e p Hin) as (_ & A & B & _). auto.
  - intros e p Hin Hz. destruct (base_chain_in _ _ H e p Hin) as (_ & _ & _ & _ & [E|F]); [exact E|simpl in F; lia].
Qed.

Lemma hist_idx prev es : hist_ok prev es -> forall k e, nth_error es k = Some e -> e_idx e = fst prev + 1 + N.of_nat k.
Proof.
  revert prev. induction es as [|e0 r IH]; intros prev H k e Hn; destruct k as [|k]; simpl in *; try discriminate.
  - inversion Hn; subst. destruct H as (H1 & _). lia.
  - destruct H as (H1 & _ & H3). rewrite (IH _ H3 k e Hn). unfold key. simpl. lia.
Qed.

Lemma base_chain_anc C prev es : incl (base_chain prev es) C -> forall k e, nth_error es k = Some e ->
  anc C prev (key e) /\ (exists p, In (e, p) C) /\
  forall k' e', (k' <= k)%nat -> nth_error es k' = Some e' -> anc C (key e') (key e).
Proof.
  revert prev. induction es as [|e0 r IH]; intros prev Hi k e Hn; destruct k as [|k]; simpl in *; try discriminate.
  - inversion Hn; subst e0. assert (H0 : In (e, prev) C) by (apply Hi; left; reflexivity).
    split; [eapply anc_up; [exact H0|reflexivity|apply anc_refl]|]. split; [eauto|].
    intros k' e' Hk Hn'. destruct k'; [|lia]. simpl in Hn'. inversion Hn'; subst. apply anc_refl.
  - assert (H0 : In (e0, prev) C) by (apply Hi; left; reflexivity).
    destruct (IH (key e0) (fun x Hx => Hi x (or_intror Hx)) k e Hn) as (A & B & D).
    split; [eapply anc_trans; [|exact A]; eapply anc_up; [exact H0|reflexivity|apply anc_refl]|].
    split; [exact B|]. intros k' e' Hk Hn'. destruct k' as [|k'].
    + simpl in Hn'. inversion Hn'; subst. exact A.
    + simpl in Hn'. apply (D k' e'); [lia|exact Hn'].
Qed.

Lemma base_chain_nth prev es : forall x p, In (x, p) (base_chain prev es) -> exists k, nth_error es k = Some x.
Proof.
  revert prev. induction es as [|e0 r IH]; intros prev x p H; simpl in H; [contradiction|].
  destruct H as [E|H]; [inversion E; subst; exists 0%nat; reflexivity|].
  destruct (IH _ x p H) as [k Hk]. exists (S k). exact Hk.
Qed.

Lemma base_chain_pred prev es : forall x p, In (x, p) (base_chain prev es) ->
  p = prev \/ exists e' p', In (e', p') (base_chain prev es) /\ key e' = p.
Proof.
  revert prev. induction es as [|e0 r IH]; intros prev x p H; simpl in H; [contradiction|].
  destruct H as [E|H]; [inversion E; subst; left; reflexivity|]. right.
  destruct (IH _ x p H) as [->|(e' & p' & H' & E')].
  - exists e0, prev. split; [left; reflexivity|reflexivity].
  - exists e', p'. split; [right; exact H'|exact E'].
Qed.

Lemma prefix_lookup base k m i e : log_prefix base k m -> m !! i = Some e ->
  1 <= i <= N.of_nat k /\ nth_error base (N.to_nat (i - 1)) = Some e.
Proof.
  intros [_ H] Hl. rewrite H in Hl.
  destruct (N.leb_spec 1 i); [|discriminate]. destruct (N.leb_spec i (N.of_nat k)); [|discriminate].
  simpl in Hl. split; [lia|exact Hl].
Qed.

Lemma prefix_some base k m i : log_prefix base k m -> 1 <= i <= N.of_nat k -> is_Some (m !! i).
Proof.
  intros [Hk H] Hi. rewrite H. destruct (N.leb_spec 1 i); [|lia]. destruct (N.leb_spec i (N.of_nat k)); [|lia]. simpl.
  destruct (nth_error base (N.to_nat (i - 1))) as [e|] eqn:E; [eauto|]. apply nth_error_None in E. lia.
Qed.

Lemma prefix_log_in base k m tb : hist_ok (0, 0) base -> log_prefix base k m ->
  (forall e, In e base -> e_term e <= tb) -> log_in (base_chain (0, 0) base) m tb.
Proof.
  intros Hh Hp Ht i e Hl. destruct (prefix_lookup base k m i e Hp Hl) as [Hi Hn].
  split; [rewrite (hist_idx _ _ Hh _ e Hn); simpl; lia|].
  split; [apply (base_chain_anc _ (0, 0) base (incl_refl _) _ e Hn)|].
  apply Ht. eapply nth_error_In; eauto.
Qed.

Lemma prefix_below base k m : log_prefix base k m ->
  log_below (base_chain (0, 0) base) m (last_key base k).
Proof.
  intros Hp i e Hl. destruct (prefix_lookup base k m i e Hp Hl) as [Hi Hn].
  destruct k as [|k']; [lia|]. unfold last_key.
  destruct (nth_error base k') as [eL|] eqn:EL.
  - apply (base_chain_anc _ (0, 0) base (incl_refl _) k' eL EL) with (k' := N.to_nat (i - 1)); [lia|exact Hn].
  - exfalso. destruct Hp as [Hk _]. apply nth_error_None in EL. lia.
Qed.

Lemma last_key_idx base k : hist_ok (0, 0) base -> (k <= length base)%nat -> fst (last_key base k) = N.of_nat k.
Proof.
  intros Hh Hk. destruct k as [|k']; [reflexivity|]. unfold last_key.
  destruct (nth_error base k') as [eL|] eqn:EL; [|apply nth_error_None in EL; lia].
  simpl. rewrite (hist_idx _ _ Hh _ eL EL). simpl. lia.
Qed.

Lemma last_key_facts base k tb : hist_ok (0, 0) base -> (k <= length base)%nat ->
  (forall e, In e base -> e_term e <= tb) ->
  snd (last_key base k) <= tb /\ (fst (last_key base k) = 0 -> snd (last_key base k) = 0).
Proof.
  intros Hh Hk Ht. destruct k as [|k']; [simpl; split; [lia|auto]|]. unfold last_key.
  destruct (nth_error base k') as [eL|] eqn:EL.
  - split; [apply Ht; eapply nth_error_In; eauto|]. simpl. rewrite (hist_idx _ _ Hh _ eL EL). simpl. lia.
  - simpl. split; [lia|auto].
Qed.
