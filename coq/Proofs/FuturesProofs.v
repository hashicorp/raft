(* C17: no future is ever stranded, for every table satisfying table_ok. *)
From Coq Require Import List NArith String Bool Lia.
From RaftModel Require Import Futures.
Import ListNotations.
Open Scope N_scope.

Lemma api_ok_queue T a : api_ok T a = true -> a_queue a <> ""%string ->
  a_selShutdown a = true /\ served_everywhere T (a_queue a) = true /\ flushed T (a_queue a) = true /\
  (buffered T (a_queue a) || goes_to_fsm (a_queue a) = true -> 1 <= escape_kind T a <= 2).
Proof.
  unfold api_ok. intros H Hq. destruct (String.eqb_spec (a_queue a) ""); [contradiction|].
  apply andb_prop in H. destruct H as [H _].
  apply andb_prop in H. destruct H as [H H4]. apply andb_prop in H. destruct H as [H H3].
  apply andb_prop in H. destruct H as [H1 H2]. repeat split; try assumption.
  - rewrite H in H4. simpl in H4. apply N.leb_le in H4. exact H4.
  - unfold escape_kind. destruct (negb (t_errsel T)); [lia|].
    destruct (String.eqb (a_escape a) "shutdownCh"); [lia|].
    destruct (String.eqb (a_escape a) "stoppedCh" && t_stopped_after_wait T); lia.
Qed.

Lemma api_ok_inline T a : api_ok T a = true -> a_queue a = ""%string -> a_inline a = true.
Proof. unfold api_ok. intros H Hq. rewrite Hq in H. exact H. Qed.

Definition finv (T : table) (a : api) (s : fstate) : Prop :=
  (f_loop s = false -> f_shut s = true) /\ (f_fsm s = false -> f_shut s = true) /\
  match f_ph s with
  | PCreated | PResponded => True
  | PReturned => a_queue a <> ""%string
  | PQueued => a_queue a <> ""%string /\ buffered T (a_queue a) = true
  | PTaken => a_queue a <> ""%string /\ f_loop s = true
  | PTracked => a_queue a <> ""%string /\ tracked_set (a_queue a) <> None /\
                (flushed T (a_queue a) = true -> f_loop s = true)
  | PFsm => a_queue a <> ""%string /\ goes_to_fsm (a_queue a) = true
  end.

Lemma finv_init T a : finv T a init_state.
Proof. unfold finv, init_state; simpl. repeat split; intros; discriminate. Qed.

Ltac brk H :=
  repeat match type of H with
  | context [if ?b then _ else _] => let E := fresh "E" in destruct b eqn:E
  | context [match tracked_set ?q with _ => _ end] => let E := fresh "E" in destruct (tracked_set q) eqn:E
  end; try discriminate.

Lemma fstep_inv T a s l s' : finv T a s -> fstep T a s l = Some s' -> finv T a s'.
Proof.
  intros (H1 & H2 & H3) H. destruct s as [ph sh lp fs]. unfold fstep in H. simpl in *.
  destruct l, ph; simpl in H; brk H; inversion H; subst; clear H; unfold finv, set_ph; simpl;
  repeat match goal with
  | E : String.eqb _ _ = true |- _ => apply String.eqb_eq in E
  | E : String.eqb _ _ = false |- _ => apply String.eqb_neq in E
  | E : andb _ _ = true |- _ => apply andb_prop in E; destruct E
  end; subst; simpl in *; intuition (try congruence; try discriminate).
Qed.

Lemma frun_inv T a ls : forall s s', finv T a s -> frun T a s ls = Some s' -> finv T a s'.
Proof.
  induction ls as [|l r IH]; intros s s' Hi H; simpl in H.
  - inversion H; subst; exact Hi.
  - destruct (fstep T a s l) as [s1|] eqn:E; [|discriminate]. eapply IH; [eapply fstep_inv; eassumption|exact H].
Qed.

Lemma can_progress_intro T a s l s' : In l progress_labels -> fstep T a s l = Some s' -> can_progress T a s = true.
Proof.
  intros Hin H. unfold can_progress. apply existsb_exists. exists l. split; [exact Hin|]. rewrite H. reflexivity.
Qed.

Lemma resolved_escape T a s : 1 <= escape_kind T a <= 2 -> stopped s = true -> resolved T a s = true.
Proof.
  intros Hk Hs. assert (Hsh : f_shut s = true).
  { unfold stopped in Hs. apply andb_prop in Hs. destruct Hs as [Hs _]. apply andb_prop in Hs. destruct Hs; assumption. }
  assert (E : escape_kind T a = 1 \/ escape_kind T a = 2) by lia.
  unfold resolved. destruct E as [E|E]; rewrite E; destruct (f_ph s); auto.
Qed.

(* In every reachable state: the future is already resolved for its caller, or a step that moves
   it forward is enabled, or the server is still winding down (a goroutine that leaves on
   shutdownCh has not left yet). *)
Theorem never_stranded_state T a s : api_ok T a = true -> finv T a s ->
  resolved T a s = true \/ can_progress T a s = true \/ winding_down s = true.
Proof.
  intros Hok (Hl & Hf & Hp). destruct s as [ph sh lp fs]. simpl in *.
  destruct ph; simpl in Hp.
  - (* PCreated *) right. left.
    destruct (String.eqb_spec (a_queue a) "") as [Eq|Nq].
    + eapply (can_progress_intro _ _ _ LEscape); [simpl; auto|]. unfold fstep; simpl.
      rewrite Eq. simpl. rewrite (api_ok_inline T a Hok Eq). reflexivity.
    + destruct (api_ok_queue T a Hok Nq) as (S1 & S2 & S3 & S4).
      destruct (buffered T (a_queue a)) eqn:B.
      * eapply (can_progress_intro _ _ _ LEnqueue); [simpl; auto|]. unfold fstep; simpl.
        destruct (String.eqb_spec (a_queue a) ""); [contradiction|]. rewrite B. reflexivity.
      * destruct lp.
        -- eapply (can_progress_intro _ _ _ LEnqueue); [simpl; auto|]. unfold fstep; simpl.
           destruct (String.eqb_spec (a_queue a) ""); [contradiction|]. rewrite B, S2. reflexivity.
        -- eapply (can_progress_intro _ _ _ LEscape); [simpl; auto|]. unfold fstep; simpl.
           destruct (String.eqb_spec (a_queue a) ""); [contradiction|]. rewrite S1, (Hl eq_refl). reflexivity.
  - (* PQueued *) destruct Hp as [Nq B]. destruct (api_ok_queue T a Hok Nq) as (S1 & S2 & S3 & S4).
    destruct lp.
    + right. left. eapply (can_progress_intro _ _ _ LTake); [simpl; auto 10|]. unfold fstep; simpl. rewrite S2. reflexivity.
    + specialize (Hl eq_refl). subst sh. destruct fs.
      * right. right. reflexivity.
      * left. apply resolved_escape; [apply S4; rewrite B; reflexivity|reflexivity].
  - (* PTaken *) right. left. eapply (can_progress_intro _ _ _ LRespond); [simpl; auto 10|]. reflexivity.
  - (* PTracked *) destruct Hp as (Nq & Ht & _). destruct (api_ok_queue T a Hok Nq) as (S1 & S2 & S3 & S4).
    right. left. eapply (can_progress_intro _ _ _ LFlush); [simpl; auto 10|]. unfold fstep; simpl. rewrite S3. reflexivity.
  - (* PFsm *) destruct Hp as [Nq G]. destruct (api_ok_queue T a Hok Nq) as (S1 & S2 & S3 & S4).
    destruct fs.
    + right. left. eapply (can_progress_intro _ _ _ LFsmAnswer); [simpl; auto 10|]. reflexivity.
    + specialize (Hf eq_refl). subst sh. destruct lp.
      * right. right. reflexivity.
      * left. apply resolved_escape; [apply S4; rewrite G; apply orb_true_r|reflexivity].
  - left. reflexivity.
  - left. reflexivity.
Qed.

(* the statement over runs: whatever happened (any interleaving of API, loop, commit, step-down and
   shutdown steps), if nothing can move the future any more and the server is not in the middle of
   stopping, then its Error() returns *)
Theorem never_stranded T a ls s : api_ok T a = true -> frun T a init_state ls = Some s ->
  can_progress T a s = false -> winding_down s = false -> resolved T a s = true.
Proof.
  intros Hok Hr Hn Hw.
  destruct (never_stranded_state T a s Hok (frun_inv T a ls _ _ (finv_init T a) Hr)) as [H|[H|H]]; [exact H| |];
  congruence.
Qed.

(* after a completed shutdown (both goroutines gone) every reachable future that left the API
   function is resolved *)
Theorem resolved_after_shutdown T a ls s : api_ok T a = true -> frun T a init_state ls = Some s ->
  f_loop s = false -> f_fsm s = false -> f_ph s <> PCreated -> resolved T a s = true.
Proof.
  intros Hok Hr Hl Hf Hc.
  pose proof (frun_inv T a ls _ _ (finv_init T a) Hr) as (I1 & I2 & I3).
  assert (St : stopped s = true) by (unfold stopped; rewrite (I1 Hl), Hl, Hf; reflexivity).
  destruct (f_ph s) eqn:Eph; simpl in I3; try contradiction.
  - destruct I3 as [Nq B]. destruct (api_ok_queue T a Hok Nq) as (_ & _ & _ & S4).
    apply resolved_escape; [apply S4; rewrite B; reflexivity|exact St].
  - destruct I3 as [_ X]. congruence.
  - destruct I3 as (Nq & _ & Hfl). destruct (api_ok_queue T a Hok Nq) as (_ & _ & S3 & _).
    rewrite (Hfl S3) in Hl. discriminate.
  - destruct I3 as [Nq G]. destruct (api_ok_queue T a Hok Nq) as (_ & _ & _ & S4).
    apply resolved_escape; [apply S4; rewrite G; apply orb_true_r|exact St].
  - unfold resolved. rewrite Eph. reflexivity.
  - unfold resolved. rewrite Eph. reflexivity.
Qed.

(* every forward step strictly lowers the rank, the shutdown machinery never raises it: a future
   takes at most 6 forward steps in any run *)
Definition is_progress (l : label) : bool :=
  match l with LShutdown | LLoopExit | LFsmExit => false | _ => true end.

Lemma step_rank T a s l s' : fstep T a s l = Some s' ->
  ((if is_progress l then 1 else 0) + phase_rank (f_ph s') <= phase_rank (f_ph s))%nat.
Proof.
  intros H. destruct s as [ph sh lp fs]. unfold fstep in H. simpl in *.
  destruct l, ph; simpl in H; brk H; inversion H; subst; simpl; lia.
Qed.

Theorem forward_steps_bounded T a ls : forall s s', frun T a s ls = Some s' ->
  (List.length (filter is_progress ls) + phase_rank (f_ph s') <= phase_rank (f_ph s))%nat.
Proof.
  induction ls as [|l r IH]; intros s s' H; simpl in H.
  - inversion H; subst; simpl; lia.
  - destruct (fstep T a s l) as [s1|] eqn:E; [|discriminate]. specialize (IH _ _ H).
    pose proof (step_rank T a s l s1 E). simpl. destruct (is_progress l); simpl; lia.
Qed.

(* conversely: without a ShutdownCh escape a buffered queue strands a future (the schedule of
   finding F5: the enqueue wins, then the server shuts down and the goroutines leave) *)
Theorem stranded_without_escape T a : a_queue a <> ""%string -> buffered T (a_queue a) = true -> escape_kind T a = 0 ->
  exists s, frun T a init_state [LEnqueue; LShutdown; LLoopExit; LFsmExit] = Some s /\
            resolved T a s = false /\ can_progress T a s = false /\ winding_down s = false.
Proof.
  intros Nq B Sd. unfold frun, fstep, init_state; simpl.
  destruct (String.eqb_spec (a_queue a) ""); [contradiction|]. rewrite B. simpl.
  eexists. split; [reflexivity|]. unfold resolved, can_progress, winding_down; simpl. rewrite Sd. simpl.
  destruct (String.eqb_spec (a_queue a) ""); [contradiction|]. auto.
Qed.
