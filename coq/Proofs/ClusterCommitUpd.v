(* ClusterCommitUpd.v — what the step lemmas share before any per-server reasoning:
   from the quorum index of commitment.go to a majority of the voters (if the slots of matchIndexes are exactly the
   pairwise distinct voters and more than half of them hold an index >= q, so does a majority of the voters);
   what stays true when the ghost state of Proofs/ClusterCommitGhost.v grows (the ancestor relation of old keys is
   stable; tchain, QA, CK are monotone; a key known committed lies on the branch of every later leader, CK_on_branch, hence
   two such keys on one branch, CK_linear_g; known_committed: an entry that was created and whose key is known committed,
   the notion the all-runs statements about committed and acknowledged entries are read from) and small facts about upd_node;
   the leadership bookkeeping of Model/ClusterCommit.v (cg_lead: find_lead, set_lead, refresh_leads); lead_view, the
   parts of lead_inv (Proofs/ClusterCommitInv.v) by name for a given lead record, through which the proofs read and
   build it (lead_inv_view; lead_CK: what the commitment makes known committed), and how it
   follows a leader's commitment and log: a reported match index, an appended entry, a state that moves within what
   it reads;
   small facts for the election steps: whether a term has a recorded leader (ll_has), comparing live votes, and the
   cached last key of a server without snapshots. *)
From Coq Require Import List NArith Bool Lia Permutation.
From stdpp Require Import gmap.
From RaftModel Require Import Base Config Commitment Node Cluster NodeCodec ClusterCommit.
From RaftProofs Require Import CommitmentProofs ConfigProofs ClusterProofs ClusterLogSpec ClusterLogChain
  ClusterLogNode ClusterLogLeader ClusterCommitChain ClusterCommitAE2 ClusterCommitGhost ClusterCommitInv.
Open Scope N_scope.

Lemma count_ge_filter q (l : list (N * N)) :
  count_ge q (map snd l) = length (List.filter (fun kv => q <=? snd kv) l).
Proof.
  unfold count_ge. induction l as [|[k v] r IH]; simpl; [reflexivity|]. destruct (q <=? v); simpl; rewrite IH; reflexivity.
Qed.

Theorem quorum_ok_majority (m : gmap N N) (vs : list N) q : NoDup vs ->
  (forall j, is_Some (m !! j) <-> In j vs) -> quorum_ok m q ->
  exists W, majority vs W /\ forall w, In w W -> exists v, m !! w = Some v /\ q <= v.
Proof.
  intros Hnd Hslots Hq. unfold quorum_ok, match_vals in Hq.
  set (l := map_to_list m) in *.
  assert (Hlnd : NoDup (map fst l)) by (apply NoDup_ListNoDup, NoDup_fst_map_to_list).
  assert (Hin : forall k v, In (k, v) l <-> m !! k = Some v).
  { intros k v. unfold l. rewrite <- elem_of_list_In. apply elem_of_map_to_list. }
  set (W := map fst (List.filter (fun kv : N * N => q <=? snd kv) l)).
  exists W. split; [split; [|split]|].
  - (* distinct *)
    unfold W. clear -Hlnd. induction l as [|[k v] r IH]; simpl in *; [constructor|].
    inversion Hlnd as [|? ? Hk Hr]; subst. destruct (q <=? v); simpl; [|apply IH, Hr].
    constructor; [|apply IH, Hr]. intros Hc. apply Hk. apply in_map_iff in Hc. destruct Hc as ([k' v'] & E & Hf).
    apply filter_In in Hf. simpl in E. subst k'. apply in_map_iff. exists (k, v'). split; [reflexivity|apply Hf].
  - intros w Hw. unfold W in Hw. apply in_map_iff in Hw. destruct Hw as ([k v] & E & Hf). simpl in E. subst k.
    apply filter_In in Hf. destruct Hf as [Hf _]. apply Hslots. apply Hin in Hf. rewrite Hf. eauto.
  - (* more than half *)
    assert (Hsz : size m = length vs).
    { assert (E1 : size m = length (map fst l)) by (unfold l; rewrite map_length; reflexivity).
      rewrite E1. apply Nat.le_antisymm.
      - apply NoDup_incl_length; [exact Hlnd|]. intros k Hk. apply in_map_iff in Hk. destruct Hk as ([k' v] & E & Hkv). simpl in E. subst k'.
        apply Hslots. apply Hin in Hkv. rewrite Hkv. eauto.
      - apply NoDup_incl_length; [exact Hnd|]. intros k Hk. apply Hslots in Hk. destruct Hk as [v Hv].
        apply in_map_iff. exists (k, v). split; [reflexivity|apply Hin, Hv]. }
    unfold W. rewrite map_length. rewrite <- count_ge_filter. rewrite <- Hsz. lia.
  - intros w Hw. unfold W in Hw. apply in_map_iff in Hw. destruct Hw as ([k v] & E & Hf). simpl in E. subst k.
    apply filter_In in Hf. destruct Hf as [Hf Hle]. simpl in Hle. apply N.leb_le in Hle. exists v. split; [apply Hin, Hf|exact Hle].
Qed.

Lemma tchain_mono C LL C' LL' T k : incl C C' -> incl LL LL' -> tchain C LL T k -> tchain C' LL' T k.
Proof.
  intros HC HL (c & tl & Hl & [[H1 H2]|H]); exists c, tl; (split; [apply HL, Hl|]).
  - left. split; [exact H1|eapply created_mono; eauto].
  - right. eapply anc_mono; eauto.
Qed.

Lemma QA_mono cfg A A' q T : incl A A' -> QA cfg A q T -> QA cfg A' q T.
Proof.
  intros HA (W & HW & H). exists W. split; [exact HW|]. intros w Hw. destruct (H w Hw) as (v & Hv & Hin). exists v. auto.
Qed.

Lemma CK_mono cfg C LL A C' LL' A' b k : incl C C' -> incl LL LL' -> incl A A' ->
  CK cfg C LL A b k -> CK cfg C' LL' A' b k.
Proof.
  intros HC HL HA (T & q & H1 & H2 & H3 & H4). exists T, q. split; [exact H1|]. split; [eapply QA_mono; eauto|].
  split; [eapply tchain_mono; eauto|exact H4].
Qed.

Lemma CK_bound cfg C LL A b b' k : b <= b' -> CK cfg C LL A b k -> CK cfg C LL A b' k.
Proof. intros Hb (T & q & H1 & H2). exists T, q. split; [lia|exact H2]. Qed.

Lemma CK_anc cfg C LL A b k k0 : chain_inv C LL -> CK cfg C LL A b k -> anc C k0 k -> CK cfg C LL A b k0.
Proof.
  intros Hci (T & q & H1 & H2 & H3 & H4) Ha. exists T, q. split; [exact H1|]. split; [exact H2|].
  split; [apply (tchain_anc C LL Hci T k k0 H3 Ha)|]. destruct (anc_le C k0 k (ci_ok Hci) Ha). lia.
Qed.

Lemma CK_term cfg C LL A b k : chain_inv C LL -> CK cfg C LL A b k -> snd k <= b.
Proof.
  intros Hci (T & q & HT & _ & (c & tl & Hl & Hk) & _). destruct Hk as [[E _]|Ha]; [lia|].
  destruct (anc_le C k tl (ci_ok Hci) Ha) as [_ H]. destruct (ci_tl Hci _ _ _ Hl) as [H2 _]. lia.
Qed.

(* (T, e): the entry e was created and is known to be committed by a server of term T *)
Definition known_committed (cfg : config) (C : chain) (LL : LLt) (A : At) (te : N * entry) : Prop :=
  (exists p, In (snd te, p) C) /\ CK cfg C LL A (fst te) (key (snd te)).

Lemma known_committed_mono cfg C LL A Cn LLn An te :
  known_committed cfg C LL A te -> known_committed cfg (Cn ++ C) (LLn ++ LL) (An ++ A) te.
Proof.
  intros [(p & Hp) Hck]. split; [exists p; apply in_app_iff; right; exact Hp|].
  eapply CK_mono; [apply incl_appr, incl_refl|apply incl_appr, incl_refl|apply incl_appr, incl_refl|exact Hck].
Qed.

(* a key known to be committed by a server of a term <= T lies on the branch the leader of T extends (lc_core) *)
Lemma CK_on_branch cfg C LL A V b k T c tl : NoDup (voters cfg) -> chain_inv C LL -> vote_inv cfg C LL A V ->
  CK cfg C LL A b k -> b <= T -> In (T, c, tl) LL -> tchain C LL T k.
Proof.
  intros HVn Hci Hvi (Tq & q & Hb & Q & Htc & Hq) HbT Hl.
  destruct (N.lt_trichotomy Tq T) as [Hlt|[->|Hgt]]; [|exact Htc|lia].
  exists c, tl. split; [exact Hl|]. right. apply (lc_core cfg C LL A V HVn Hci Hvi q Tq k Q Htc Hq T c tl Hl Hlt).
Qed.

Lemma CK_linear_g cfg C LL A V b1 b2 k1 k2 : NoDup (voters cfg) -> chain_inv C LL -> vote_inv cfg C LL A V ->
  CK cfg C LL A b1 k1 -> CK cfg C LL A b2 k2 -> fst k1 <= fst k2 -> anc C k1 k2.
Proof.
  intros HVn Hci Hvi (T1 & q1 & _ & Q1 & H1 & L1) (T2 & q2 & _ & Q2 & H2 & L2) E.
  assert (K1 : CK cfg C LL A T1 k1) by (exists T1, q1; auto using N.le_refl).
  assert (K2 : CK cfg C LL A T2 k2) by (exists T2, q2; auto using N.le_refl).
  destruct (N.le_gt_cases T1 T2) as [Hle|Hgt].
  - destruct H2 as (c2 & tl2 & Hl2 & H2). apply (tchain_linear C LL Hci T2); [|exists c2, tl2; auto|exact E].
    apply (CK_on_branch cfg C LL A V T1 k1 T2 c2 tl2 HVn Hci Hvi K1 Hle Hl2).
  - destruct H1 as (c1 & tl1 & Hl1 & H1). apply (tchain_linear C LL Hci T1); [exists c1, tl1; auto| |exact E].
    apply (CK_on_branch cfg C LL A V T2 k2 T1 c1 tl1 HVn Hci Hvi K2 (N.lt_le_incl _ _ Hgt) Hl1).
Qed.

Lemma upd_node_same l i n : NoDup (map gn_id l) -> find_node l i = Some n -> upd_node l i n = l.
Proof.
  intros Hnd Hf. unfold upd_node. rewrite <- (map_id l) at 2. apply map_ext_in. intros a Ha.
  destruct (N.eqb_spec (gn_id a) i) as [E|]; [|reflexivity].
  destruct (find_node_in _ _ _ Hf) as [Hin Hid]. symmetry. apply (nodup_id_eq l a n Hnd Ha Hin). congruence.
Qed.

Lemma nth_error_app_old {X} (l l' : list X) k x : nth_error l k = Some x -> nth_error (l ++ l') k = Some x.
Proof. intros H. rewrite nth_error_app1; [exact H|]. apply nth_error_Some. congruence. Qed.

Lemma find_lead_set_same l i x : find_lead (set_lead l i x) i = Some x.
Proof. unfold set_lead. simpl. rewrite N.eqb_refl. reflexivity. Qed.

Lemma find_lead_filter l i i' : i' <> i -> find_lead (filter (fun p : N * lead => negb (fst p =? i)) l) i' = find_lead l i'.
Proof.
  intros Hne. induction l as [|[k x] r IH]; simpl; [reflexivity|].
  destruct (N.eqb_spec k i) as [->|Hk]; simpl.
  - destruct (N.eqb_spec i i'); [congruence|exact IH].
  - destruct (k =? i'); [reflexivity|exact IH].
Qed.

Lemma find_lead_set_other l i x i' : i' <> i -> find_lead (set_lead l i x) i' = find_lead l i'.
Proof.
  intros Hne. unfold set_lead. simpl. destruct (N.eqb_spec i i'); [congruence|]. apply find_lead_filter, Hne.
Qed.

Lemma refresh_no_new before after : forall l,
  (forall n s, In n after -> gn_run n = Up s -> v_role s = Leader ->
     forall n0, find_node before (gn_id n) = Some n0 -> role_of (gn_run n0) = Leader) ->
  refresh_leads before after l = l.
Proof.
  unfold refresh_leads. induction after as [|n r IH]; intros l H; simpl; [reflexivity|].
  rewrite IH; [|intros x s Hx; apply H; right; exact Hx].
  destruct (gn_run n) as [s|s] eqn:Er; [|reflexivity].
  destruct (find_node before (gn_id n)) as [n0|] eqn:Ef; [|reflexivity].
  destruct (N.eqb_spec (v_role s) Leader) as [Hl|]; [|reflexivity].
  rewrite (H n s (or_introl eq_refl) Er Hl n0 Ef). reflexivity.
Qed.

Lemma refresh_same l leads : NoDup (map gn_id l) -> refresh_leads l l leads = leads.
Proof.
  intros Hnd. apply refresh_no_new. intros n s Hin Hr Hrole n0 Hf.
  rewrite (find_node_self l n Hnd Hin) in Hf. inversion Hf; subst n0. rewrite Hr. exact Hrole.
Qed.

(* a handler ran at j: nobody became Leader *)
Lemma refresh_handler nodes j nj r' leads : NoDup (map gn_id nodes) -> find_node nodes j = Some nj ->
  (forall s', r' = Up s' -> v_role s' = Leader -> role_of (gn_run nj) = Leader) ->
  refresh_leads nodes (upd_node nodes j (mkGN (gn_P nj) r' (keep_sess r' (gn_sess nj)) (gn_next nj))) leads = leads.
Proof.
  intros Hnd Hf Hrole. apply refresh_no_new. intros x s Hx Hr Hl n0 Hn0.
  destruct (find_node_in _ _ _ Hf) as [Hin Hid].
  destruct (upd_node_in _ _ _ _ Hx) as [[-> _]|[Hxo Hne]].
  - change (gn_id (mkGN (gn_P nj) r' (keep_sess r' (gn_sess nj)) (gn_next nj))) with (gn_id nj) in Hn0.
    rewrite Hid, Hf in Hn0. inversion Hn0; subst n0. apply (Hrole s Hr Hl).
  - rewrite (find_node_self nodes x Hnd Hxo) in Hn0. inversion Hn0; subst n0. rewrite Hr. exact Hl.
Qed.

(* the server that entered runCandidate did not become Leader: nobody gets a fresh leadership state *)
Lemma refresh_quiet nodes i n' leads : NoDup (map gn_id nodes) ->
  (forall s', gn_run n' = Up s' -> v_role s' <> Leader) ->
  refresh_leads nodes (upd_node nodes i n') leads = leads.
Proof.
  intros Hnd Hrole. apply refresh_no_new. intros x s Hx Hr Hl n0 Hn0.
  destruct (upd_node_in _ _ _ _ Hx) as [[-> _]|[Hxo Hne]].
  - exfalso. apply (Hrole s Hr Hl).
  - rewrite (find_node_self nodes x Hnd Hxo) in Hn0. inversion Hn0; subst n0. rewrite Hr. exact Hl.
Qed.

Lemma refresh_one nodes i n n' s' leads : NoDup (map gn_id nodes) -> find_node nodes i = Some n -> gn_id n' = i ->
  gn_run n' = Up s' -> v_role s' = Leader -> role_of (gn_run n) <> Leader ->
  forall j, find_lead (refresh_leads nodes (upd_node nodes i n') leads) j =
            find_lead (set_lead leads i (fresh_lead (gn_P n') s')) j.
Proof.
  intros Hnd Hf Hid Hr Hl Hnl j. destruct (find_node_in _ _ _ Hf) as [Hin Hidn].
  unfold refresh_leads.
  (* fold over the updated list: only the element with id i acts *)
  assert (G : forall l acc, NoDup (map gn_id l) -> (forall x, In x l -> In x nodes) ->
            find_lead (fold_left (fun acc x =>
               match gn_run x, find_node nodes (gn_id x) with
               | Up s, Some n0 => if (v_role s =? Leader) && negb (role_of (gn_run n0) =? Leader) then set_lead acc (gn_id x) (fresh_lead (gn_P x) s) else acc
               | _, _ => acc end) (upd_node l i n') acc) j =
            if existsb (fun x => gn_id x =? i) l then find_lead (set_lead acc i (fresh_lead (gn_P n') s')) j else find_lead acc j).
  { induction l as [|x r IH]; intros acc Hndl Hsub; [reflexivity|]. cbn [map] in Hndl. apply NoDup_cons_iff in Hndl. destruct Hndl as [Hx Hr'].
    cbn [upd_node map fold_left existsb]. destruct (N.eqb_spec (gn_id x) i) as [E|Hne].
    - rewrite Hr, Hid, Hf. rewrite Hl. destruct (N.eqb_spec (role_of (gn_run n)) Leader) as [Ec|_]; [contradiction|]. cbn [N.eqb andb negb orb].
      rewrite N.eqb_refl. cbn [andb negb].
      assert (Hno : existsb (fun y => gn_id y =? i) r = false).
      { apply not_true_is_false. intros Hc. apply existsb_exists in Hc. destruct Hc as (y & Hy & Ey). apply N.eqb_eq in Ey.
        apply Hx. rewrite E, <- Ey. apply in_map, Hy. }
      fold (upd_node r i n'). rewrite (IH _ Hr' (fun y Hy => Hsub y (or_intror Hy))), Hno. reflexivity.
    - assert (Hxn : find_node nodes (gn_id x) = Some x) by (apply find_node_self; [exact Hnd|apply Hsub; left; reflexivity]).
      rewrite Hxn. cbn [orb]. fold (upd_node r i n').
      destruct (gn_run x) as [sx|sx] eqn:Erx; [|apply (IH _ Hr' (fun y Hy => Hsub y (or_intror Hy)))].
      cbn [role_of]. destruct (v_role sx =? Leader); cbn [andb negb]; apply (IH _ Hr' (fun y Hy => Hsub y (or_intror Hy))). }
  rewrite (G nodes leads Hnd (fun x Hx => Hx)).
  assert (He : existsb (fun x => gn_id x =? i) nodes = true) by (apply existsb_exists; exists n; split; [exact Hin|apply N.eqb_eq, Hidn]).
  rewrite He. reflexivity.
Qed.

(* a record after refresh_leads is an old one or the fresh record of a server now in role Leader *)
Lemma refresh_find before after : forall l i ld, find_lead (refresh_leads before after l) i = Some ld ->
  find_lead l i = Some ld \/
  exists n s, In n after /\ gn_id n = i /\ gn_run n = Up s /\ v_role s = Leader /\ ld = fresh_lead (gn_P n) s.
Proof.
  unfold refresh_leads. induction after as [|x r IH]; intros l i ld Hf; simpl in Hf; [left; exact Hf|].
  destruct (IH _ i ld Hf) as [H|(n & s & Hn & H)]; [|right; exists n, s; split; [right; exact Hn|exact H]].
  destruct (gn_run x) as [s|s] eqn:Hr; [|left; exact H].
  destruct (find_node before (gn_id x)) as [n0|]; [|left; exact H].
  destruct ((v_role s =? Leader) && negb (role_of (gn_run n0) =? Leader)) eqn:Hc; [|left; exact H].
  apply andb_prop in Hc. destruct Hc as [Hc _]. apply N.eqb_eq in Hc.
  destruct (N.eq_dec i (gn_id x)) as [->|Hne].
  - rewrite find_lead_set_same in H. inversion H; subst ld. right. exists x, s. split; [left; reflexivity|auto].
  - rewrite find_lead_set_other in H by exact Hne. left. exact H.
Qed.

Lemma cm_new_facts cfgL li :
  cm_start (cm_new cfgL li) = li /\ cm_commit (cm_new cfgL li) = 0 /\
  (forall j v, cm_match (cm_new cfgL li) !! j = Some v -> v = 0) /\
  (forall j, is_Some (cm_match (cm_new cfgL li) !! j) <-> In j (voters cfgL)).
Proof.
  unfold cm_new. cbn [cm_start cm_commit cm_match]. split; [reflexivity|]. split; [reflexivity|]. split.
  - intros j v H. destruct (voter_slots_value cfgL ∅ j v H) as [E|E]; [exact E|]. rewrite lookup_empty in E. discriminate.
  - intros j. apply voter_slots_lookup.
Qed.

Lemma cm_match_step c j li :
  let c' := cm_step c (CMatch j li) in
  cm_start c' = cm_start c /\
  (forall j' v, cm_match c' !! j' = Some v -> (j' = j /\ v = li) \/ cm_match c !! j' = Some v) /\
  (forall j', is_Some (cm_match c' !! j') <-> is_Some (cm_match c !! j')) /\
  cm_commit c <= cm_commit c' /\
  (cm_commit c' = cm_commit c \/ (cm_commit c < cm_commit c' /\ cm_start c <= cm_commit c' /\ quorum_ok (cm_match c') (cm_commit c'))).
Proof.
  cbv zeta. pose proof (cm_step_spec c (CMatch j li)) as [S1 S2]. pose proof (commit_monotone c (CMatch j li)) as S3.
  split; [exact S1|]. split; [|split; [|split; [exact S3|exact S2]]].
  - intros j' v. rewrite cm_step_match. destruct (cm_match c !! j') as [prev|]; [|discriminate]. intros [= <-].
    destruct (N.eqb_spec j j') as [->|]; [|auto]. destruct (N.max_spec prev li) as [[_ ->]|[_ ->]]; auto.
  - intros j'. rewrite cm_step_match. apply fmap_is_Some.
Qed.

Lemma log_store_one_sub m e : m !! e_idx e = None -> log_sub m (log_store m [e]).
Proof.
  intros Hn i x Hx. rewrite log_store_one. destruct (N.eqb_spec (e_idx e) i) as [<-|]; [congruence|exact Hx].
Qed.

(* lead_inv (Proofs/ClusterCommitInv.v) for given witnesses, its parts named: the cluster state enters lead_inv only
   through find_lead, so what a step does to a leadership is said about the server's state and its lead record *)
Section LeadViewDef.
  Context {cfg : config} {C : chain} {LL : LLt} {A : At} {i : N} {s : nstate} {tl : N * N} {ld : lead}.
  Record lead_view : Prop := {
    li_rec : In (v_term s, i, tl) LL;
    li_anc : forall x p, In (x, p) C -> e_term x = v_term s -> anc C (key x) (topk s);
    li_last : v_lastLogTerm s = v_term s;
    li_next0 : ld_next0 ld = fst tl + 1;
    li_start : cm_start (ld_cm ld) = ld_next0 ld;
    li_match : forall j v, cm_match (ld_cm ld) !! j = Some v -> v < ld_next0 ld \/ In (j, (v, v_term s)) A;
    li_keys : (forall j, cm_match (ld_cm ld) !! j = None) \/ (forall j, is_Some (cm_match (ld_cm ld) !! j) <-> In j (voters cfg));
    li_commit : cm_commit (ld_cm ld) = 0 \/ (ld_next0 ld <= cm_commit (ld_cm ld) /\ QA cfg A (cm_commit (ld_cm ld)) (v_term s));
    li_vc : v_commit s < ld_next0 ld \/ v_commit s <= cm_commit (ld_cm ld);
    li_notified : ld_notified ld = true -> cm_commit (ld_cm ld) <> 0
  }.
End LeadViewDef.
Arguments lead_view : clear implicits.

Section LeadView.
  Context {cfg : config}.

  Lemma lead_inv_view {g C LL A n s} : lead_inv cfg g C LL A n s <->
    exists tl ld, find_lead (cg_lead g) (gn_id n) = Some ld /\ lead_view cfg C LL A (gn_id n) s tl ld.
  Proof.
    split.
    - intros (tl & ld & L1 & L2 & L3 & L4 & L5 & L6 & L7 & L8 & L9 & L10 & L11). exists tl, ld. split; [exact L2|constructor; assumption].
    - intros (tl & ld & E & [L1 L3 L4 L5 L6 L7 L8 L9 L10 L11]). exists tl, ld. repeat (split; [assumption|]). assumption.
  Qed.

  Context {C : chain} {LL : LLt} {A : At} {i : N} {s : nstate} {tl : N * N} {ld : lead} (L : lead_view cfg C LL A i s tl ld).

  Lemma li_QA : cm_commit (ld_cm ld) <> 0 -> ld_next0 ld <= cm_commit (ld_cm ld) /\ QA cfg A (cm_commit (ld_cm ld)) (v_term s).
  Proof. intros H. destruct (li_commit L) as [E|Q]; [contradiction|exact Q]. Qed.

  Lemma li_bound : chain_ok C -> forall x p, In (x, p) C -> e_term x = v_term s -> e_idx x <= v_lastLogIdx s.
  Proof. intros HC x p Hx Ht. destruct (anc_le C _ _ HC (li_anc L x p Hx Ht)) as [Hle _]. exact Hle. Qed.

  Lemma lead_CK bound k0 : cm_commit (ld_cm ld) <> 0 -> v_term s <= bound -> tchain C LL (v_term s) k0 ->
    fst k0 <= cm_commit (ld_cm ld) -> CK cfg C LL A bound k0.
  Proof. intros H Hb Ht Hk. exists (v_term s), (cm_commit (ld_cm ld)). split; [exact Hb|]. split; [apply (li_QA H)|auto]. Qed.

  Hypothesis HVn : NoDup (voters cfg).

  Lemma lead_view_match ld' j li :
    ld_cm ld' = cm_step (ld_cm ld) (CMatch j li) -> ld_next0 ld' = ld_next0 ld ->
    (li < ld_next0 ld \/ In (j, (li, v_term s)) A) ->
    (ld_notified ld' = true -> ld_notified ld = true \/ cm_commit (ld_cm ld') <> cm_commit (ld_cm ld)) ->
    lead_view cfg C LL A i s tl ld'.
  Proof.
    intros Hcm Hn0 Hli Hnt.
    destruct (cm_match_step (ld_cm ld) j li) as (M1 & M2 & M3 & M4 & M5). cbv zeta in *. rewrite <- Hcm in *.
    assert (L7 : forall j' v, cm_match (ld_cm ld') !! j' = Some v -> v < ld_next0 ld \/ In (j', (v, v_term s)) A).
    { intros j' v Hv. destruct (M2 j' v Hv) as [[-> ->]|Hold]; [exact Hli|apply (li_match L j' v Hold)]. }
    assert (L8 : (forall j', cm_match (ld_cm ld') !! j' = None) \/ (forall j', is_Some (cm_match (ld_cm ld') !! j') <-> In j' (voters cfg))).
    { destruct (li_keys L) as [H|H]; [left|right].
      - intros j'. destruct (cm_match (ld_cm ld') !! j') eqn:Ex; [|reflexivity].
        assert (Hs : is_Some (cm_match (ld_cm ld) !! j')) by (apply M3; rewrite Ex; eauto). rewrite H in Hs. destruct Hs; discriminate.
      - intros j'. rewrite M3. apply H. }
    pose proof (li_vc L) as L10.
    constructor; rewrite ?Hn0; try apply L; try assumption.
    - rewrite M1. apply (li_start L).
    - destruct M5 as [Eq|(Hlt & Hst & Hq)]; [rewrite Eq; apply (li_commit L)|].
      right. rewrite (li_start L) in Hst. split; [exact Hst|]. destruct L8 as [Hnone|Hslots].
      + exfalso. unfold quorum_ok in Hq. assert (Hsz : size (cm_match (ld_cm ld')) = 0%nat).
        { apply map_size_empty_iff. apply map_eq. intros k. rewrite lookup_empty. apply Hnone. }
        pose proof (count_ge_le_length (cm_commit (ld_cm ld')) (match_vals (cm_match (ld_cm ld')))) as Hcl.
        rewrite <- size_match_vals in Hcl. lia.
      + destruct (quorum_ok_majority (cm_match (ld_cm ld')) (voters cfg) _ HVn Hslots Hq) as (W & HW & Hall).
        exists W. split; [exact HW|]. intros w Hw. destruct (Hall w Hw) as (v & Hv & Hle). exists v. split; [exact Hle|].
        destruct (L7 w v Hv) as [Hc|Hc]; [lia|exact Hc].
    - lia.
    - intros Hn. destruct (Hnt Hn) as [Ho|Hne]; [pose proof (li_notified L Ho)|]; lia.
  Qed.

  (* the server keeps its term and last key and its commit index stays within the commitment's, the ghost state grows
     by entries of other terms, the lead record keeps its commitment and next index and is not newly notified *)
  Lemma lead_view_ext Cn LLn An s' ld' :
    v_term s' = v_term s -> topk s' = topk s -> (v_commit s' < ld_next0 ld \/ v_commit s' <= cm_commit (ld_cm ld)) ->
    ld_cm ld' = ld_cm ld -> ld_next0 ld' = ld_next0 ld -> (ld_notified ld' = true -> ld_notified ld = true) ->
    (forall y p, In (y, p) Cn -> e_term y <> v_term s) ->
    lead_view cfg (Cn ++ C) (LLn ++ LL) (An ++ A) i s' tl ld'.
  Proof.
    intros Et Ek Ec Hcm Hn0 Hnt Hcn.
    assert (Elt : v_lastLogTerm s' = v_lastLogTerm s) by (unfold topk in Ek; congruence).
    constructor; rewrite ?Et, ?Ek, ?Hcm, ?Hn0, ?Elt; try apply L; [| | | |exact Ec|intros H; apply (li_notified L (Hnt H))].
    - apply in_or_app. right. apply (li_rec L).
    - intros y p Hy Hty. apply in_app_iff in Hy. destruct Hy as [Hy|Hy]; [destruct (Hcn y p Hy Hty)|].
      eapply anc_mono; [apply incl_appr, incl_refl|apply (li_anc L y p Hy Hty)].
    - intros j v Hm. destruct (li_match L j v Hm) as [H|H]; [left; exact H|right; apply in_or_app; right; exact H].
    - destruct (li_commit L) as [H|[H1 H2]]; [left; exact H|right; split; [exact H1|eapply QA_mono; [apply incl_appr, incl_refl|exact H2]]].
  Qed.

  (* the leader stored the entry e after its last key; the commitment is not yet told *)
  Lemma lead_view_append An s'' e :
    e_term e = v_term s -> v_term s'' = v_term s -> topk s'' = key e -> v_commit s'' = v_commit s ->
    lead_view cfg ((e, topk s) :: C) LL (An ++ A) i s'' tl ld.
  Proof.
    intros Het Ht Htop Hc. constructor; rewrite ?Ht, ?Hc; try apply L.
    - intros x p [E|H] Hxt; rewrite Htop.
      + inversion E; subst. apply anc_refl.
      + eapply anc_trans; [apply anc_cons, (li_anc L x p H Hxt)|]. eapply anc_up; [left; reflexivity|reflexivity|apply anc_refl].
    - rewrite <- Het. unfold topk, key in Htop. congruence.
    - intros j v Hv. destruct (li_match L j v Hv) as [H|H]; [left; exact H|right; apply in_app_iff; right; exact H].
    - destruct (li_commit L) as [H|[H1 H2]]; [left; exact H|right; split; [exact H1|]]. eapply QA_mono; [|exact H2]. apply incl_appr, incl_refl.
  Qed.
End LeadView.
Arguments li_QA {cfg C LL A i s tl ld}.

Lemma live_dec (x y : option (N * N)) : {x = y} + {x <> y}.
Proof. repeat decide equality. Qed.

Definition ll_has (LL : LLt) (T : N) : bool := existsb (fun x => fst (fst x) =? T) LL.

Lemma ll_has_true LL T : ll_has LL T = true -> exists c tl, In (T, c, tl) LL.
Proof.
  unfold ll_has. intros H. apply existsb_exists in H. destruct H as ([[T' c] tl] & Hin & E). simpl in E.
  apply N.eqb_eq in E. subst T'. eauto.
Qed.

Lemma ll_has_false LL T c tl : ll_has LL T = false -> ~ In (T, c, tl) LL.
Proof.
  unfold ll_has. intros H Hin. assert (E : existsb (fun x => fst (fst x) =? T) LL = true).
  { apply existsb_exists. exists (T, c, tl). split; [exact Hin|]. simpl. apply N.eqb_refl. }
  congruence.
Qed.

(* the vote w casts for c in term T (kw: the voter's last entry, rq: the candidate's), unless the term has its leader *)
Definition cast (LL : LLt) (w T c : N) (kw rq : N * N) : Vt := if ll_has LL T then [] else [(w, T, c, kw, rq)].

Lemma cast_in LL w T c kw rq w' T' c' kw' rq' : In (w', T', c', kw', rq') (cast LL w T c kw rq) ->
  w' = w /\ T' = T /\ c' = c /\ kw' = kw /\ rq' = rq /\ ll_has LL T = false.
Proof. unfold cast. destruct (ll_has LL T); [intros []|]. intros [H|[]]. inversion H. auto 10. Qed.
Arguments cast_in {LL w T c kw rq w' T' c' kw' rq'}.

Lemma cast_recorded LL V w T c kw rq : recorded LL (cast LL w T c kw rq ++ V) w T c.
Proof. unfold cast. destruct (ll_has LL T) eqn:E; [right; apply ll_has_true, E|left]. exists kw, rq. left. reflexivity. Qed.

Lemma topk_entry C s : chain_ok C -> nlog_up C s -> top_of (d_log s) (v_lastLogIdx s) ->
  (topk s = (0, 0) /\ v_lastLogIdx s = 0) \/ (exists x, d_log s !! v_lastLogIdx s = Some x /\ key x = topk s).
Proof.
  intros HC (_ & Li & _ & _ & Hz & Lb) [_ Ht]. destruct (N.eq_dec (v_lastLogIdx s) 0) as [E|Hne].
  - left. unfold topk. rewrite E, (Hz E). auto.
  - right. destruct (Ht ltac:(lia)) as [x Hx]. exists x. split; [exact Hx|].
    destruct (Li _ x Hx) as (Ix & _). apply (anc_idx_eq C _ _ HC (Lb _ x Hx)). unfold key, topk. simpl. exact Ix.
Qed.

Lemma topk_created C s : chain_ok C -> nlog_up C s -> top_of (d_log s) (v_lastLogIdx s) ->
  topk s = (0, 0) \/ created C (topk s).
Proof.
  intros HC Hn Ht. destruct (topk_entry C s HC Hn Ht) as [[E _]|(x & Hx & Ex)]; [left; exact E|right].
  destruct Hn as (_ & Li & _). destruct (Li _ x Hx) as (_ & (p & Hp) & _). rewrite <- Ex. exists x, p. auto.
Qed.
