(* ClusterCommitSnapLeader.v — a leader's commit step changes the commit / applied / FSM fields only: the shape of
   Proofs/ClusterCommitSnapLog.v does not read them (zup_ckeep).  dispatchLogs of one entry and the requests
   setupAppendEntries builds are in Proofs/ClusterCommitSnapNode3.v, exported from here. *)
From Coq Require Import List NArith Bool Lia.
From stdpp Require Import gmap.
From RaftModel Require Import Base Node Replicate.
From RaftProofs Require Import VoteProofs ClusterLogSpec ClusterLogChain ClusterLogNode ClusterLogLeader ClusterCommitChain
  ClusterCommitLog ClusterCommitInv ClusterCommitSnapLog ClusterCommitSnapAE2.
From RaftProofs Require Export ClusterCommitSnapNode3.
Open Scope N_scope.

Lemma zup_ckeep C s s' : zup C s -> ckeep s' s -> zup C s'.
Proof.
  intros H K. apply (zup_lkeep C s s' H (ckeep_lkeep _ _ K)); [apply K|].
  destruct K as (Kd & _). unfold dproj in Kd. injection Kd as -> _ _. apply N.le_refl.
Qed.
