(* FileSnapI.v — every script op preserves Inv, and Q holds at every prefix of its segment;
   hence Q holds at every prefix of the whole program. *)
From Coq Require Import List Arith NArith Bool Lia Permutation.
From RaftModel Require Import FileSnap FileSnapSpec.
From RaftProofs Require Import FileSnapA FileSnapB FileSnapC FileSnapD FileSnapE FileSnapF FileSnapG FileSnapH.
Import ListNotations.
Open Scope N_scope.

Lemma exec_fs : forall sfirst st o,
  st_fs (fst (exec_op sfirst st o)) = fs_run (st_fs st) (snd (exec_op sfirst st o)).
Proof.
  intros sfirst st [sid t i|sid b|sid|sid]; unfold exec_op; try reflexivity;
    destruct (find_sink (st_sinks st) sid) as [k|]; try reflexivity;
    destruct (k_done k); try reflexivity; cbn [fst snd st_fs]; rewrite !fs_run_app; reflexivity.
Qed.

(* Close / Cancel of a finished sink issue no ops *)
Lemma step_done : forall sfirst retain s st h o k, Inv retain s st h -> is_end o ->
  find_sink (st_sinks st) (sop_sid o) = Some k -> k_done k = true -> In (sop_sid o) (created s) ->
  Inv retain (s ++ [o]) (fst (exec_op sfirst st o)) (h ++ snd (exec_op sfirst st o)) /\
  QP (N.to_nat retain) (s ++ [o]) h (st_fs st) (snd (exec_op sfirst st o)).
Proof.
  intros sfirst retain s st h o k HI Ho Hf Hd Hin.
  assert (E : exec_op sfirst st o = (st, [])).
  { destruct o; try contradiction; simpl in Hf; unfold exec_op; rewrite Hf, Hd; reflexivity. }
  rewrite E. cbn [fst snd]. split.
  - apply Inv_noop; auto. intros k' Hk'. congruence.
  - apply QP_nil. apply Q_mono, (i_q _ _ _ _ HI).
Qed.

Lemma step_both : forall sfirst retain s st h o, Inv retain s st h -> wf_op s o ->
  Inv retain (s ++ [o]) (fst (exec_op sfirst st o)) (h ++ snd (exec_op sfirst st o)) /\
  QP (N.to_nat retain) (s ++ [o]) h (st_fs st) (snd (exec_op sfirst st o)).
Proof.
  intros sfirst retain s st h o HI Hwf. destruct o as [sid t i|sid b|sid|sid]; simpl in Hwf.
  - split; [apply Inv_create; assumption|]. apply QP_create; assumption.
  - split; [apply Inv_write; assumption|]. simpl. apply QP_nil. apply Q_mono, (i_q _ _ _ _ HI).
  - destruct (i_sinks _ _ _ _ HI sid Hwf) as [k [Hf _]]. destruct (k_done k) eqn:Hd.
    + apply (step_done sfirst retain s st h (SClose sid) k); simpl; auto.
    + rewrite (exec_close sfirst st sid k Hf Hd). cbn [fst snd]. rewrite (i_retain _ _ _ _ HI).
      split.
      * pose proof (Inv_close_open sfirst retain s st h sid k HI Hf Hd Hwf) as H.
        rewrite (i_retain _ _ _ _ HI) in H. exact H.
      * apply close_QP; assumption.
  - destruct (i_sinks _ _ _ _ HI sid Hwf) as [k [Hf _]]. destruct (k_done k) eqn:Hd.
    + apply (step_done sfirst retain s st h (SCancel sid) k); simpl; auto.
    + rewrite (exec_cancel sfirst st sid k Hf Hd). cbn [fst snd].
      destruct (open_sink_facts retain s st h sid k HI Hf Hd) as [Hks [_ [_ [_ [Hnr _]]]]].
      apply (Inv_tmp_end retain s st h (SCancel sid)); simpl; auto.
      intros o' Ho'. rewrite <- Hks. eapply cancel_tmp; eauto.
Qed.

Lemma run_script_cons : forall sfirst st o rest,
  snd (run_script sfirst st (o :: rest)) =
  snd (exec_op sfirst st o) :: snd (run_script sfirst (fst (exec_op sfirst st o)) rest).
Proof.
  intros. simpl. destruct (exec_op sfirst st o) as [st1 ops]. simpl.
  destruct (run_script sfirst st1 rest). reflexivity.
Qed.

Lemma wf_head : forall seen past o rest, (forall x, In x seen <-> In x (created past)) ->
  wf_from seen (o :: rest) ->
  wf_op past o /\ exists seen', (forall x, In x seen' <-> In x (created (past ++ [o]))) /\ wf_from seen' rest.
Proof.
  intros seen past o rest Heq Hwf.
  destruct o as [sid t i|sid b|sid|sid]; simpl in Hwf; destruct Hwf as [H1 H2];
    (split; [simpl; rewrite <- Heq; exact H1|]);
    [exists (sid :: seen)|exists seen|exists seen|exists seen];
    (split; [|exact H2]); intros x; rewrite created_app, in_app_iff, <- Heq; simpl; tauto.
Qed.

Lemma run_prefix : forall sfirst retain rest past st h seen, Inv retain past st h ->
  (forall x, In x seen <-> In x (created past)) -> wf_from seen rest ->
  forall j, Q (N.to_nat retain) (past ++ rest)
              (h ++ firstn j (concat (snd (run_script sfirst st rest))))
              (fs_run (st_fs st) (firstn j (concat (snd (run_script sfirst st rest))))).
Proof.
  intros sfirst retain. induction rest as [|o rest IH]; intros past st h seen HI Heq Hwf j.
  - simpl. rewrite firstn_nil, !app_nil_r. simpl. apply (i_q _ _ _ _ HI).
  - destruct (wf_head _ _ _ _ Heq Hwf) as [Hop [seen' [Heq' Hwf']]].
    destruct (step_both sfirst retain past st h o HI Hop) as [HI' HQP].
    rewrite run_script_cons. simpl concat. rewrite firstn_app.
    set (ops := snd (exec_op sfirst st o)) in *.
    replace (past ++ o :: rest) with ((past ++ [o]) ++ rest) by (rewrite <- app_assoc; reflexivity).
    destruct (le_lt_dec j (length ops)) as [Hle|Hgt].
    + replace (j - length ops)%nat with 0%nat by lia. simpl. rewrite app_nil_r.
      apply Q_mono. apply HQP.
    + rewrite (firstn_all2 ops) by lia. rewrite app_assoc, fs_run_app.
      unfold ops at 3. rewrite <- exec_fs. eapply IH; eauto.
Qed.

Theorem prog_Q : forall sfirst retain script, well_formed script -> forall j,
  Q (N.to_nat retain) script (firstn j (program sfirst retain script))
    (fs_run [] (firstn j (program sfirst retain script))).
Proof.
  intros sfirst retain script Hwf j.
  apply (run_prefix sfirst retain script [] (mkStore retain [] []) [] []); auto.
  - apply Inv_init.
  - intros x. simpl. tauto.
Qed.
