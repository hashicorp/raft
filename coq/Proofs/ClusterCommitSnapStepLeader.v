(* ClusterCommitSnapStepLeader.v — the steps of a leader keep the invariant: a request or a heartbeat is sent
   (LSend, LHeartbeat), the outstanding call fails (CGiveUp), an answer arrives (CAck: the commitment learns what the
   follower stores, or the leader steps down, its volatile state only), the commitCh case of leaderLoop (CCommit),
   and LPropose (dispatchLogs of one entry). *)
From Coq Require Import List NArith Bool Lia.
From stdpp Require Import gmap.
From RaftModel Require Import Base Config Commitment Node Cluster Replicate Leader NodeCodec
  ClusterLog ClusterCommit.
From RaftProofs Require Import LeaderProofs ConfigProofs VoteProofs RecoverProofs ClusterProofs ClusterStepInv ClusterLogSpec
  ClusterLogChain ClusterLogNode ClusterLogLeader ClusterLogInv ClusterCommitLog ClusterCommitChain
  ClusterCommitGhost ClusterCommitInv ClusterCommitUpd ClusterCommitSnapLog ClusterCommitSnapNode
  ClusterCommitSnapLeader ClusterCommitSnapLeader2 ClusterCommitSnapLinv ClusterCommitSnapInv ClusterCommitSnapInv2
  ClusterCommitSnapTouch ClusterCommitSnapStepA ClusterCommitSnapStepL ClusterLogVote NodeStep.
Open Scope N_scope.

Section Send.
  Variable cfg : config.
  Variable Ps : list params.
  Variable fsm : bool.
  Hypothesis HVn : NoDup (voters cfg).

  (* the request setupAppendEntries builds from a leader's log (and snapshot boundary) *)
  Lemma zsetup_send_msg_inv g C LL A V i j n s next last pi pt es c :
    zinvg cfg Ps fsm g C LL A V -> In n (cnodes g) -> gn_run n = Up s -> v_role s = Leader -> 1 <= next ->
    setup_send (gn_P n) s next last = SendAE pi pt es c ->
    msg_inv cfg Ps C LL A (mkAM i j (mkAReq (v_term s) i i pi pt es c)) /\
    mchain C (pi, pt) es /\ (forall e, In e es -> e_term e <= v_term s).
  Proof.
    intros HI Hin Hr Hrole Hnext Hs.
    pose proof (zg_ci HI) as Hci. pose proof (ci_ok Hci) as HC.
    destruct (znode_zup_wfu HI n s Hin Hr) as [Hz [_ Hvt]].
    pose proof (zg_node HI n Hin) as (_ & _ & Hn). rewrite Hr in Hn.
    destruct (setup_send_chainS C (gn_P n) s next last pi pt es c HC Hz Hnext Hs) as (M1 & M2 & M3 & M4 & -> & M6).
    split; [|split; [exact M1|intros e He; rewrite Hvt; apply M2, He]].
    assert (Hheld : forall x i0, d_log s !! i0 = Some x -> anc C (key x) (last_entry s)).
    { intros x i0 Hx. rewrite last_entry_lk. apply (zshape_log_lk C _ _ _ _ _ Hz i0 x Hx). }
    assert (Hlast : last_key_of (mkAReq (v_term s) i i pi pt es (v_commit s)) = (0, 0) \/
                    anc C (last_key_of (mkAReq (v_term s) i i pi pt es (v_commit s))) (last_entry s)).
    { unfold last_key_of. cbn [aq_entries aq_prevIdx aq_prevTerm]. destruct es as [|e0 r].
      - destruct M6 as [E|[E|(x & Hx & Ex)]]; [left; exact E|right|right].
        + rewrite E, last_entry_lk. apply (zshape_b_lk C _ _ _ _ _ Hz).
        + rewrite <- Ex. apply (Hheld x _ Hx).
      - right. destruct (M4 (last_of (e0 :: r))) as [k Hk]; [apply last_in; discriminate|]. apply (Hheld _ k Hk). }
    split; [|split]; cbn [am_req aq_entries aq_term aq_prevIdx aq_prevTerm aq_commit].
    - intros e He. destruct (M4 e He) as [k Hk]. split; [apply (zu_dec Hn k e Hk)|].
      apply (zleader_log_tchain cfg Ps fsm g C LL A V n s k e HI Hin Hr Hrole Hk).
    - exact M3.
    - intros k0 Hanc Hpos Hle. destruct Hlast as [E|Hh].
      + rewrite E in Hanc. apply anc_root in Hanc; [|exact HC]. subst k0. simpl in Hpos. lia.
      + rewrite Hvt. apply (lastk_CK cfg Ps fsm g C LL A V HI n s k0 Hin Hr); [eapply anc_trans; eauto|exact Hpos|lia].
  Qed.

  Theorem zinv_lsend sn g C LL A V i j next last g' : zinvg cfg Ps fsm g C LL A V ->
    cstep sn [cfg] g (CBase (LSend i j next last)) = Some g' -> zinvg cfg Ps fsm g' C LL A V.
  Proof.
    intros HI Hstep. apply cstep_base_inv in Hstep. destruct Hstep as (Hok & l' & Hl & ->).
    destruct (lstep_send_inv _ _ _ _ _ _ _ _ Hl) as (n & s & pi & pt & es & c & Hfind & Hrun & Hrole & Hij & Hnext & _ & Hsend & ->).
    fold (cnodes g) in Hfind. destruct (find_node_in _ _ _ Hfind) as [Hin Hid]. cbn [lg_g g_nodes].
    rewrite (refresh_same _ _ (zinvg_nodup HI)).
    destruct (zsetup_send_msg_inv g C LL A V i j n s next last pi pt es c HI Hin Hrun Hrole Hnext Hsend) as (Hmi & Hmc & Hts).
    unfold send_ok in Hok. destruct (find_lead (cg_lead g) i) as [ld|] eqn:Hfl; [|discriminate].
    apply (zinv_send_msg cfg Ps fsm g C LL A V i n s (mkAM i j (mkAReq (v_term s) i i pi pt es c)) _ HI Hfind Hrun Hrole); try reflexivity.
    - exact Hij.
    - exact Hmc.
    - exact Hts.
    - exact Hmi.
    - right. cbn [base_leads]. rewrite Hfl. exists ld, (with_out ld j (Some (length (lg_msgs (cg_l g))))). auto 10.
  Qed.

  Theorem zinv_lheartbeat sn g C LL A V i j g' : zinvg cfg Ps fsm g C LL A V ->
    cstep sn [cfg] g (CBase (LHeartbeat i j)) = Some g' -> zinvg cfg Ps fsm g' C LL A V.
  Proof.
    intros HI Hstep. apply cstep_base_inv in Hstep. destruct Hstep as (_ & l' & Hl & ->).
    destruct (lstep_heartbeat_inv _ _ _ _ _ _ Hl) as (n & s & Hfind & Hrun & Hrole & Hij & ->).
    fold (cnodes g) in Hfind. cbn [lg_g g_nodes].
    rewrite (refresh_same _ _ (zinvg_nodup HI)).
    pose proof (ci_ok (zg_ci HI)) as HC.
    apply (zinv_send_msg cfg Ps fsm g C LL A V i n s (mkAM i j (mkAReq (v_term s) i i 0 0 [] 0)) _ HI Hfind Hrun Hrole); try reflexivity.
    - exact Hij.
    - intros e [].
    - split; [intros e []|]. split; [left; reflexivity|].
      intros k0 Hanc Hpos _. unfold last_key_of in Hanc. cbn in Hanc. apply anc_root in Hanc; [|exact HC]. subst k0. simpl in Hpos. lia.
    - left. reflexivity.
  Qed.

  Theorem zinv_giveup sn g C LL A V i j g' : zinvg cfg Ps fsm g C LL A V ->
    cstep sn [cfg] g (CGiveUp i j) = Some g' -> zinvg cfg Ps fsm g' C LL A V.
  Proof.
    intros HI Hstep. apply cstep_giveup_inv in Hstep. destruct Hstep as (n & ld & s & k & Hf & Hfl & Hr & _ & _ & ->).
    apply (zinv_set_lead cfg Ps fsm g C LL A V i _ HI). intros n0 s0 Hin0 Hr0 Hl0 _.
    eapply (zleads_same_cm cfg Ps fsm g _ C LL A V i ld (with_out ld j None) HI Hfl); try reflexivity; assumption.
  Qed.
End Send.

Section Leader.
  Variable cfg : config.
  Variable Ps : list params.
  Variable fsm : bool.
  Hypothesis HVn : NoDup (voters cfg).

  Theorem zinv_ack_same g C LL A V k g' a m n ld0 s :
    zinvg cfg Ps fsm g C LL A V ->
    nth_error (cg_ans g) k = Some a -> nth_error (lg_msgs (cg_l g)) (rs_req a) = Some m ->
    find_node (cnodes g) (am_from m) = Some n -> find_lead (cg_lead g) (am_from m) = Some ld0 -> gn_run n = Up s ->
    v_role s = Leader -> v_term s = aq_term (am_req m) ->
    (aq_term (am_req m) <? ar_term (rs_resp a)) = false ->
    g' = ack_result g a m n s ld0 -> zinvg cfg Ps fsm g' C LL A V.
  Proof.
    intros HI Ha Hm Hf Hfl Hr Hrole Ht Hst ->. unfold ack_result. cbv zeta. rewrite Hst.
    destruct (find_node_in _ _ _ Hf) as [Hin Hid].
    assert (Hbk : forall ldn, (zlead_inv cfg (mkCG (cg_l g) (set_lead (cg_lead g) (am_from m) ldn) (cg_hb g) (cg_ans g)) C LL A n s) ->
              zinvg cfg Ps fsm (mkCG (cg_l g) (set_lead (cg_lead g) (am_from m) ldn) (cg_hb g) (cg_ans g)) C LL A V).
    { intros ldn Hn. apply (zinv_set_lead cfg Ps fsm g C LL A V _ ldn HI). intros x sx Hx Hrx Hlx Hxi.
      rewrite (zinvg_node_eq HI x n Hx Hin) in Hrx by congruence. rewrite Hr in Hrx. inversion Hrx; subst. rewrite (zinvg_node_eq HI x n Hx Hin) by congruence. exact Hn. }
    assert (Hfl' : find_lead (cg_lead g) (gn_id n) = Some ld0) by (rewrite Hid; exact Hfl).
    pose proof (zg_lead HI n s Hin Hr Hrole) as HZ. destruct (zlead_inv_at HZ Hfl') as (tl & L & Z1 & Z2).
    assert (Hsame : forall ldn, ld_cm ldn = ld_cm ld0 -> ld_next0 ldn = ld_next0 ld0 -> ld_notified ldn = ld_notified ld0 -> ld_infl ldn = ld_infl ld0 ->
              zinvg cfg Ps fsm (mkCG (cg_l g) (set_lead (cg_lead g) (am_from m) ldn) (cg_hb g) (cg_ans g)) C LL A V).
    { intros ldn E1 E2 E3 E4. apply Hbk.
      apply (zlead_inv_ext (ld' := ldn) [] [] [] HZ eq_refl eq_refl eq_refl eq_refl Z1 Hfl'); auto.
      cbn [cg_lead]. rewrite Hid. apply find_lead_set_same. }
    destruct (ar_success (rs_resp a)) eqn:Hsucc; [|apply Hsame; reflexivity].
    destruct (aq_entries (am_req m)) as [|e0 er] eqn:Ees; [apply Hsame; reflexivity|].
    set (es := e0 :: er) in *. set (li := e_idx (last_of es)).
    (* the report is below the no-op or backed by an acceptance *)
    pose proof (zg_l HI) as Hl. pose proof (zg_ci HI) as Hci. pose proof (ci_ok Hci) as HC.
    assert (Hmin : In m (lg_msgs (cg_l g))) by (eapply nth_error_In; eauto).
    assert (Hlast : In (last_of es) (aq_entries (am_req m))) by (rewrite Ees; apply last_in; discriminate).
    assert (Hli : li < ld_next0 ld0 \/ In (am_to m, (li, v_term s)) A).
    { destruct (zl_msgs [cfg] _ C Hl m Hmin) as (_ & _ & _ & Hterms).
      destruct (N.eq_dec (e_term (last_of es)) (v_term s)) as [Eq|Hne].
      - right. destruct (zg_ans HI a (nth_error_In _ _ Ha)) as (m' & Hm' & Hacc).
        rewrite Hm in Hm'. inversion Hm'; subst m'. rewrite Ees in Hacc. fold es in Hacc.
        replace (li, v_term s) with (key (last_of es)) by (unfold key, li; rewrite Eq; reflexivity).
        apply Hacc; [exact Hsucc|discriminate|congruence].
      - left. destruct (zg_msg HI m Hmin) as (M1 & _). destruct (M1 _ Hlast) as [_ (c & tl' & Hll & Hk)].
        rewrite <- Ht in Hll. destruct (ci_uniq Hci _ _ _ _ _ Hll (li_rec L)) as [_ ->].
        destruct Hk as [[Hk _]|Hk]; [simpl in Hk; congruence|].
        destruct (anc_le C _ _ HC Hk) as [Hle _]. unfold key in Hle. simpl in Hle. unfold li. rewrite (li_next0 L). lia. }
    match goal with |- zinvg _ _ _ (mkCG _ (set_lead _ _ ?LD) _ _) _ _ _ _ => set (ldn := LD) end.
    apply Hbk.
    assert (Ein : ld_infl ldn = ld_infl ld0) by (unfold ldn; match goal with |- context [if ?B then _ else _] => destruct B end; reflexivity).
    apply (zlead_inv_of tl ldn); [cbn [cg_lead]; rewrite Hid; apply find_lead_set_same| |exact Z1|unfold infl_ok; rewrite Ein; exact Z2].
    apply (lead_view_match L HVn ldn (am_to m) li).
    - unfold ldn. match goal with |- context [if ?B then _ else _] => destruct B end; reflexivity.
    - unfold ldn. match goal with |- context [if ?B then _ else _] => destruct B end; reflexivity.
    - exact Hli.
    - unfold ldn. match goal with |- context [if ?B then _ else _] => destruct B eqn:EB end; intros E.
      + left. exact E.
      + right. apply N.eqb_neq in EB. exact EB.
  Qed.
  Let HQ := quorums_intersect_one cfg HVn.

  (* stepping down, after a failed StoreLogs in dispatchLogs (which may have staged a commit index) or on a higher term *)
  Lemma zinv_leader_quits g C LL A V i n s st leads' hb' :
    zinvg cfg Ps fsm g C LL A V -> find_node (cnodes g) i = Some n -> gn_run n = Up s -> v_role s = Leader ->
    (forall i', i' <> i -> find_lead leads' i' = find_lead (cg_lead g) i') ->
    zinvg cfg Ps fsm (mkCG (mkLG (set_node_run (lg_g (cg_l g)) i n (Up (quit_leader s st))) (lg_msgs (cg_l g))) leads' hb' (cg_ans g)) C LL A V.
  Proof.
    intros HI Hf Hr Hrole Hlo. destruct (find_node_in _ _ _ Hf) as [Hin Hid].
    apply (zinv_leader_vol cfg Ps fsm HVn g C LL A V i n s (quit_leader s st) leads' hb' HI Hf Hr Hrole); try reflexivity;
      [repeat split|exact Hlo|..].
    - pose proof (zg_node HI n Hin) as (_ & _ & N3). rewrite Hr in N3. destruct N3. constructor; assumption.
    - apply (zg_kc HI n s Hin Hr).
    - apply (zg_fsm HI n s Hin Hr).
    - intros E. discriminate.
  Qed.

  Theorem zinv_ack sn g C LL A V k g' : zinvg cfg Ps fsm g C LL A V ->
    cstep sn [cfg] g (CAck k) = Some g' -> zinvg cfg Ps fsm g' C LL A V.
  Proof.
    intros HI Hstep. apply cstep_ack_inv in Hstep.
    destruct Hstep as (a & m & n & ld0 & s & Ha & Hm & Hf & Hfl & Hr & Hrole & Ht & Hout & ->).
    destruct (aq_term (am_req m) <? ar_term (rs_resp a)) eqn:Hst.
    - unfold ack_result. cbv zeta. rewrite Hst.
      replace (set_state s Follower) with (quit_leader s (d_staged s)) by (destruct s; reflexivity).
      apply (zinv_leader_quits g C LL A V (am_from m) n s _ _ _ HI Hf Hr Hrole). intros i' Hne. apply find_lead_set_other, Hne.
    - eapply (zinv_ack_same g C LL A V k _ a m n ld0 s); eauto.
  Qed.

  Lemma QA_le_top g C LL A V n s q : zinvg cfg Ps fsm g C LL A V -> In n (cnodes g) -> gn_run n = Up s -> v_role s = Leader ->
    QA cfg A q (v_term s) -> q <= v_lastLogIdx s.
  Proof.
    intros HI Hin Hr Hrole (W & HW & Hall). destruct (majority_nonempty _ _ HW) as [w Hw].
    destruct (Hall w Hw) as (v & Hv & Ha).
    destruct (vi_ac (zg_vi HI) w (v, v_term s) Ha) as [(x & p & Hx & Ex) _].
    destruct (zg_lead_view HI n s Hin Hr Hrole) as (tl & ld & _ & L & _).
    assert (Ext : e_term x = v_term s) by (inversion Ex; reflexivity).
    pose proof (li_bound L (ci_ok (zg_ci HI)) x p Hx Ext) as Hle. inversion Ex. lia.
  Qed.

  (* the commitCh case keeps the per-server invariant: lastApplied follows the commit index, the FSM follows lastApplied *)
  Lemma leader_commit_znode s cm infl ls2 tr res : keys_ok (d_log s) -> leader_commit (mkLS s cm infl) = Some (ls2, tr, res) ->
    v_commit s <= cm_commit cm -> znode_upg cfg Ps fsm s -> znode_upg cfg Ps fsm (l_node ls2).
  Proof.
    intros Hk Hlc Hvc N3.
    pose proof (leader_commit_ckeep _ _ _ _ Hlc) as (K & Kc & _ & Kcc & _). cbn [l_node l_cm] in K, Kc, Kcc.
    pose proof (ckeep_fields K) as F.
    destruct (leader_commit_fsm s cm infl ls2 tr res Hk Hlc) as [_ Hfsm].
    pose proof (zu_sa N3). pose proof (zu_ac N3). pose proof (zu_fa N3). pose proof (zu_fs N3).
    constructor; rewrite ?(ck_log F), ?(ck_snaps F), ?(ck_latest F), ?(ck_snapIdx F), ?Kc.
    - apply (zu_dec N3).
    - apply (zu_scfg N3).
    - apply (zu_lat N3).
    - destruct Kcc as [-> | ->]; [apply (zu_com N3)|apply (zu_lat N3)].
    - destruct Hfsm as [[E _]|(E & _)]; lia.
    - destruct Hfsm as [[E _]|(E1 & E2 & _)]; lia.
    - destruct Hfsm as [[E1 E2]|(E1 & E2 & [E3|(e & E4 & E5 & _)])]; [rewrite E1, E2; assumption|rewrite E3; lia|].
      rewrite E5. unfold key. simpl. lia.
    - destruct Hfsm as [[E1 E2]|(E1 & E2 & [E3|(e & E4 & E5 & _)])]; [rewrite E2; assumption|rewrite E3; assumption|].
      right. rewrite E5. unfold key. simpl. lia.
  Qed.

  Theorem zinv_commit sn g C LL A V i g' : zinvg cfg Ps fsm g C LL A V ->
    cstep sn [cfg] g (CCommit i) = Some g' -> zinvg cfg Ps fsm g' C LL A V.
  Proof.
    intros HI Hstep. apply cstep_commit_inv in Hstep.
    destruct Hstep as (n & ld & s & ls2 & tr & res & Hf & Hfl & Hr & Hrole & Hnt & Hlc & ->).
    destruct (find_node_in _ _ _ Hf) as [Hin Hid]. pose proof (zg_ci HI) as Hci.
    assert (Hfl' : find_lead (cg_lead g) (gn_id n) = Some ld) by (rewrite Hid; exact Hfl).
    destruct (zlead_inv_at (zg_lead HI n s Hin Hr Hrole) Hfl') as (tl & L & Z1 & Z2).
    pose proof (li_notified L Hnt) as Hq0. destruct (li_QA L Hq0) as [L9a L9b].
    assert (Hvc : v_commit s <= cm_commit (ld_cm ld)) by (pose proof (li_vc L); lia).
    pose proof (leader_commit_ckeep _ _ _ _ Hlc) as (K & Kc & Kcm & _). cbn [l_node l_cm] in K, Kc, Kcm.
    set (s2 := l_node ls2) in *. pose proof (ckeep_fields K) as F.
    assert (Hdt : d_term s2 = d_term s) by apply (dproj_eq _ _ (ck_dproj F)).
    destruct (znode_zup_wfu HI n s Hin Hr) as [Hz [_ Hvt]]. pose proof (leader_commit_fsm s (ld_cm ld) (ld_infl ld) ls2 tr res (log_in_keys C _ _ (zs_in Hz)) Hlc) as [Hinfl Hfsm]. fold s2 in Hfsm.
    (* every entry the leader holds at or below its commitment's index is committed in its term *)
    assert (Hck : forall j e, d_log s !! j = Some e -> j <= cm_commit (ld_cm ld) -> CK cfg C LL A (d_term s2) (key e)).
    { intros j e He Hj. apply (lead_CK L _ _ Hq0); [lia|apply (zleader_log_tchain cfg Ps fsm g C LL A V n s j e HI Hin Hr Hrole He)|].
      destruct (zs_in Hz j e He) as (Ie & _). unfold key. simpl. lia. }
    apply (zinv_leader_vol cfg Ps fsm HVn g C LL A V i n s s2 _ _ HI Hf Hr Hrole (ck_dproj F) (ck_term F) (ckeep_lkeep _ _ K) (ck_snapTerm F)).
    - intros i' Hne. apply find_lead_set_other, Hne.
    - pose proof (zg_node HI n Hin) as (_ & _ & N3). rewrite Hr in N3.
      apply (leader_commit_znode s (ld_cm ld) (ld_infl ld) ls2 tr res (log_in_keys C _ _ (zs_in Hz)) Hlc Hvc N3).
    - (* what the leader now knows to be committed *)
      unfold last_index. rewrite Kc, (ck_lastIdx F), (ck_snapIdx F), (ck_log F). split; [|intros j e He Hj; apply (Hck j e He Hj)].
      pose proof (QA_le_top g C LL A V n s _ HI Hin Hr Hrole L9b). lia.
    - (* the position of its FSM *)
      intros Hg. destruct Hfsm as [[_ E2]|(E1 & E2 & [E3|(e & E4 & E5 & E6)])]; try (rewrite ?E2, ?E3, Hdt; apply (zg_fsm HI n s Hin Hr Hg)).
      right. rewrite E5. destruct E6 as [(fid & E6)|(j & E6)].
      + destruct (Z2 e fid E6) as [Et (p & Pp)].
        split; [exists e, p; auto|]. apply (lead_CK L _ _ Hq0); [lia| |unfold key; simpl; lia].
        eapply tchain_created; [exact (li_rec L)|exists e, p; auto|exact Et].
      + destruct (zs_in Hz j e E6) as (Ie & (p & Pp) & _). split; [exists e, p; auto|]. apply (Hck j e E6). lia.
    - (* the leadership state after the commit *)
      intros _. exists tl, (with_notified (with_cm ld (l_cm ls2) (l_inflight ls2)) false). split; [apply find_lead_set_same|]. split; [|split].
      + rewrite <- Hid. apply (lead_view_ext L [] [] [] s2); [exact (ck_term F)|unfold topk; rewrite (ck_lastIdx F), (ck_lastTerm F); reflexivity|right; lia|rewrite Kcm; reflexivity|reflexivity|discriminate|intros y p []].
      + rewrite (ck_lastIdx F), (ck_snapIdx F). exact Z1.
      + intros e fid He. cbn [ld_infl with_notified with_cm] in He. rewrite (ck_term F). apply (Z2 e fid), Hinfl, He.
  Qed.

  Theorem zinv_propose sn g C LL A V i ty data fs g' : zinvg cfg Ps fsm g C LL A V -> ty <> LogConfiguration ->
    cstep sn [cfg] g (CBase (LPropose i ty data fs)) = Some g' -> exists Cn An, zinvg cfg Ps fsm g' (Cn ++ C) LL (An ++ A) V.
  Proof.
    intros HI Hty Hstep. apply cstep_base_inv in Hstep. destruct Hstep as (_ & l' & Hl & ->).
    pose proof (zg_l HI) as Hlinv. pose proof (zg_ci HI) as Hci. pose proof (ci_ok Hci) as HC.
    destruct (lstep_propose_inv _ _ _ _ _ _ _ _ Hl) as (n & s & ls1 & res1 & tr1 & fs1 & Hf & Hr & Hrole & Ed1 & ->).
    fold (cnodes g) in Hf. destruct (find_node_in _ _ _ Hf) as [Hin Hid].
    destruct (zg_lead_view HI n s Hin Hr Hrole) as (tl & ld & L2 & L & Z1 & Z2). rewrite Hid in L2.
    pose proof (dispatch_one_ls (gn_P n) s (ld_cm ld) (ld_infl ld) fs ty data 0) as Els.
    pose proof (dispatch_one_cases (gn_P n) s fs ty data 0) as Hcase. cbv zeta in Hcase.
    unfold base_leads. rewrite Hf, L2, Hr.
    destruct (dispatch (gn_P n) (mkLS s (ld_cm ld) (ld_infl ld)) fs [(ty, data, 0)]) as [[[ls2 res2] tr2] fs2].
    rewrite Ed1 in Els, Hcase. cbn [fst] in Els, Hcase. subst ls2. cbn [l_node l_cm l_inflight]. set (s2 := l_node ls1) in *.
    destruct (zl_nodes [cfg] _ C Hlinv n Hin) as [Hnl Hlok]. destruct (Hlok s Hr Hrole) as (Lk1 & Lk2 & Lk3).
    rewrite Hr in Hnl. simpl in Hnl.
    (* nobody becomes a leader in this step *)
    cbn [lg_g g_nodes set_node_run].
    rewrite (refresh_handler (cnodes g) i n (Up s2) _ (zinvg_nodup HI) Hf).
    2:{ intros s' _ _. rewrite Hr. exact Hrole. }
    destruct (fst (next_fail fs)) eqn:Hok.
    - (* StoreLogs failed *)
      exists [], []. cbn [app]. rewrite Hcase. apply (zinv_leader_quits g C LL A V i n s _ _ _ HI Hf Hr Hrole).
      intros i' Hne. apply find_lead_set_other, Hne.
    - (* the entry is stored *)
      rename Hcase into Happ.
      set (e := new_entry s ty data) in *.
      destruct (leader_last s Z1) as [Hle Hli].
      assert (He1 : e_idx e = v_lastLogIdx s + 1) by (unfold e, new_entry; cbn [e_idx]; rewrite Hli; reflexivity).
      assert (He2 : e_term e = v_term s) by reflexivity.
      destruct (znode_zup_wfu HI n s Hin Hr) as [_ [_ Hvt]].
      pose proof (propose_zlinv_ok [cfg] HQ (cg_l g) C i n s ty data fs Hlinv Hf Hr Hrole Hok) as Hl'.
      cbv zeta in Hl'. rewrite Ed1 in Hl'. cbn [fst] in Hl'. fold s2 in Hl'. fold e in Hl'. rewrite Hle in Hl'.
      destruct (leader_topk cfg Ps fsm g C LL A V HI n s Hin Hr Hrole) as (tl0 & _ & Hck & Hckt & _).
      pose proof (chain_inv_propose C LL e (topk s) (v_term s) (gn_id n) tl Hci (zl_chain [cfg] _ _ Hl') (li_rec L) He2 Hck Hckt (li_anc L)) as Hci'.
      exists [(e, topk s)], [(i, key e)].
      assert (Hks : keep_sess (Up s2) (gn_sess n) = None) by (rewrite Lk2; reflexivity).
      unfold set_node_run in Hl' |- *. rewrite Hks in *.
      set (n' := mkGN (gn_P n) (Up s2) None (gn_next n)) in *.
      assert (Hnl2 : zup ((e, topk s) :: C) s2).
      { assert (Hin' : In n' (g_nodes (lg_g (mkLG (mkG (upd_node (g_nodes (lg_g (cg_l g))) i n') (g_resps (lg_g (cg_l g))) (g_leaders (lg_g (cg_l g))) (g_grants (lg_g (cg_l g)))) (lg_msgs (cg_l g)))))).
        { cbn. apply in_upd_node with (n := n). exact Hf. }
        destruct (zl_nodes [cfg] _ _ Hl' n' Hin') as [H _]. exact H. }
      match goal with |- zinvg _ _ _ ?G _ _ _ _ => set (g' := G) end.
      destruct (leader_append cfg Ps fsm g g' C LL [] A V i n s s s2 e (topk s) (gn_next n) HI Hf Hr (eq_refl (rest s)) (N.le_refl _) Hvt Happ eq_refl eq_refl)
        as (Fva & Fac & FAn & FN); [exact Hty|exact (ci_ok Hci')|exact Hnl2|exists (gn_id n), tl; exact (li_rec L)|].
      apply (zinv_touch cfg Ps fsm HVn g g' C [(e, topk s)] LL [] A [(i, key e)] V [] i n n' [] [] [] HI); [| |exact Hl'| | | |exact FAn|apply FN| | | |].
      + apply touch_nodes; try reflexivity; [exact Hf|exact Hid|]. intros i' Hne. apply find_lead_set_other, Hne.
      + unfold dtn. rewrite Hr. cbn [n' gn_run image]. rewrite (ap_dterm Happ). lia.
      + constructor; [exact Hci'|intros w T' c kw rq k k0 []|exact Fva|intros T' c tl' []|intros w T' c kw rq []|exact Fac].
      + apply (zg_ll HI).
      + intros y p [Ey|[]]. inversion Ey; subst y p. rewrite He2, <- Hid. exact Lk1.
      + (* the leadership state: first the server, then the commitment *)
        fold n'. intros s0 Hs0 Hl0. cbn [n' gn_run] in Hs0. inversion Hs0; subst s0.
        assert (Htop : topk s2 = key e) by (unfold topk, key; rewrite (ap_lastIdx Happ), (ap_lastTerm Happ), Hli, He1, He2; reflexivity).
        apply (zlead_inv_of tl (with_cm ld (cm_step (ld_cm ld) (CMatch (p_self (gn_P n)) (e_idx e))) (ld_infl ld ++ [(e, 0)]))).
        * cbn [g' cg_lead]. change (gn_id n') with (gn_id n). rewrite Hid. apply find_lead_set_same.
        * apply (lead_view_match (lead_view_append L [(i, key e)] s2 e He2 (ap_term Happ) Htop (ap_commit Happ)) HVn _ (p_self (gn_P n)) (e_idx e));
            [reflexivity|reflexivity| |cbn; intros H; left; exact H].
          right. left. rewrite (ap_term Happ). change (p_self (gn_P n)) with (gn_id n). rewrite Hid. unfold key. rewrite He2. reflexivity.
        * rewrite (ap_snapIdx Happ), (ap_lastIdx Happ). unfold last_index. lia.
        * intros x fid Hxi. cbn [ld_infl with_cm] in Hxi. rewrite (ap_term Happ). apply in_app_iff in Hxi. destruct Hxi as [Hxi|[Ex|[]]].
          -- destruct (Z2 x fid Hxi) as [Et (p & Pp)]. split; [exact Et|exists p; right; exact Pp].
          -- inversion Ex; subst x fid. split; [exact He2|exists (topk s); left; reflexivity].
      + fold n'. apply (ni_live_keep [] [] n' (zg_n HI n Hin) eq_refl).
        intros T' c. rewrite Hr. unfold live. cbn [n' gn_run image]. rewrite (ap_dproj Happ). auto.
      + apply sess_req_none. reflexivity.
      + intros m [].
      + intros x [].
      + apply votes_none.
  Qed.
End Leader.
