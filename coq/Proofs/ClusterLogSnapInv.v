(* ClusterLogSnapInv.v — the cluster-level invariant of the Log Matching proof, for lstep with and
   without takeSnapshot: the shell of Proofs/ClusterLogShell.v over cb_ok, snlog and requests with an honest
   commit index, and what that file asks of them (read off Proofs/ClusterLogSnapState.v and
   Proofs/ClusterLogSnapNode.v), so that every step of lstep h keeps it. *)
From Coq Require Import List NArith Bool Lia.
From stdpp Require Import gmap.
From RaftModel Require Import Base Config Node NodeCodec Candidate Leader Replicate Cluster ClusterLog.
From RaftProofs Require Import VoteProofs ClusterProofs ClusterStepInv ClusterLogSpec ClusterLogChain
  ClusterLogLeader ClusterLogShell ClusterCommitInv ClusterCommitSnapLog ClusterLogSnapState ClusterLogSnapNode.
Open Scope N_scope.

Section SInv.
  Variable h : bool.
  Variable base : list entry.
  Variable c0 : N.
  Hypothesis Hh : hist_ok (0, 0) base.
  (* without takeSnapshot nothing is protected: the common history matters up to c0 = 0 *)
  Hypothesis Hc0 : h = false -> c0 = 0.
  Variable cfgs : list config.
  Hypothesis HQ : quorums_intersect cfgs.

  (* a request is a piece of the history; with takeSnapshot its commit index is honest *)
  Definition srq (C : chain) (a : areq) : Prop := lrq C a /\ (h = true -> aq_commit a <= c0).

  Definition snp (C : chain) (_ : params) (r : nrun) : Prop := snlog h base c0 C r.

  Definition sinv : lgstate -> chain -> Prop := shell cfgs (cb_ok base c0) snp srq.

  Lemma snp_mono C C' P r : incl C C' -> snp C P r -> snp C' P r.
  Proof. apply snlog_mono. Qed.

  Lemma srq_mono C C' a : incl C C' -> srq C a -> srq C' a.
  Proof. intros Hc [A B]. split; [eapply lrq_mono; eauto|exact B]. Qed.

  Lemma snp_event C P r e cut fs r' ob out : cb_ok base c0 C -> wfr r -> snp C P r -> input_ok h e = true ->
    step_full P r e cut fs = (r', ob, out) -> snp C P r'.
  Proof.
    intros HC Hw Hnl Hok Hstep. unfold snp in *.
    destruct e; simpl in Hok; try discriminate; try (eapply simple_step_s; eauto; exact I).
    (* what is left is takeSnapshot *)
    destruct r as [s|s].
    - eapply snapshot_step_s; eauto.
    - simpl in Hstep. inversion Hstep; subst. exact Hnl.
  Qed.

  Lemma input_quiet e : input_ok h e = true -> quiet_event e.
  Proof. destruct e; simpl; intros H; try discriminate; exact I. Qed.

  Lemma snp_deliver C P s a cut fs r' ob out : cb_ok base c0 C -> wfr (Up s) -> snp C P (Up s) -> srq C a ->
    step_full P (Up s) (NAppend a) cut fs = (r', ob, out) -> snp C P r'.
  Proof. intros HC Hw Hnl ((Hmc & Hterm) & Hcm) Hsf. eapply (append_step_s h base c0 Hh C HC); eauto. Qed.

  Lemma snp_send C P s next last pi pt es c i : cb_ok base c0 C -> snp C P (Up s) -> v_term s = d_term s -> 1 <= next ->
    setup_send P s next last = SendAE pi pt es c -> srq C (mkAReq (v_term s) i i pi pt es c).
  Proof.
    intros HC Hnl Hvt Hnext Hsend.
    destruct (setup_send_chain h base c0 C P s next last pi pt es c HC Hnl Hnext Hsend) as (Hmc & Hts & Hcm).
    split; [split; [exact Hmc|]|exact Hcm]. simpl. rewrite Hvt. exact Hts.
  Qed.

  Lemma srq_hb C T i : srq C (mkAReq T i i 0 0 [] 0).
  Proof. split; [split; [exact I|intros e []]|]. intros _. simpl. lia. Qed.

  Lemma snp_quit C P s : snp C P (Up s) -> snp C P (Up (quit_leader s (if p_track P then v_commit s else d_staged s))).
  Proof.
    intros [HZ [HX HN]]. split; [apply (zup_lkeep C s _ HZ (quit_leader_lkeep _ _)); reflexivity|]. split; [|exact HN].
    intros Et. destruct (HX Et) as [[X1 X2 X3 X4 X5] X6 X7 X8 X9 X10 X11 X12]. simpl in X1, X2, X3, X4, X5.
    constructor; [constructor; simpl|..]; auto. destruct (p_track P); assumption.
  Qed.

  Lemma snp_append C P s s' ty data : cb_ok base c0 C -> snp C P (Up s) -> v_term s = d_term s ->
    (forall x p, In (x, p) C -> e_term x = v_term s -> e_idx x <= v_lastLogIdx s) ->
    appended P s s' (new_entry s ty data) ->
    cb_ok base c0 ((new_entry s ty data, last_entry s) :: C) /\ snp ((new_entry s ty data, last_entry s) :: C) P (Up s').
  Proof.
    intros HCB [HZ [HX HN]] Hvt Hown Happ. unfold snp. cbn [snlog]. pose proof (cb_chain HCB) as HC.
    set (e := new_entry s ty data) in *.
    assert (He1 : e_idx e = last_index s + 1) by reflexivity.
    assert (He2 : e_term e = v_term s) by reflexivity.
    assert (Hcb : cb_ok base c0 ((e, last_entry s) :: C)).
    { apply cb_ok_cons; auto.
      - intros x q Hx Hkey. unfold key in Hkey. inversion Hkey as [[K1 K2]].
        pose proof (Hown x q Hx (eq_trans K2 He2)). unfold last_index in *. simpl in *. lia.
      - rewrite He1, last_index_lk, last_entry_lk. reflexivity.
      - rewrite He2, Hvt, last_entry_lk. unfold lk. destruct (fst (bk s) <=? fst (topk s)); [apply (zs_tkt HZ)|apply (zs_bt HZ)].
      - rewrite last_entry_lk. apply (zshape_lk_root C _ _ _ _ _ HZ).
      - rewrite He1. unfold last_index. destruct h eqn:Eh; [|rewrite (Hc0 eq_refl); lia].
        destruct (xu_u _ _ _ (HX eq_refl)); lia. }
    split; [exact Hcb|]. apply (leader_append_sup h base c0 C P s s' ty data (cb_chain Hcb) (conj HZ (conj HX HN)) (N.eq_le_incl _ _ Hvt) Happ).
  Qed.

  (* every step of lstep h keeps the invariant *)
  Lemma slstep g C l g' : sinv g C -> lstep h cfgs g l = Some g' ->
    (forall j e cut fs, l = LElect (GInput j e cut fs) -> input_ok h e = true) -> exists C', sinv g' C'.
  Proof.
    (* the arguments are the variables and hypotheses of Section Shell in the order they are declared there:
       CP NP RQ; NP_mono RQ_mono; NP_append NP_quit NP_keep; EV EV_vote EV_quiet; NP_event NP_deliver NP_send RQ_hb *)
    exact (shell_lstep cfgs HQ (cb_ok base c0) snp srq snp_mono srq_mono snp_append snp_quit (fun C _ => sup_keep h base c0 C)
             (fun e => input_ok h e = true) (fun _ => eq_refl) input_quiet snp_event snp_deliver snp_send srq_hb h g C l g').
  Qed.
End SInv.

