(* ConvergeFollower.v — liveness direction of the AppendEntries handler: with no store failure and a
   hole-free follower log, a request whose previous entry matches is accepted, any other is refused
   with the state unchanged (up to the advertised leader).  Both are read off AppendProofs.ae_body_spec: on a
   hole-free log the plan goes through and leaves a hole-free log (plan_wf), and processLogs cannot fail. *)
From Coq Require Import List NArith Bool Lia.
From stdpp Require Import gmap.
From RaftModel Require Import Base Commitment Node Converge.
From RaftProofs Require Import NodeFrame CommitmentProofs AppendProofs.
Open Scope N_scope.

Definition known (e : entry) : Prop := (prepare_kind (e_ty e) =? 3) = false.

Definition log_wf (m : gmap N entry) (last : N) : Prop :=
  (forall i, last < i -> m !! i = None) /\
  (forall i e, m !! i = Some e -> e_idx e = i) /\
  (forall i, 0 < i <= last -> exists e, m !! i = Some e /\ known e).

(* follower_ok without its last clause (lastApplied <= lastLogIndex), which the handler does not keep *)
Definition follower_wf (T : N) (s : nstate) : Prop :=
  v_term s = T /\ v_role s = Follower /\ v_lastSnapIdx s = 0 /\
  log_wf (d_log s) (v_lastLogIdx s) /\
  (0 < v_lastLogIdx s -> exists e, d_log s !! v_lastLogIdx s = Some e /\ e_term e = v_lastLogTerm s).

Lemma follower_ok_wf T s : follower_ok T s -> follower_wf T s /\ v_applied s <= v_lastLogIdx s.
Proof.
  intros (H1 & H2 & H3 & H4 & H5 & H6 & H7 & H8). unfold follower_wf, log_wf, known. auto 10.
Qed.

Lemma follower_wf_ok T s : follower_wf T s -> v_applied s <= v_lastLogIdx s -> follower_ok T s.
Proof.
  intros (H1 & H2 & H3 & (H4 & H5 & H6) & H7) H8. unfold follower_ok. auto 10.
Qed.

Lemma log_wf_store m q news : log_wf m q -> contig q news -> (forall e, In e news -> known e) ->
  log_wf (log_store m news) (q + N.of_nat (length news)) /\
  (forall e, In e news -> log_store m news !! e_idx e = Some e).
Proof.
  intros (W1 & W2 & W3) Hc Hk. destruct (store_suffix q [] news Hc) as (Hlow & _ & Hin).
  assert (Hin' : forall e, In e news -> log_store m news !! e_idx e = Some e).
  { intros e He. rewrite log_store_lookup, (Hin e He). reflexivity. }
  split; [|exact Hin']. split; [|split].
  - intros i Hi. rewrite log_store_lookup. destruct (find_last i news) as [y|] eqn:F.
    + apply find_last_In in F. destruct F as [F1 F2]. pose proof (contig_bound _ _ Hc y F1). lia.
    + apply W1. lia.
  - intros i e. rewrite log_store_lookup. destruct (find_last i news) as [y|] eqn:F.
    + apply find_last_In in F. destruct F as [F1 F2]. intros H; inversion H; subst. reflexivity.
    + apply W2.
  - intros i Hi. destruct (N.le_gt_cases i q) as [Hle|Hgt].
    + rewrite log_store_lookup, Hlow by exact Hle. apply W3. lia.
    + destruct (contig_nth _ _ Hc i) as (e & He & Hei); [lia|]. exists e. rewrite <- Hei.
      split; [apply Hin'; exact He|apply Hk; exact He].
Qed.

Lemma log_wf_delete m last c : log_wf m last -> 0 < c <= last -> log_wf (log_delete m c last) (c - 1).
Proof.
  intros (W1 & W2 & W3) Hc. split; [|split].
  - intros i Hi. rewrite log_delete_lookup. destruct (N.leb_spec c i); [|lia].
    destruct (N.leb_spec i last); simpl; [reflexivity|]. apply W1. lia.
  - intros i e. rewrite log_delete_lookup. destruct (_ && _); [discriminate|]. apply W2.
  - intros i Hi. rewrite log_delete_lookup. destruct (N.leb_spec c i); [lia|]. apply W3. lia.
Qed.

Definition held (m : gmap N entry) (e : entry) : Prop :=
  exists se, m !! e_idx e = Some se /\ e_term se = e_term e.

Lemma scan_wf m last : log_wf m last -> forall es prev, contig prev es -> prev <= last ->
  match scan_entries m last es with
  | ScanNone => True
  | ScanMissing => False
  | ScanNew news => news <> [] /\ contig last news
  | ScanConflict c news => news <> [] /\ prev < c <= last /\ contig (c - 1) news
  end.
Proof.
  intros (W1 & W2 & W3). induction es as [|e r IH]; intros prev Hc Hp; simpl; [exact I|].
  destruct Hc as [He Hr]. destruct (N.ltb_spec last (e_idx e)) as [Hlt|Hge].
  - split; [discriminate|]. assert (prev = last) by lia. subst prev. split; assumption.
  - destruct (W3 (e_idx e)) as (se & Hse & _); [lia|]. rewrite Hse.
    destruct (N.eqb_spec (e_term e) (e_term se)) as [Ht|Ht].
    + specialize (IH (prev + 1) Hr ltac:(lia)).
      destruct (scan_entries m last r) as [news|c news| |]; [exact IH| |exact IH|exact I].
      destruct IH as (I1 & I2 & I3). split; [exact I1|]. split; [lia|exact I3].
    + split; [discriminate|]. split; [lia|]. simpl. rewrite He.
      replace (prev + 1 - 1) with prev by lia. split; [reflexivity|].
      replace (prev + 1 - 1 + 1) with (prev + 1) by lia. exact Hr.
Qed.

Lemma plan_wf a k0 m prev es :
  log_wf m (fst k0) -> (0 < fst k0 -> exists e, m !! fst k0 = Some e /\ e_term e = snd k0) ->
  contig prev es -> prev <= fst k0 -> (forall e, In e es -> known e) ->
  let '(del, sto, ok, k') := ae_plan a k0 (scan_entries m (fst k0) es) false false in
  ok = true /\ log_wf (ae_log m (fst k0) del sto) (fst k') /\
  (0 < fst k' -> exists e, ae_log m (fst k0) del sto !! fst k' = Some e /\ e_term e = snd k').
Proof.
  intros Hw Hk0 Hc Hp Hk. pose proof (scan_wf _ _ Hw _ _ Hc Hp) as Hs.
  pose proof (scan_spec m (fst k0) es prev Hc (proj1 Hw)) as Hsp.
  assert (Hstore : forall m1 q news, log_wf m1 q -> news <> [] -> contig q news -> (forall e, In e news -> known e) ->
            log_wf (log_store m1 news) (e_idx (last_of news)) /\
            (0 < e_idx (last_of news) -> exists e, log_store m1 news !! e_idx (last_of news) = Some e /\ e_term e = e_term (last_of news))).
  { intros m1 q news Hw1 Hne Hcn Hkn. destruct (log_wf_store _ _ _ Hw1 Hcn Hkn) as (L1 & L3).
    destruct (contig_last _ _ Hcn Hne) as [La Lb]. rewrite Lb. split; [exact L1|].
    intros _. exists (last_of news). rewrite <- Lb. split; [apply L3; exact La|reflexivity]. }
  destruct (scan_entries m (fst k0) es) as [news|c news| |]; cbn [ae_plan]; [| |contradiction|auto].
  - destruct Hs as [Hne Hcn]. destruct Hsp as (_ & dup & -> & _). split; [reflexivity|].
    apply (Hstore m (fst k0) news Hw Hne Hcn). intros e He. apply Hk, in_app_iff. auto.
  - destruct Hs as (Hne & Hcl & Hcn). destruct Hsp as (_ & dup & -> & _). split; [reflexivity|].
    apply (Hstore _ (c - 1) news (log_wf_delete _ _ c Hw ltac:(lia)) Hne Hcn).
    intros e He. apply Hk, in_app_iff. auto.
Qed.

Lemma collect_ok m last : log_wf m last -> forall cnt idx, idx + N.of_nat cnt <= last ->
  exists l, collect_logs m idx cnt = Some l.
Proof.
  intros (W1 & W2 & W3). induction cnt as [|cnt IH]; intros idx Hi; simpl.
  - exists []. reflexivity.
  - destruct (W3 (idx + 1)) as (e & He & Hk); [lia|]. rewrite He. unfold known in Hk. rewrite Hk.
    destruct (IH (idx + 1)) as (l & Hl); [lia|]. rewrite Hl. eexists. reflexivity.
Qed.

Lemma process_logs_total s idx : log_wf (d_log s) (v_lastLogIdx s) -> idx <= v_lastLogIdx s -> process_logs s idx <> None.
Proof.
  intros Hw Hi. unfold process_logs. destruct (N.leb_spec idx (v_applied s)); [discriminate|].
  destruct (collect_ok _ _ Hw (N.to_nat (idx - v_applied s)) (v_applied s)) as (l & El); [lia|].
  rewrite El. discriminate.
Qed.

Lemma ae_enter P s fs a : v_term s = aq_term a -> v_role s = Follower ->
  append_entries P s fs a = ae_body P s (set_leader s (aq_addr a) (aq_id a)) (v_term s) [] fs a.
Proof.
  intros H1 H2. unfold append_entries. rewrite <- H1, N.ltb_irrefl, H2. reflexivity.
Qed.

Lemma prev_check_wf T s2 a : follower_wf T s2 ->
  prev_check s2 a = if 0 <? aq_prevIdx a
                    then match d_log s2 !! aq_prevIdx a with
                         | None => None
                         | Some pe => Some (aq_prevTerm a =? e_term pe)
                         end
                    else Some true.
Proof.
  intros (Ht & Hr & Hs & Hw & Hl). unfold prev_check, last_entry. rewrite Hs.
  destruct (N.ltb_spec 0 (aq_prevIdx a)) as [Hp|]; [|reflexivity].
  destruct (N.leb_spec 0 (v_lastLogIdx s2)); [|lia].
  destruct (N.eqb_spec (aq_prevIdx a) (v_lastLogIdx s2)) as [E|E].
  - rewrite E. destruct Hl as (e & He & Hte); [lia|]. rewrite He, Hte. reflexivity.
  - destruct (N.eqb_spec (aq_prevIdx a) 0); [lia|]. reflexivity.
Qed.

Lemma body_wf P s0 s2 rt tr1 fs1 a T s' r tr fs' :
  follower_wf T s2 -> ae_body P s0 s2 rt tr1 fs1 a = Done s' r tr fs' ->
  log_wf (d_log s') (v_lastLogIdx s') ->
  (0 < v_lastLogIdx s' -> exists e, d_log s' !! v_lastLogIdx s' = Some e /\ e_term e = v_lastLogTerm s') ->
  follower_wf T s'.
Proof.
  intros (Ht & Hr & Hs & _) E Hw Hl.
  assert (F : body_frame (fun s => (v_term s, v_role s, v_lastSnapIdx s)) (fun _ => True) s2 tr1
                         (ae_body P s0 s2 rt tr1 fs1 a)) by (eapply ae_body_frame; intros; reflexivity || exact I).
  rewrite E in F. destruct F as [F _]. inversion F as [[F1 F2 F3]]. unfold follower_wf. rewrite F1, F2, F3. auto.
Qed.

Theorem append_reject P s a T : follower_wf T s -> aq_term a = T -> 0 < aq_prevIdx a ->
  (forall pe, d_log s !! aq_prevIdx a = Some pe -> e_term pe <> aq_prevTerm a) ->
  exists s' r tr, append_entries P s [] a = Done s' r tr [] /\
    ar_success r = false /\ ar_noretry r = true /\ ar_term r = T /\ ar_last r = v_lastLogIdx s /\
    follower_wf T s' /\ d_log s' = d_log s /\ v_applied s' = v_applied s.
Proof.
  intros Hwf Ha Hp Hno. pose proof Hwf as (Ht & Hr & Hs & Hw & Hl).
  rewrite ae_enter by congruence. set (s2 := set_leader s (aq_addr a) (aq_id a)).
  pose proof (ae_body_spec P s s2 (v_term s) [] [] a) as Hb. cbv zeta in Hb.
  assert (Hpc : match prev_check s2 a with Some true => true | _ => false end = false).
  { rewrite (prev_check_wf T s2 a Hwf). destruct (N.ltb_spec 0 (aq_prevIdx a)); [|lia].
    change (d_log s2) with (d_log s). destruct (d_log s !! aq_prevIdx a) as [pe|] eqn:E; [|reflexivity].
    destruct (N.eqb_spec (aq_prevTerm a) (e_term pe)) as [Eq|_]; [exfalso; eapply Hno; eauto|reflexivity]. }
  rewrite Hpc in Hb.
  destruct (ae_body P s s2 (v_term s) [] [] a) as [s' r tr fs'|s' tr] eqn:E; [|destruct Hb; discriminate].
  destruct Hb as (-> & Hfs & [L K _ A _ _]). rewrite (Hfs eq_refl). eexists s', _, tr. split; [reflexivity|].
  cbn [ar_success ar_noretry ar_term ar_last negb]. injection K as K1 K2.
  assert (Hli : last_index s = v_lastLogIdx s) by (unfold last_index; rewrite Hs; lia).
  split; [reflexivity|]. split; [reflexivity|]. split; [exact Ht|]. split; [exact Hli|].
  split; [|split; [exact L|destruct A as [[A _]|[A _]]; [exact A|lia]]].
  apply (body_wf P s s2 _ _ _ a T _ _ _ _ Hwf E); rewrite L, K1, ?K2; assumption.
Qed.

Theorem append_accept P s a T : follower_wf T s -> aq_term a = T ->
  contig (aq_prevIdx a) (aq_entries a) -> (forall e, In e (aq_entries a) -> known e) ->
  (aq_prevIdx a = 0 \/ exists pe, d_log s !! aq_prevIdx a = Some pe /\ e_term pe = aq_prevTerm a) ->
  exists s' r tr, append_entries P s [] a = Done s' r tr [] /\
    ar_success r = true /\ ar_term r = T /\ follower_wf T s' /\
    (forall i, i <= aq_prevIdx a -> d_log s' !! i = d_log s !! i) /\
    (forall e, In e (aq_entries a) -> held (d_log s') e) /\
    v_applied s' <= N.max (v_applied s) (aq_commit a).
Proof.
  intros Hwf Ha Hc Hk Hprev. pose proof Hwf as (Ht & Hr & Hs & Hw & Hl).
  rewrite ae_enter by congruence. set (s2 := set_leader s (aq_addr a) (aq_id a)).
  pose proof (ae_body_spec P s s2 (v_term s) [] [] a) as Hb. cbv zeta in Hb.
  assert (Hpc : match prev_check s2 a with Some true => true | _ => false end = true /\ aq_prevIdx a <= v_lastLogIdx s).
  { rewrite (prev_check_wf T s2 a Hwf). change (d_log s2) with (d_log s). destruct Hprev as [E|(pe & E1 & E2)].
    - rewrite E. split; [reflexivity|lia].
    - rewrite E1, E2, N.eqb_refl. split; [destruct (0 <? aq_prevIdx a); reflexivity|].
      destruct (N.le_gt_cases (aq_prevIdx a) (v_lastLogIdx s)) as [|Hgt]; [assumption|].
      rewrite (proj1 Hw _ Hgt) in E1. discriminate. }
  destruct Hpc as [Hpc Hle]. rewrite Hpc in Hb. cbn [hd tl] in Hb.
  change (d_log s2) with (d_log s) in Hb. change (v_lastLogIdx s2) with (fst (cached_key s)) in Hb.
  change (cached_key s2) with (cached_key s) in Hb. change (v_commit s2) with (v_commit s) in Hb.
  change (v_applied s2) with (v_applied s) in Hb. change (v_lastSnapIdx s2) with (v_lastSnapIdx s) in Hb.
  pose proof (plan_wf a (cached_key s) (d_log s) _ _ Hw Hl Hc Hle Hk) as Hpw.
  pose proof (plan_log_ok a (cached_key s) _ _ _ _ false false Hc (proj1 Hw)) as Hpl.
  change (fst (cached_key s)) with (v_lastLogIdx s) in *.
  destruct (ae_plan a (cached_key s) _ false false) as [[[del sto] ok] k']. destruct Hpw as (-> & W' & L').
  destruct Hpl as [_ Hok]. destruct (Hok eq_refl) as [[Hbelow _] Hmatch]. rewrite Hs, N.max_0_r in Hb.
  pose proof (follower_commit_spec (v_commit s) (aq_commit a) (last_new a) (fst k')) as [_ Hfc]. cbv zeta in Hfc.
  destruct (ae_body P s s2 (v_term s) [] [] a) as [s' r tr fs'|s' tr] eqn:E.
  - destruct Hb as (-> & Hfs & [L K _ A _ _]). rewrite (Hfs eq_refl). eexists s', _, tr. split; [reflexivity|].
    pose proof (f_equal fst K) as K1. pose proof (f_equal snd K) as K2. cbn [fst snd cached_key] in K1, K2.
    cbn [ar_success ar_term]. split; [reflexivity|]. split; [exact Ht|].
    split; [apply (body_wf P s s2 _ _ _ a T _ _ _ _ Hwf E); rewrite L, K1, ?K2; assumption|].
    rewrite L. split; [exact Hbelow|]. split; [|].
    2:{ change (v_applied s2) with (v_applied s) in A. change (v_commit s2) with (v_commit s) in A.
        destruct A as [[A _]|(Hlt & _ & A & _)]; lia. }
    intros e He. destruct (Hmatch e He) as (e' & H1 & H2 & _). exists e'. auto.
  - exfalso. destruct Hb as (_ & [L K C _ _ _] & Hlt & _ & Hpanic). pose proof (f_equal fst K) as K1. cbn [fst cached_key] in K1.
    apply (process_logs_total s' (v_commit s')); [rewrite L, K1; exact W'|rewrite K1, C; lia|rewrite C; exact Hpanic].
Qed.
