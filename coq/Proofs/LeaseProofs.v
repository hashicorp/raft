(* Leader lease (C13): isolated leaders step down, healthy ones stay. *)
From Coq Require Import List NArith Bool Lia.
From RaftModel Require Import Config Lease.
Open Scope N_scope.

(* a voter counted as contacted: self, or any other voter heard from within lease *)
Definition fresh (contacts : list (N * N)) (lease now : N) (self : N) (sv : server) : bool :=
  is_voter sv && ((s_id sv =? self) || (now - lookup_contact contacts (s_id sv) <=? lease)).

Lemma lease_scan_count cfg self contacts lease now : forall acc,
  fst (lease_scan cfg self contacts lease now acc) =
  fst acc + N.of_nat (length (filter (fresh contacts lease now self) cfg)).
Proof.
  induction cfg as [|sv r IH]; intros [c m]; simpl; [lia|].
  unfold fresh at 1. destruct (is_voter sv); simpl.
  - destruct (s_id sv =? self); simpl.
    + rewrite IH. simpl. lia.
    + destruct (now - lookup_contact contacts (s_id sv) <=? lease); simpl; rewrite IH; simpl; lia.
  - rewrite IH. reflexivity.
Qed.

Lemma lease_scan_maxdiff cfg self contacts lease now : forall acc,
  snd acc <= lease -> snd (lease_scan cfg self contacts lease now acc) <= lease.
Proof.
  induction cfg as [|sv r IH]; intros [c m] H; simpl in *; [exact H|].
  destruct (is_voter sv); [|apply IH; exact H].
  destruct (s_id sv =? self); [apply IH; exact H|].
  destruct (N.leb_spec (now - lookup_contact contacts (s_id sv)) lease); apply IH; simpl; lia.
Qed.

(* checkLeaderLease steps down exactly when fewer than quorumSize voters are fresh *)
Theorem check_lease_spec cfg self contacts lease now :
  fst (check_lease cfg self contacts lease now) = true <->
  N.of_nat (length (filter (fresh contacts lease now self) cfg)) < quorum_size cfg.
Proof.
  unfold check_lease.
  pose proof (lease_scan_count cfg self contacts lease now (0, 0)) as H.
  destruct (lease_scan cfg self contacts lease now (0, 0)) as [c m]. simpl in *.
  rewrite H. rewrite N.ltb_lt. simpl. reflexivity.
Qed.

Theorem check_lease_maxdiff cfg self contacts lease now :
  snd (check_lease cfg self contacts lease now) <= lease.
Proof.
  unfold check_lease.
  pose proof (lease_scan_maxdiff cfg self contacts lease now (0, 0)) as H.
  destruct (lease_scan cfg self contacts lease now (0, 0)) as [c m]. simpl in *. apply H. lia.
Qed.

(* non-voters are never counted, wherever they sit and whatever their contact time *)
Theorem fresh_ignores_nonvoters contacts lease now self sv :
  is_voter sv = false -> fresh contacts lease now self sv = false.
Proof. intros H. unfold fresh. rewrite H. reflexivity. Qed.

Theorem next_interval_bounds lease maxDiff :
  min_check_interval <= lease ->
  min_check_interval <= next_interval lease maxDiff /\ next_interval lease maxDiff <= lease.
Proof. unfold next_interval. lia. Qed.

(* "after t0 the leader hears from too few voters": the voters whose last contact is after t0,
   together with the leader, are fewer than a quorum *)
Definition heard_after (contacts : list (N * N)) (t0 self : N) (sv : server) : bool :=
  is_voter sv && ((s_id sv =? self) || (t0 <? lookup_contact contacts (s_id sv))).

Definition lost_majority (cfg : config) (self : N) (contacts : list (N * N)) (t0 : N) : Prop :=
  N.of_nat (length (filter (heard_after contacts t0 self) cfg)) < quorum_size cfg.

Lemma filter_length_le {A} (f g : A -> bool) l :
  (forall x, f x = true -> g x = true) -> (length (filter f l) <= length (filter g l))%nat.
Proof.
  intros H. induction l as [|x r IH]; simpl; [lia|].
  destruct (f x) eqn:F.
  - rewrite (H x F). simpl. lia.
  - destruct (g x); simpl; lia.
Qed.

(* Any check later than one lease after the majority was lost steps down, whatever the contact
   times of the remaining servers, whatever non-voters are around *)
Theorem isolated_check_steps_down cfg self contacts lease now t0 :
  lost_majority cfg self contacts t0 -> t0 + lease < now ->
  fst (check_lease cfg self contacts lease now) = true.
Proof.
  intros Hlost Hnow. apply check_lease_spec. unfold lost_majority in Hlost.
  assert (H : (length (filter (fresh contacts lease now self) cfg)
               <= length (filter (heard_after contacts t0 self) cfg))%nat).
  { apply filter_length_le. intros sv. unfold fresh, heard_after.
    destruct (is_voter sv); simpl; [|auto].
    destruct (s_id sv =? self); simpl; [auto|].
    intros Hf. apply N.leb_le in Hf. apply N.ltb_lt. lia. }
  lia.
Qed.

(* A sequence of checks as the leader loop produces them: each next check comes at most
   next_interval + dmax after the previous one (dmax: scheduling latency). *)
Record lcheck := mkLC { lc_time : N; lc_contacts : list (N * N) }.

Fixpoint spaced (lease dmax : N) (cfg : config) (self : N) (l : list lcheck) : Prop :=
  match l with
  | a :: ((b :: _) as r) =>
    lc_time a <= lc_time b /\
    lc_time b <= lc_time a + next_interval lease (snd (check_lease cfg self (lc_contacts a) lease (lc_time a))) + dmax /\
    spaced lease dmax cfg self r
  | _ => True
  end.

(* If from t0 on the majority stays lost, every check that does NOT step down happens no later
   than t0 + lease: isolated_check_steps_down, check by check (the first three hypotheses are not used).  That the
   first check after that instant steps down, the timer scheduling it at most lease + dmax later (next_check_bound),
   is not stated as a theorem. *)
Theorem isolated_steps_down_within lease dmax cfg self t0 : forall l a,
  min_check_interval <= lease ->
  spaced lease dmax cfg self (a :: l) ->
  lc_time a <= t0 + lease ->
  (forall c, In c (a :: l) -> lost_majority cfg self (lc_contacts c) t0) ->
  (forall c, In c (a :: l) -> fst (check_lease cfg self (lc_contacts c) lease (lc_time c)) = false) ->
  forall c, In c (a :: l) -> lc_time c <= t0 + lease.
Proof.
  intros l a Hmin Hsp Ha Hlost Hno c Hc.
  destruct (N.le_gt_cases (lc_time c) (t0 + lease)) as [H|H]; [exact H|].
  pose proof (isolated_check_steps_down cfg self (lc_contacts c) lease (lc_time c) t0 (Hlost c Hc) H) as Hsd.
  rewrite (Hno c Hc) in Hsd. discriminate.
Qed.

Theorem next_check_bound lease dmax cfg self a b r :
  min_check_interval <= lease ->
  spaced lease dmax cfg self (a :: b :: r) -> lc_time b <= lc_time a + lease + dmax.
Proof.
  intros Hmin (H1 & H2 & _).
  pose proof (next_interval_bounds lease (snd (check_lease cfg self (lc_contacts a) lease (lc_time a))) Hmin). lia.
Qed.

Theorem healthy_never_steps_down cfg self contacts lease now :
  quorum_size cfg <= N.of_nat (length (filter (fresh contacts lease now self) cfg)) ->
  fst (check_lease cfg self contacts lease now) = false.
Proof.
  intros H. destruct (fst (check_lease cfg self contacts lease now)) eqn:E; [|reflexivity].
  apply check_lease_spec in E. lia.
Qed.

Theorem validate_timing_bounds h e c l :
  validate_timing h e c l = true -> l <= h /\ h <= e /\ 5 * ms <= l /\ min_check_interval <= 2 * l.
Proof.
  unfold validate_timing. rewrite !andb_true_iff, !N.leb_le. unfold min_check_interval, ms. lia.
Qed.
