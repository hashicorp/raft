(* ClusterSnapLMCex.v — Log Matching ABOVE THE SERVERS' OWN SNAPSHOTS is false in Model/ClusterSnap.v, and so
   is terms_monotone: a compiled run from an initial state of the driver (5 servers, TrailingLogs 5).

   Server 3 holds entries 4', 5', 6' of term 3 from a deposed leader (server 4, which keeps them).  The
   leader of term 4 (server 1) commits 4, 5, 6 of term 4 with servers 2 and 5, takes a snapshot at 6 and
   sends it to server 3 (its AppendEntries to 3 failed: DeleteRange errors).  installSnapshot at 3
   removes 6' (index 6 = snapshot index, other term) and resets the cached last log to (0, 0), but keeps
   4', 5' BELOW the snapshot (finding F3-ii).  A later AppendEntries (prev = 3, entries = [4]) is
   "all new" for the reset cache and is stored over 4' only: the log of 3 is now 1 2 3 4(term 4) 5'(term 3).
   Server 3 - its last entry is the snapshot (6, term 4) - wins the election of term 5 and replicates from
   its log: the request (prev = (4, term 4), entries = [5' of term 3]) makes server 2 truncate the COMMITTED
   5, 6 of term 4 and store 5'.  Servers 2 and 4 never saw a snapshot; both hold 5' (term 3); at index 4
   server 2 holds the entry of term 4, server 4 the entry of term 3.  In the log of server 2 term 4 is
   followed by term 3. *)
From Coq Require Import List NArith Bool Lia.
From stdpp Require Import gmap.
From RaftModel Require Import Base NodeCodec Cluster ClusterLog ClusterCommit ClusterSnap.
From RaftProofs Require Import ClusterProofs ClusterLogExample ClusterLogChain ClusterLogSnapCex ClusterCommitSnapCex
  ClusterSnapLMSpec.
Open Scope N_scope.

Lemma install_init_ok t n extras : sinit_ok (mk_cfg n) (install_init t n extras).
Proof.
  split; [|split; [reflexivity|split; reflexivity]].
  pose proof (retrail_cinit t (mk_cfg n) _ (mk_nodes_cinit_snap n extras)) as H.
  unfold retrail_g, cnodes in H. cbn [cg_l lg_g g_nodes g_resps g_leaders g_grants lg_msgs cg_lead cg_hb cg_ans] in H.
  rewrite map_map in H. exact H.
Qed.

Definition E (l : glabel) : slabel := SBase (CBase (LElect l)).
Definition el (i : N) (js : list N) : list slabel := E (GTimeout i) :: flat_map (fun j => [E (GVoteReq i j 0 []); E (GVoteResp i j)]) js.
Definition rep (i j next last : N) (k a : nat) (fs : list bool) : list slabel :=
  [SBase (CBase (LSend i j next last)); SBase (CBase (LDeliver k 0 fs)); SBase (CAck a)].
Definition prop (i d : N) : slabel := SBase (CBase (LPropose i LogCommand d [])).
Definition rs (j : N) : slabel := E (GInput j NRestart 0 []).

Definition junk_labels : list slabel :=
  (* term 2: server 5 leads, entries 2, 3 reach everybody *)
  el 5 [1;2] ++ [prop 5 31] ++ rep 5 1 2 3 0 0 [] ++ rep 5 2 2 3 1 1 [] ++ rep 5 3 2 3 2 2 [] ++ rep 5 4 2 3 3 3 [] ++
  (* term 3: server 4 leads, entries 4', 5', 6' reach server 3 only *)
  [rs 3; rs 5] ++ el 4 [3;5] ++ [prop 4 41; prop 4 42] ++ rep 4 3 4 6 4 4 [] ++
  (* term 4: server 1 leads with the votes of 2 and 5, commits 4, 5, 6; its requests to 3 fail (DeleteRange errors) *)
  [rs 2; rs 3; rs 5; E (GTimeout 1); E (GTimeout 1); E (GVoteReq 1 3 0 [])] ++ [E (GVoteReq 1 2 0 []); E (GVoteResp 1 2); E (GVoteReq 1 5 0 []); E (GVoteResp 1 5)] ++
  [prop 1 51; prop 1 52] ++ rep 1 2 4 6 5 5 [] ++ rep 1 5 4 6 6 6 [] ++ [SBase (CCommit 1)] ++
  rep 1 3 4 6 7 7 [true] ++ rep 1 3 3 6 8 8 [true] ++
  (* snapshot at 6 (entry 1 compacted), sent to and installed by server 3 *)
  [E (GInput 1 NSnapshot 0 []); SSend 1 3 6; SDeliver 0 0 []; SAck 0] ++
  (* nextIndex of 3 walks back from 7 to 4; the request (prev 3, [4]) is stored *)
  [prop 1 53] ++ rep 1 3 7 7 9 9 [true] ++ rep 1 3 6 7 10 10 [] ++ rep 1 3 5 7 11 11 [] ++ rep 1 3 4 4 12 12 [] ++
  (* term 5: server 3 leads with the votes of 2 and 5 and replicates its log to 2 *)
  [rs 2; rs 5] ++ el 3 [2;5] ++
  rep 3 2 7 7 13 13 [true] ++ rep 3 2 6 5 14 14 [] ++ rep 3 2 5 5 15 15 [].

Definition junk_init : sstate := install_init 5 5 [0; 0; 0; 0; 0].

Lemma junk_labels_ok : Forall slabel_ok junk_labels.
Proof. unfold junk_labels. repeat (apply Forall_app; split); repeat constructor; simpl; try discriminate; exact I. Qed.

(* a and b hold an entry of one term at i and different entries at k <= i, above the snapshot index and above every stored snapshot of both *)
Definition lm_own_violation (g : lgstate) (ia ib i k : N) : bool :=
  lm_violation g ia ib i k &&
  match node_of g ia, node_of g ib with
  | Some a, Some b => (snap_idx_of a <? k) && (snap_idx_of b <? k) && (max_snap_of (image (gn_run a)) <? k) && (max_snap_of (image (gn_run b)) <? k)
  | _, _ => false
  end.

Lemma lm_own_violation_sound g ia ib i k : lm_own_violation g ia ib i k = true ->
  ~ log_matching_above_snapshots g /\ ~ log_matching_above_own_snapshots g.
Proof.
  unfold lm_own_violation. intros H. apply andb_prop in H. destruct H as [H1 H2].
  destruct (lm_violation_parts g ia ib i k H1) as (a & b & ea & eb & ka & kb & Ia & Ib & Na & Nb & Ea & Eb & Ht & Hk & Ka & Kb & Hne).
  rewrite Na, Nb in H2. apply andb_prop in H2. destruct H2 as [H2 M2]. apply andb_prop in H2. destruct H2 as [H2 M1].
  apply andb_prop in H2. destruct H2 as [S1 S2]. apply N.ltb_lt in S1, S2, M1, M2.
  split; intros LM; apply Hne.
  - apply (LM a b Ia Ib i ea eb Ea Eb Ht k ka kb Hk S1 S2 Ka Kb).
  - apply (LM a b Ia Ib i ea eb Ea Eb Ht k ka kb Hk M1 M2 Ka Kb).
Qed.

(* in the log of ia the term at i is above the term at j >= i; ia stores no snapshot *)
Definition tm_violation (g : lgstate) (ia i j : N) : bool :=
  match node_of g ia with
  | Some a => match log_of a !! i, log_of a !! j with
              | Some ei, Some ej => (i <=? j) && (e_term ej <? e_term ei) && (max_snap_of (image (gn_run a)) =? 0)
              | _, _ => false
              end
  | None => false
  end.

Lemma tm_violation_sound g ia i j : tm_violation g ia i j = true -> ~ terms_monotone g.
Proof.
  unfold tm_violation, node_of. intros H TM.
  destruct (find_node (g_nodes (lg_g g)) ia) as [a|] eqn:Fa; [|discriminate].
  destruct (log_of a !! i) as [ei|] eqn:Ei; [|discriminate]. destruct (log_of a !! j) as [ej|] eqn:Ej; [|discriminate].
  apply andb_prop in H. destruct H as [H _]. apply andb_prop in H. destruct H as [H1 H2]. apply N.leb_le in H1. apply N.ltb_lt in H2.
  destruct (find_node_in _ _ _ Fa) as [Ia _]. destruct (TM a Ia i j ei ej H1 Ei Ej) as [Hm _]. lia.
Qed.

Theorem log_matching_above_snapshots_refuted : exists cfg g0 ls g,
  sinit_ok cfg g0 /\ Forall slabel_ok ls /\ srun [cfg] g0 ls = Some g /\
  ~ log_matching_above_snapshots (lg_of g) /\ ~ log_matching_above_own_snapshots (lg_of g) /\ ~ terms_monotone (lg_of g).
Proof.
  destruct (opt_witness (srun [mk_cfg 5] junk_init junk_labels) (fun g => lm_own_violation (lg_of g) 2 4 5 4 && tm_violation (lg_of g) 2 4 5))
    as (g & Hrun & Hc); [vm_compute; reflexivity|].
  apply andb_prop in Hc. destruct Hc as [Hv1 Hv2].
  exists (mk_cfg 5), junk_init, junk_labels, g. split; [apply install_init_ok|]. split; [exact junk_labels_ok|]. split; [exact Hrun|].
  destruct (lm_own_violation_sound _ _ _ _ _ Hv1) as [A B]. split; [exact A|]. split; [exact B|].
  apply (tm_violation_sound _ _ _ _ Hv2).
Qed.

Print Assumptions log_matching_above_snapshots_refuted.
