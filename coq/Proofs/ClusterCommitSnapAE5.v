(* ClusterCommitSnapAE5.v — the part of the server state appendEntries does not store in the log, read off
   AppendProofs.ae_body_spec and the frame of NodeFrame.v.
   The volatile part it returns: term, role, answer, commit index / lastApplied (after the fix: commitIndex <= index
   of the request's last entry, never backwards), latest / committed configuration.
   It never touches the snapshot store or the snapshot boundary; lastApplied and the (index, term) the FSM goroutine
   reports move only in the final processLogs, to an entry of the log between the old and the new lastApplied
   (fsm_adv, with the order of boundary, FSM position and lastApplied that it keeps: fsm_adv_order).
   The staged / persisted commit index never passes the leader's (append_stages, append_done_staged; for the commit
   index itself that is AppendProofs.append_entries_commit). *)
From Coq Require Import List NArith Bool Lia.
From stdpp Require Import gmap.
From RaftModel Require Import Base Config Commitment Node.
From RaftProofs Require Import NodeFrame CommitmentProofs VoteProofs AppendProofs RecoverProofs ClusterLogSpec
  ClusterLogCut ClusterCommitSpec.
Open Scope N_scope.

Section Vol2.
  Variable cfg : config.
  Variable P : params.

  Lemma ae_body_vol s0 s2 rt tr1 fs1 a s' r tr fs' :
    (forall e, In e (aq_entries a) -> e_ty e = LogConfiguration -> p_decode P (e_data e) = cfg) ->
    cfg_or_nil cfg (v_latest s2) -> cfg_or_nil cfg (v_committed s2) -> cache_ok s2 -> contig (aq_prevIdx a) (aq_entries a) ->
    ae_body P s0 s2 rt tr1 fs1 a = Done s' r tr fs' ->
    ar_term r = rt /\ ar_last r = last_index s0 /\ v_role s' = v_role s2 /\ v_term s' = v_term s2 /\ d_term s' = d_term s2 /\
    cfg_or_nil cfg (v_latest s') /\ cfg_or_nil cfg (v_committed s') /\
    ((v_commit s' = v_commit s2 /\ v_applied s' = v_applied s2) \/
     (ar_success r = true /\ v_commit s2 < v_commit s' /\ v_commit s' <= aq_commit a /\ v_commit s' <= last_new a /\
      v_commit s' <= last_index s' /\ (v_applied s' = v_applied s2 \/ v_applied s' = v_commit s'))).
  Proof.
    intros Hd Hl Hcm Hcache Hc H.
    assert (F : body_frame (fun x => (v_role x, v_term x, d_term x, v_lastSnapIdx x)) (fun _ => True) s2 tr1
                           (ae_body P s0 s2 rt tr1 fs1 a)) by (eapply ae_body_frame; intros; reflexivity || exact I).
    pose proof (ae_body_spec P s0 s2 rt tr1 fs1 a) as Hs. cbv zeta in Hs. rewrite H in F, Hs.
    destruct F as [F _]. injection F as F1 F2 F3 F4.
    (* what was stored came with the request *)
    assert (Hin : let '(_, sto, _, _) := ae_plan a (cached_key s2) (scan_entries (d_log s2) (v_lastLogIdx s2) (aq_entries a))
                                                  (hd false fs1) (hd false (tl fs1)) in incl sto (aq_entries a)).
    { pose proof (scan_spec _ _ _ _ Hc Hcache) as Hsc.
      destruct (scan_entries (d_log s2) (v_lastLogIdx s2) (aq_entries a)) as [news|c news| |]; cbn [ae_plan];
        [destruct (hd false fs1)|destruct (hd false fs1); [|destruct (hd false (tl fs1))]| |]; try (intros x []);
        destruct Hsc as (_ & dup & -> & _); intros x Hx; apply in_app_iff; auto. }
    destruct (match prev_check s2 a with Some true => true | _ => false end).
    2:{ destruct Hs as (-> & _ & [_ _ C A [K1 K2 _ _] _]). cbn [ar_term ar_last].
        assert (Hcf : forall c, cfg_src P s2 [] c -> cfg_or_nil cfg c) by (intros c [->|[->|(e & [] & _)]]; assumption).
        destruct A as [[A _]|(A & _)]; [auto 10|exfalso; lia]. }
    destruct (ae_plan a _ _ _ _) as [[[del sto] ok] k']. destruct Hs as (-> & _ & [_ Kk C A [K1 K2 _ _] _]). cbn [ar_term ar_last ar_success].
    assert (Hcf : forall c, cfg_src P s2 sto c -> cfg_or_nil cfg c).
    { intros c [->|[->|(e & He & Ht & ->)]]; [assumption..|]. left. apply Hd; [apply Hin, He|exact Ht]. }
    repeat (split; [auto|]).
    assert (Hli : last_index s' = N.max (fst k') (v_lastSnapIdx s2))
      by (unfold last_index; rewrite F4, <- Kk; reflexivity).
    destruct ok; cbv iota in C, A; [|destruct A as [[A _]|(A & _)]; [auto|exfalso; lia]].
    pose proof (follower_commit_spec (v_commit s2) (aq_commit a) (last_new a) (N.max (fst k') (v_lastSnapIdx s2))) as [G1 G2].
    cbv zeta in G1, G2. rewrite <- C in G1, G2. rewrite <- Hli in G2.
    destruct A as [[A _]|(A1 & _ & A2 & _)].
    - destruct (N.eq_dec (v_commit s') (v_commit s2)) as [Eq|Ne]; [left; auto|right]. destruct G2 as [G2|G2]; [contradiction|].
      split; [reflexivity|]. split; [lia|]. repeat (split; [apply G2|]). left. exact A.
    - right. rewrite <- C in A1, A2. split; [reflexivity|]. split; [exact A1|]. destruct G2 as [G2|G2]; [lia|].
      repeat (split; [apply G2|]). right. exact A2.
  Qed.

  Theorem append_done_vol s fs a s' r tr fs' : wfu s -> cache_ok s -> contig (aq_prevIdx a) (aq_entries a) ->
    (forall e, In e (aq_entries a) -> e_ty e = LogConfiguration -> p_decode P (e_data e) = cfg) ->
    cfg_or_nil cfg (v_latest s) -> cfg_or_nil cfg (v_committed s) ->
    append_entries P s fs a = Done s' r tr fs' ->
    (aq_term a < v_term s /\ s' = s /\ ar_term r = v_term s /\ ar_success r = false) \/
    (v_term s <= aq_term a /\ v_term s' = aq_term a /\ d_term s' = aq_term a /\ ar_term r = aq_term a /\ ar_last r = last_index s /\
     (v_role s' = Follower \/ (v_role s' = v_role s /\ v_term s = aq_term a)) /\
     cfg_or_nil cfg (v_latest s') /\ cfg_or_nil cfg (v_committed s') /\
     ((v_commit s' = v_commit s /\ v_applied s' = v_applied s) \/
      (ar_success r = true /\ v_commit s < v_commit s' /\ v_commit s' <= aq_commit a /\ v_commit s' <= last_new a /\
       v_commit s' <= last_index s' /\ (v_applied s' = v_applied s \/ v_applied s' = v_commit s')))).
  Proof.
    intros [Hwd Hvt] Hcache Hc Hd Hl Hcm H.
    destruct (append_entries_done _ _ _ _ _ _ _ _ H) as [(Hlt & -> & -> & _)|(s2 & tr1 & fs1 & (Hle & Hat) & Hb)]; [left; simpl; auto|right].
    split; [exact Hle|].
    destruct Hat as [(He & -> & _)|(-> & _)]; (eapply ae_body_vol in Hb; [|eassumption..]);
      destruct Hb as (B1 & B2 & B3 & B4 & B5 & B6 & B7 & B8);
      cbn [set_leader set_vol_term set_durable_term set_state set_role v_role v_term d_term v_commit v_applied] in *.
    - split; [lia|]. split; [lia|]. split; [exact B1|]. split; [exact B2|]. split; [right; split; [exact B3|exact He]|]. auto.
    - split; [exact B4|]. split; [exact B5|]. split; [exact B1|]. split; [exact B2|]. split; [left; exact B3|]. auto.
  Qed.
End Vol2.

Section SF.
  Variable P : params.

  (* lastApplied and the (index, term) the FSM goroutine last saw, between two states: unmoved, or lastApplied has
     risen to the commit index and the FSM position is unmoved or that of an entry of the log on the way there *)
  Definition fsm_adv (s s' : nstate) : Prop :=
    (v_applied s' = v_applied s /\ v_fsmLast s' = v_fsmLast s) \/
    (v_applied s < v_applied s' /\ v_applied s' = v_commit s' /\
     (v_fsmLast s' = v_fsmLast s \/
      exists e, d_log s' !! e_idx e = Some e /\ v_applied s < e_idx e <= v_applied s' /\ v_fsmLast s' = key e)).

  (* a bound b (the snapshot boundary) stays below lastApplied, the FSM position below lastApplied and above b: each
     of the three is kept *)
  Lemma fsm_adv_order b s s' : fsm_adv s s' -> b <= v_applied s ->
    b <= v_applied s' /\
    (fst (v_fsmLast s) <= v_applied s -> fst (v_fsmLast s') <= v_applied s') /\
    (fst (v_fsmLast s) = 0 \/ b <= fst (v_fsmLast s) -> fst (v_fsmLast s') = 0 \/ b <= fst (v_fsmLast s')).
  Proof.
    intros [[E1 E2]|(E1 & _ & [E2|(e & _ & E3 & E2)])] W1; rewrite E2; cbn [key fst]; (split; [lia|split; [lia|]]);
      [exact (fun H => H)..|right; lia].
  Qed.

  (* AppendProofs.fsm_moved up to the commit index, over a log whose entries sit under their own indices *)
  Lemma fsm_moved_adv s s' : keys_ok (d_log s') -> fsm_moved (d_log s') (v_commit s') s s' -> fsm_adv s s'.
  Proof.
    intros Hk (H1 & H2 & H3). right. rewrite H2. split; [exact H1|]. split; [reflexivity|].
    destruct H3 as [H3|(i & e & E1 & E2 & E3)]; [left; exact H3|right]. exists e. rewrite (Hk _ _ E1). auto.
  Qed.

  Lemma process_logs_adv s s' tr : keys_ok (d_log s) -> process_logs s (v_commit s) = Some (s', tr) -> fsm_adv s s'.
  Proof.
    intros Hk H. destruct (process_logs_spec _ _ _ _ H) as (_ & _ & [->|((m & x & ->) & Hm)]); [left; auto|].
    apply fsm_moved_adv; assumption.
  Qed.

  Definition sf_done (s s' : nstate) : Prop :=
    d_snaps s' = d_snaps s /\ v_lastSnapIdx s' = v_lastSnapIdx s /\ v_lastSnapTerm s' = v_lastSnapTerm s /\ fsm_adv s s'.

  Theorem append_done_sf s fs a s' r tr fs' : append_entries P s fs a = Done s' r tr fs' ->
    keys_ok (d_log s') -> sf_done s s'.
  Proof.
    intros H Hk.
    destruct (append_entries_done _ _ _ _ _ _ _ _ H) as [(_ & -> & _)|(s2 & tr1 & fs1 & Hat & Hd)]; [repeat split; left; auto|].
    assert (E : sf_done s2 s' = sf_done s s') by (apply (at_term_frame (fun x => sf_done x s') Hat); reflexivity).
    rewrite <- E.
    assert (F : body_frame (fun x => (d_snaps x, v_lastSnapIdx x, v_lastSnapTerm x)) (fun _ => True) s2 tr1
                           (ae_body P s s2 (aq_term a) tr1 fs1 a)) by (eapply ae_body_frame; intros; reflexivity || exact I).
    pose proof (ae_body_spec P s s2 (aq_term a) tr1 fs1 a) as Hs. cbv zeta in Hs. rewrite Hd in F, Hs.
    destruct F as [F _]. injection F as F1 F2 F3. repeat (split; [assumption|]).
    destruct (if match prev_check s2 a with Some true => true | _ => false end then _ else _) as [[[del sto] ok] k'].
    destruct Hs as (_ & _ & [L _ C A _ _]). destruct A as [A|(_ & A)]; [left; exact A|].
    apply fsm_moved_adv; [exact Hk|]. rewrite L, C. exact A.
  Qed.
End SF.

(* every commit index the handler stages is at most the leader's: with fold_staged (Proofs/ClusterLogCut.v) a bound
   on the two durable commit indices of every crash image *)
Lemma append_stages P s fs a : Forall (stage_le (aq_commit a)) (trace_of (append_entries P s fs a)).
Proof.
  destruct (append_entries_enter P s fs a) as [[_ ->]|[[_ ->]|(s2 & tr1 & fs1 & (_ & Hat) & ->)]]; [constructor|repeat constructor|].
  assert (H1 : Forall (stage_le (aq_commit a)) tr1) by (destruct Hat as [(_ & _ & ->)|(_ & ->)]; repeat constructor).
  assert (H : body_frame (fun _ => tt) (stage_le (aq_commit a)) s2 tr1 (ae_body P s s2 (aq_term a) tr1 fs1 a))
    by (apply (ae_body_frame _ _ (aq_commit a)); intros; reflexivity || exact I || assumption).
  destruct (ae_body P s s2 (aq_term a) tr1 fs1 a); simpl in *; [destruct H as [_ H]|];
    destruct H as (tr' & -> & H); apply Forall_app; auto.
Qed.

(* the same two indices in the state the handler returns *)
Lemma append_done_staged P s fs a s' r tr fs' X : aq_commit a <= X -> d_staged s <= X -> d_pcommit s <= X ->
  append_entries P s fs a = Done s' r tr fs' -> d_staged s' <= X /\ d_pcommit s' <= X.
Proof.
  intros Hlc H1 H2 H.
  destruct (append_entries_done _ _ _ _ _ _ _ _ H) as [(_ & -> & _)|(s2 & tr1 & fs1 & Hat & Hd)]; [auto|].
  pose proof (ae_body_spec P s s2 (aq_term a) tr1 fs1 a) as Hs. cbv zeta in Hs. rewrite Hd in Hs.
  destruct (if match prev_check s2 a with Some true => true | _ => false end then _ else _) as [[[del sto] ok] k'].
  destruct Hs as (_ & _ & [_ _ _ _ [_ _ K3 K4] _]).
  rewrite (at_term_frame d_staged Hat) in K3 by reflexivity. rewrite (at_term_frame d_pcommit Hat) in K4 by reflexivity. lia.
Qed.
