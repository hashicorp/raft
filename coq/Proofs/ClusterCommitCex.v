(* ClusterCommitCex.v — what the side conditions of the safety theorem (Proofs/ClusterCommitMain.v) are for.

   (A) A COUNTEREXAMPLE: a forged RequestVote (GInput _ (NVote q), "stray vote requests from
       anyone" of Model/ClusterLog.v).  With LeadershipTransfer = true and a made-up last log it makes
       server 2 vote for server 3 in term 3; the real request of 3 is then re-granted without a log
       check ("voted in this term already: re-grant to the same candidate"), and 3 becomes leader
       without the committed entry.  The transport cannot do this; label_no_stray_vote excludes it.

   (B), (C) REGRESSION: the two runs that violated State Machine Safety under the OLD commit rule of
       appendEntries, commitIndex = min(LeaderCommit, the follower's OWN lastIndex).  After the
       fix: commit (Model/Node.v ae_commit: min(LeaderCommit, index of the last entry of the request,
       lastIndex), never backwards) both runs are harmless; they are kept here as compiled checks.
       (B) stale lastIndex: replicateTo(s, lastIndex) with lastIndex read before the leader's no-op was
           dispatched and LeaderCommit read after it committed: (prev = n-1, no entries, LeaderCommit >= n)
           made a follower with a divergent tail above n-1 commit and apply that tail.
           Script (3 servers): 1 3; 2 3 2; 3 3 2; 7 3 71; 7 3 72; 1 1; 1 1; 2 1 2; 3 1 2; 7 1 81; 7 1 82;
           8 1 2 2 4; 10 0; 12 0; 14 1; 9 1 3; 10 1; 8 1 3 2 1; 10 2   [then 12 2; 8 1 3 2 2; 10 3].
       (C) DeleteRange fails MaxAppendEntries(+1) times in a row: each refusal moves nextIndex one
           back although the logs agree at prev; the request finally ends below the conflict, is all
           duplicates, succeeds, and min(LeaderCommit, own lastIndex) covered the stale tail. *)
From Coq Require Import List NArith Bool Lia.
From stdpp Require Import gmap.
From RaftModel Require Import Base Node NodeCodec Cluster ClusterLog ClusterCommit.
From RaftProofs Require Import ClusterProofs ClusterLogExample ClusterLogChain ClusterCommitSpec ClusterCommitInit.
Open Scope N_scope.

Definition cex_g0 : cgstate :=
  mkCG (mkLG (mkG (map (fun p => mk_node (mk_cfg 3) (N.of_nat (fst p)) (snd p)) (combine (seq 1 3) [0; 0; 0])) [] [] []) []) [] [] [].

Definition cexC_g0 : cgstate :=
  mkCG (mkLG (mkG (map (fun p => mk_node (mk_cfg 3) (N.of_nat (fst p)) (snd p)) (combine (seq 1 3) [4; 4; 4])) [] [] []) []) [] [] [].

Definition cexA_labels : list clabel :=
  [ CBase (LElect (GTimeout 1)); CBase (LElect (GVoteReq 1 2 0 [])); CBase (LElect (GVoteResp 1 2));
    CBase (LSend 1 2 2 2); CBase (LDeliver 0 0 []); CAck 0; CCommit 1;
    CBase (LSend 1 2 3 2); CBase (LDeliver 1 0 []);
    CBase (LElect (GInput 2 (NVote (mkVReq 3 3 3 100 100 true)) 0 []));
    CBase (LElect (GTimeout 3)); CBase (LElect (GTimeout 3));
    CBase (LElect (GVoteReq 3 2 0 [])); CBase (LElect (GVoteResp 3 2));
    CBase (LSend 3 2 2 2); CBase (LDeliver 2 0 []) ].

Definition cexB_labels : list clabel :=
  [ CBase (LElect (GTimeout 3)); CBase (LElect (GVoteReq 3 2 0 [])); CBase (LElect (GVoteResp 3 2));
    CBase (LPropose 3 LogCommand 71 []); CBase (LPropose 3 LogCommand 72 []);
    CBase (LElect (GTimeout 1)); CBase (LElect (GTimeout 1));
    CBase (LElect (GVoteReq 1 2 0 [])); CBase (LElect (GVoteResp 1 2));
    CBase (LPropose 1 LogCommand 81 []); CBase (LPropose 1 LogCommand 82 []);
    CBase (LSend 1 2 2 4); CBase (LDeliver 0 0 []); CAck 0; CCommit 1;
    CBase (LHeartbeat 1 3); CBase (LDeliver 1 0 []);
    CBase (LSend 1 3 2 1); CBase (LDeliver 2 0 []);
    CAck 2; CBase (LSend 1 3 2 2); CBase (LDeliver 3 0 []) ].

Definition cexC_labels : list clabel :=
  [ CBase (LElect (GTimeout 3)); CBase (LElect (GVoteReq 3 2 0 [])); CBase (LElect (GVoteResp 3 2));
    CBase (LElect (GTimeout 1)); CBase (LElect (GTimeout 1));
    CBase (LElect (GVoteReq 1 2 0 [])); CBase (LElect (GVoteResp 1 2));
    CBase (LSend 1 2 6 6); CBase (LDeliver 0 0 []); CAck 0; CCommit 1;
    CBase (LHeartbeat 1 3); CBase (LDeliver 1 0 []);
    CBase (LSend 1 3 6 6); CBase (LDeliver 2 0 [true]); CAck 2;
    CBase (LSend 1 3 5 6); CBase (LDeliver 3 0 [true]); CAck 3;
    CBase (LSend 1 3 4 6); CBase (LDeliver 4 0 [true]); CAck 4;
    CBase (LSend 1 3 3 6); CBase (LDeliver 5 0 [true]); CAck 5;
    CBase (LSend 1 3 2 6); CBase (LDeliver 6 0 []) ].

Definition up_state (g : cgstate) (i : N) : option nstate :=
  match find_node (cnodes g) i with
  | Some n => match gn_run n with Up s => Some s | Down _ => None end
  | None => None
  end.

Lemma up_state_in g i s : up_state g i = Some s -> exists n, In n (cnodes g) /\ gn_id n = i /\ gn_run n = Up s.
Proof.
  unfold up_state. destruct (find_node (cnodes g) i) as [n|] eqn:F; [|discriminate].
  destruct (gn_run n) as [s0|s0] eqn:R; [|discriminate]. intros H; inversion H; subst.
  exists n. destruct (find_node_in _ _ _ F) as [I E]. auto.
Qed.

Definition agree_violation (g : cgstate) (ia ib i : N) : bool :=
  match up_state g ia, up_state g ib with
  | Some sa, Some sb =>
    match d_log sa !! i, d_log sb !! i with
    | Some ea, Some eb => (i <=? v_commit sa) && (i <=? v_commit sb) && negb (entry_eqb ea eb)
    | _, _ => false
    end
  | _, _ => false
  end.

Lemma agree_violation_sound g ia ib i : agree_violation g ia ib i = true -> ~ committed_agree g.
Proof.
  unfold agree_violation. intros H CA.
  destruct (up_state g ia) as [sa|] eqn:Ua; [|discriminate]. destruct (up_state g ib) as [sb|] eqn:Ub; [|discriminate].
  destruct (d_log sa !! i) as [ea|] eqn:Ea; [|discriminate]. destruct (d_log sb !! i) as [eb|] eqn:Eb; [|discriminate].
  apply andb_prop in H. destruct H as [H Hne]. apply andb_prop in H. destruct H as [H1 H2].
  apply N.leb_le in H1. apply N.leb_le in H2.
  destruct (up_state_in g ia sa Ua) as (a & Ia & _ & Ra). destruct (up_state_in g ib sb Ub) as (b & Ib & _ & Rb).
  pose proof (CA a b sa sb Ia Ib Ra Rb i ea eb H1 H2 Ea Eb) as E. subst eb.
  rewrite entry_eqb_refl in Hne. discriminate.
Qed.

Definition complete_violation (g : cgstate) (ia il i : N) : bool :=
  match up_state g ia, up_state g il with
  | Some sa, Some sl =>
    match d_log sa !! i with
    | Some e => (v_role sl =? Leader) && (v_term sa <=? v_term sl) && (i <=? v_commit sa) &&
                match d_log sl !! i with Some e' => negb (entry_eqb e' e) | None => true end
    | None => false
    end
  | _, _ => false
  end.

Lemma complete_violation_sound g ia il i : complete_violation g ia il i = true -> ~ leader_complete g.
Proof.
  unfold complete_violation. intros H LC.
  destruct (up_state g ia) as [sa|] eqn:Ua; [|discriminate]. destruct (up_state g il) as [sl|] eqn:Ul; [|discriminate].
  destruct (d_log sa !! i) as [e|] eqn:Ea; [|discriminate].
  apply andb_prop in H. destruct H as [H Hne]. apply andb_prop in H. destruct H as [H H3].
  apply andb_prop in H. destruct H as [H1 H2].
  apply N.eqb_eq in H1. apply N.leb_le in H2. apply N.leb_le in H3.
  destruct (up_state_in g ia sa Ua) as (a & Ia & _ & Ra). destruct (up_state_in g il sl Ul) as (l & Il & _ & Rl).
  pose proof (LC a l sa sl Ia Il Ra Rl H1 H2 i e H3 Ea) as E. rewrite E in Hne.
  rewrite entry_eqb_refl in Hne. discriminate.
Qed.

Definition within_violation (g : cgstate) (ia : N) : bool :=
  match up_state g ia with
  | Some sa => last_index sa <? v_commit sa
  | None => false
  end.

Lemma within_violation_sound g ia : within_violation g ia = true -> ~ applied_within_commit g.
Proof.
  unfold within_violation. intros H AW. destruct (up_state g ia) as [sa|] eqn:Ua; [|discriminate].
  apply N.ltb_lt in H. destruct (up_state_in g ia sa Ua) as (a & Ia & _ & Ra).
  destruct (AW a sa Ia Ra) as [_ Hc]. lia.
Qed.

(* (A): without label_no_stray_vote the safety statements are false *)
Theorem forged_vote_refutes_safety : exists cfg g0 ls g,
  cinit_ok cfg g0 /\ Forall label_no_config ls /\ crun false [cfg] g0 ls = Some g /\
  ~ committed_agree g /\ ~ leader_complete g.
Proof.
  destruct (opt_witness (crun false [mk_cfg 3] cex_g0 cexA_labels) (fun g => agree_violation g 1 2 2 && complete_violation g 1 3 2)) as (g & Hrun & Hv);
    [vm_compute; reflexivity|].
  exists (mk_cfg 3), cex_g0, cexA_labels, g. apply andb_prop in Hv. destruct Hv as [Hv1 Hv2].
  split; [apply mk_nodes_cinit|]. split; [repeat constructor; simpl; discriminate|]. split; [exact Hrun|].
  split; [eapply agree_violation_sound; exact Hv1|eapply complete_violation_sound; exact Hv2].
Qed.

(* (B), (C): the runs that broke the old rule end in states without a violation; the follower's
   commit index stops where the request stopped *)
Definition commit_of (g : cgstate) (i : N) : N := match up_state g i with Some s => v_commit s | None => 0 end.
Definition no_violation (g : cgstate) (ids idxs : list N) : bool :=
  forallb (fun a => forallb (fun b => forallb (fun i => negb (agree_violation g a b i)) idxs) ids) ids &&
  forallb (fun a => negb (within_violation g a)) ids.

Lemma old_rule_cexB_now_safe : exists g, crun false [mk_cfg 3] cex_g0 cexB_labels = Some g /\
  (no_violation g [1; 2; 3] [1; 2; 3; 4] && (commit_of g 1 =? 4) && (commit_of g 3 =? 2)) = true.
Proof. apply (opt_witness (crun false [mk_cfg 3] cex_g0 cexB_labels) (fun g => no_violation g [1; 2; 3] [1; 2; 3; 4] && (commit_of g 1 =? 4) && (commit_of g 3 =? 2))). vm_compute. reflexivity. Qed.

Lemma old_rule_cexC_now_safe : exists g, crun false [mk_cfg 3] cexC_g0 cexC_labels = Some g /\
  (no_violation g [1; 2; 3] [1; 2; 3; 4; 5; 6] && (commit_of g 1 =? 6) && (commit_of g 3 =? 5)) = true.
Proof. apply (opt_witness (crun false [mk_cfg 3] cexC_g0 cexC_labels) (fun g => no_violation g [1; 2; 3] [1; 2; 3; 4; 5; 6] && (commit_of g 1 =? 6) && (commit_of g 3 =? 5))). vm_compute. reflexivity. Qed.

Print Assumptions forged_vote_refutes_safety.
