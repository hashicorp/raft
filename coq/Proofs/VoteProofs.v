(* Vote and term integrity of one server over arbitrary event sequences, store failures and
   crash cuts (C06).  The objects are exactly those the driver executes: Node.request_vote,
   Node.elect_self, Node.append_entries, Node.install_snapshot, Node.recover,
   NodeCodec.step_full (with its crash cuts through cut_image).  `vmove` is the form in which the
   cluster proofs take this: what one change of a server may do to term and vote for the votes it
   granted to stay one per term. *)
From Coq Require Import List NArith Bool Lia.
From stdpp Require Import gmap.
From RaftModel Require Import Base Config Node NodeCodec.
From RaftProofs Require Import RecoverProofs NodeFrame ClusterLogCut.
Open Scope N_scope.

Definition dproj (s : nstate) : N * N * option N := (d_term s, d_vterm s, d_vcand s).

Definition vt_apply (d : N * N * option N) (e : ev) : N * N * option N :=
  let '(t, vt, vc) := d in
  match e with
  | ESetTerm t' true => (t', vt, vc)
  | ESetVoteTerm t' true => (t, t', vc)
  | ESetVoteCand c true => (t, vt, Some c)
  | _ => d
  end.

Definition is_stable_ev (e : ev) : bool :=
  match e with ESetTerm _ _ | ESetVoteTerm _ _ | ESetVoteCand _ _ => true | _ => false end.

Lemma dproj_apply_ev P si s e : dproj (apply_ev P si s e) = vt_apply (dproj s) e.
Proof.
  destruct e as [t ok|t ok|c ok|es ok|lo hi ok|c|i t ok|e|i|d]; simpl; try reflexivity;
    try (destruct ok; reflexivity).
  - destruct (p_track P); reflexivity.
  - destruct ok; [|reflexivity]. destruct si; reflexivity.
Qed.

Lemma vt_apply_nostable d e : is_stable_ev e = false -> vt_apply d e = d.
Proof. destruct d as [[t vt] vc]. destruct e; simpl; try reflexivity; discriminate. Qed.

(* a crash cut leaves the image obtained from SOME prefix of the trace *)
Lemma cut_image_prefix P si tr s k :
  exists j, dproj (cut_image P si s tr k) = fold_left vt_apply (firstn j tr) (dproj s).
Proof. apply cut_image_replay. intros s0 e. apply dproj_apply_ev. Qed.

Lemma fold_nostable d tr : forallb (fun e => negb (is_stable_ev e)) tr = true -> fold_left vt_apply tr d = d.
Proof.
  revert d. induction tr as [|e r IH]; intros d H; simpl in *; [reflexivity|].
  apply andb_true_iff in H. destruct H as [He Hr]. apply negb_true_iff in He.
  rewrite vt_apply_nostable by exact He. apply IH, Hr.
Qed.

Lemma firstn_forallb {A} (f : A -> bool) l j : forallb f l = true -> forallb f (firstn j l) = true.
Proof.
  revert j. induction l as [|x r IH]; intros j H; destruct j; simpl in *; try reflexivity.
  apply andb_true_iff in H. destruct H as [Hx Hr]. rewrite Hx. simpl. apply IH, Hr.
Qed.

(* prefixes of tr1 ++ rest where rest has no stable-store operation reach the same projections
   as prefixes of tr1 *)
Lemma prefix_app_nostable d tr1 rest j :
  forallb (fun e => negb (is_stable_ev e)) rest = true ->
  exists j', fold_left vt_apply (firstn j (tr1 ++ rest)) d = fold_left vt_apply (firstn j' tr1) d.
Proof.
  intros H. rewrite firstn_app, fold_left_app.
  rewrite (fold_nostable _ (firstn (j - length tr1) rest)) by (apply firstn_forallb, H).
  exists j. reflexivity.
Qed.

(* the vote that counts: Some (T, c) if the stored vote is for c and of the stored term T, None if it is of an older term *)
Definition live_d (d : N * N * option N) : option (N * N) :=
  let '(t, vt, vc) := d in
  if vt =? t then match vc with Some c => Some (vt, c) | None => None end else None.
Definition live (s : nstate) : option (N * N) := live_d (dproj s).

(* well-formed: the stored vote is not of a later term than the stored term (wfd, of a durable image; wfd_d on the triple);
   a running server moreover caches the stored term (wfu); wfr is wfu for a server that is up, wfd for its image when down *)
Definition wfd_d (d : N * N * option N) : Prop := snd (fst d) <= fst (fst d).
Definition wfd (s : nstate) : Prop := d_vterm s <= d_term s.
Definition wfu (s : nstate) : Prop := wfd s /\ v_term s = d_term s.
Definition wfr (r : nrun) : Prop := match r with Up s => wfu s | Down s => wfd s end.

Lemma dproj_eq s s' : dproj s' = dproj s -> d_term s' = d_term s /\ d_vterm s' = d_vterm s /\ d_vcand s' = d_vcand s.
Proof. intros H. injection H as A B C. auto. Qed.

Lemma live_term s T c : live s = Some (T, c) -> d_term s = T /\ d_vterm s = T /\ d_vcand s = Some c.
Proof.
  unfold live, live_d, dproj. destruct (d_vterm s =? d_term s) eqn:E; [|discriminate].
  destruct (d_vcand s); [|discriminate]. intros H; inversion H; subst. apply N.eqb_eq in E. auto.
Qed.

Lemma live_intro s T c : d_term s = T -> d_vterm s = T -> d_vcand s = Some c -> live s = Some (T, c).
Proof. intros A B C. unfold live, live_d, dproj. rewrite A, B, C, N.eqb_refl. reflexivity. Qed.

Lemma live_old s : d_vterm s < d_term s -> live s = None.
Proof. intros H. unfold live, live_d, dproj. destruct (N.eqb_spec (d_vterm s) (d_term s)); [lia|reflexivity]. Qed.

Lemma wfu_intro s : d_vterm s <= d_term s -> v_term s = d_term s -> wfu s.
Proof. intros A B. split; assumption. Qed.

Lemma wfu_dproj s s' : wfu s -> dproj s' = dproj s -> v_term s' = v_term s -> wfu s'.
Proof. intros [A B] E Ev. destruct (dproj_eq _ _ E) as (E1 & E2 & _). apply wfu_intro; unfold wfd in A; lia. Qed.

(* the checks a vote cast must have passed, against the voter's state s at that moment *)
Definition cast_ok (P : params) (s : nstate) (e : nevent) (T c : N) : Prop :=
  (exists q, e = NVote q /\ vq_term q = T /\ vq_addr q = c /\ v_term s <= T /\
             log_ok s (vq_lastIdx q) (vq_lastTerm q) = true /\
             (vq_id q <> 0 -> v_latest s <> [] -> has_vote (v_latest s) (vq_id q) = true)) \/
  (e = NElect /\ c = p_self P /\ T = v_term s + 1 /\
   existsb (fun sv => is_voter sv && (s_id sv =? p_self P)) (v_latest s) = true).

(* what every durable image d reachable inside the event e at a server in state s must satisfy *)
Definition good_d (P : params) (s : nstate) (e : nevent) (d : N * N * option N) : Prop :=
  wfd_d d /\
  d_term s <= fst (fst d) /\
  (forall T c, live s = Some (T, c) -> fst (fst d) = T -> live_d d = Some (T, c)) /\
  (forall T c, live_d d = Some (T, c) -> live s <> Some (T, c) -> cast_ok P s e T c).

Lemma good_d_refl P s e : wfd s -> good_d P s e (dproj s).
Proof.
  intros H. unfold good_d, dproj, wfd_d, live; simpl. repeat split; try lia; auto.
  intros T c H1 H2. contradiction.
Qed.

Lemma set_state_dproj s r : dproj (set_state s r) = dproj s.
Proof. reflexivity. Qed.

Lemma do_set_term_spec s fs t s' fs' :
  do_set_term s fs t = Some (s', fs') ->
  d_term s' = t /\ v_term s' = t /\ d_vterm s' = d_vterm s /\ d_vcand s' = d_vcand s /\
  v_latest s' = v_latest s /\ last_entry s' = last_entry s /\ d_log s' = d_log s /\ d_snaps s' = d_snaps s.
Proof. intros H. destruct (do_set_term_eq _ _ _ _ _ H) as [-> _]. repeat split. Qed.

Definition sfilter (tr : list ev) : list ev := List.filter is_stable_ev tr.

Lemma fold_sfilter tr d : fold_left vt_apply tr d = fold_left vt_apply (sfilter tr) d.
Proof. apply fold_filter. intros d0 e. apply vt_apply_nostable. Qed.

Lemma prefix_sfilter tr d j :
  exists j', fold_left vt_apply (firstn j tr) d = fold_left vt_apply (firstn j' (sfilter tr)) d.
Proof. apply prefix_filter. intros d0 e. apply vt_apply_nostable. Qed.

Lemma sfilter_app a b : sfilter (a ++ b) = sfilter a ++ sfilter b.
Proof. apply filter_app. Qed.

(* below the term check the handlers leave term and vote alone and write nothing to the stable
   store (Proofs/NodeFrame.v) *)
Definition vproj (s : nstate) : (N * N * option N) * N := (dproj s, v_term s).
Definition quiet_ev (e : ev) : Prop := is_stable_ev e = false.

Lemma sfilter_quiet tr1 tr' : Forall quiet_ev tr' -> sfilter (tr1 ++ tr') = sfilter tr1.
Proof. intros H. rewrite sfilter_app. unfold sfilter at 2. rewrite (filter_drops_all _ _ H). apply app_nil_r. Qed.

Definition body_ok {R} (s2 : nstate) (tr1 : list ev) (o : outcome R) : Prop :=
  match o with
  | Done s' _ tr _ => sfilter tr = sfilter tr1 /\ dproj s' = dproj s2 /\ v_term s' = v_term s2
  | Panic _ tr => sfilter tr = sfilter tr1
  end.

Lemma body_frame_ok {R} s2 tr1 (o : outcome R) : body_frame vproj quiet_ev s2 tr1 o -> body_ok s2 tr1 o.
Proof.
  destruct o as [s' r tr fs'|s' tr]; simpl.
  - intros [E (tr' & -> & H)]. split; [apply sfilter_quiet, H|].
    split; [exact (f_equal fst E)|exact (f_equal snd E)].
  - intros (tr' & -> & H). apply sfilter_quiet, H.
Qed.

Lemma ae_body_ok P s0 s2 rt tr1 fs1 a : body_ok s2 tr1 (ae_body P s0 s2 rt tr1 fs1 a).
Proof. apply body_frame_ok, (ae_body_frame _ _ (aq_commit a)); intros; reflexivity. Qed.

Lemma is_body_ok P s2 rt tr1 fs1 q : body_ok s2 tr1 (is_body P s2 rt tr1 fs1 q).
Proof. apply body_frame_ok, is_body_frame; intros; reflexivity. Qed.

Lemma take_snapshot_ok P s fs : body_ok s [] (take_snapshot P s fs).
Proof. apply body_frame_ok, take_snapshot_frame; intros; reflexivity. Qed.

Lemma good_term_only P s e t : wfd s -> d_term s <= t -> good_d P s e (t, d_vterm s, d_vcand s).
Proof.
  intros Hwf Hle. unfold wfd in Hwf. unfold good_d, wfd_d, live, live_d, dproj; simpl.
  repeat split; try lia.
  - intros T c HL HT. subst t. destruct (d_vterm s =? d_term s) eqn:E; [|discriminate].
    destruct (d_vcand s); [|discriminate]. inversion HL; subst. rewrite N.eqb_refl. reflexivity.
  - intros T c HL Hne. exfalso. apply Hne. destruct (d_vterm s =? t) eqn:E; [|discriminate].
    apply N.eqb_eq in E. assert (d_vterm s = d_term s) as -> by lia. rewrite N.eqb_refl.
    destruct (d_vcand s); [|discriminate]. inversion HL; subst. f_equal. f_equal. lia.
Qed.

Lemma term_only_prefixes P s e tr t :
  wfd s -> d_term s <= t ->
  (sfilter tr = [] \/ sfilter tr = [ESetTerm t true] \/ sfilter tr = [ESetTerm t false]) ->
  forall j, good_d P s e (fold_left vt_apply (firstn j tr) (dproj s)).
Proof.
  intros Hwf Hle Htr j. destruct (prefix_sfilter tr (dproj s) j) as [j' ->].
  destruct Htr as [->|[->| ->]].
  - destruct j'; simpl; apply good_d_refl; exact Hwf.
  - destruct j' as [|[|j']]; simpl; try (apply good_d_refl; exact Hwf); apply good_term_only; assumption.
  - destruct j' as [|[|j']]; simpl; apply good_d_refl; exact Hwf.
Qed.

(* what a handler must establish: the state it ends in, and every durable image on the way *)
Definition handler_good {R} (P : params) (s : nstate) (e : nevent) (o : outcome R) : Prop :=
  match o with
  | Done s' r tr fs' =>
      wfu s' /\ dproj s' = fold_left vt_apply tr (dproj s) /\
      (forall j, good_d P s e (fold_left vt_apply (firstn j tr) (dproj s)))
  | Panic s' tr => forall j, good_d P s e (fold_left vt_apply (firstn j tr) (dproj s))
  end.

(* a piece that leaves term and vote alone and writes nothing to the stable store *)
Lemma quiet_body_good {R} P s e (o : outcome R) : wfu s -> body_ok s [] o -> handler_good P s e o.
Proof.
  intros [Hwf Hvt] Hb. pose proof Hwf as Hwf'. unfold wfd in Hwf'.
  destruct o as [s' r tr fs'|s' tr]; simpl in Hb |- *.
  - destruct Hb as (F1 & F2 & F3).
    split; [exact (wfu_dproj s s' (conj Hwf Hvt) F2 F3)|].
    split; [rewrite fold_sfilter, F1; exact F2|].
    apply (term_only_prefixes P s e tr (d_term s) Hwf); [lia|]. left. exact F1.
  - apply (term_only_prefixes P s e tr (d_term s) Hwf); [lia|]. left. exact Hb.
Qed.

(* AppendEntries / InstallSnapshot below the term check (NodeFrame.at_term): the optional term bump, then such a piece *)
Lemma at_term_good {R} P s e t addr id s2 tr1 (o : outcome R) :
  wfu s -> at_term s t addr id s2 tr1 -> body_ok s2 tr1 o -> handler_good P s e o.
Proof.
  intros Hw (Hle & [(_ & -> & ->)|(-> & ->)]) Hb; [apply quiet_body_good; assumption|].
  pose proof Hw as [Hwf Hvt]. unfold wfd in Hwf.
  destruct o as [s' r tr fs'|s' tr]; simpl in Hb |- *.
  - destruct Hb as (F1 & F2 & F3). unfold dproj in F2. simpl in F2, F3. injection F2 as A B D.
    split; [apply wfu_intro; lia|].
    split; [rewrite fold_sfilter, F1; unfold dproj; simpl; congruence|].
    apply (term_only_prefixes P s e tr t Hwf); [lia|]. right. left. exact F1.
  - apply (term_only_prefixes P s e tr t Hwf); [lia|]. right. left. exact Hb.
Qed.

(* the two ways out before it: refused with nothing written, or the term could not be persisted *)
Lemma refused_good {R} P s e (r : R) fs : wfu s -> handler_good P s e (Done s r [] fs).
Proof. intros Hw. apply quiet_body_good; [exact Hw|repeat split]. Qed.

Lemma term_panic_good {R} P s e t : wfu s -> v_term s <= t ->
  handler_good P s e (@Panic R (set_state s Follower) [ESetTerm t false]).
Proof. intros [Hwf Hvt] Hle j. apply (term_only_prefixes P s e _ t Hwf); [unfold wfd in Hwf; lia|auto]. Qed.

Lemma persist_vote_spec s1 fs1 T c :
  let '(s2, ok, tr2, fs2) := persist_vote s1 fs1 T c in
  (tr2 = [ESetVoteCand c false] /\ ok = false /\ s2 = s1) \/
  (tr2 = [ESetVoteCand c true; ESetVoteTerm T false] /\ ok = false /\ s2 = set_vcand s1 (Some c)) \/
  (tr2 = [ESetVoteCand c true; ESetVoteTerm T true] /\ ok = true /\ s2 = set_vterm (set_vcand s1 (Some c)) T).
Proof.
  unfold persist_vote. destruct (next_fail fs1) as [f1 fs2]. destruct f1; [left; auto|].
  destruct (next_fail fs2) as [f2 fs3]. destruct f2; [right; left; auto|right; right; auto].
Qed.

(* a complete record (T, c) written while handling a checked request from c in term T *)
Lemma good_cast P s q vt :
  wfu s -> v_term s <= vq_term q -> vt <= vq_term q ->
  log_ok s (vq_lastIdx q) (vq_lastTerm q) = true ->
  (vq_id q <> 0 -> v_latest s <> [] -> has_vote (v_latest s) (vq_id q) = true) ->
  (forall c0, live s <> Some (vq_term q, c0)) ->
  good_d P s (NVote q) (vq_term q, vt, Some (vq_addr q)).
Proof.
  intros [Hwf Hvt] Hle Hvle Hlog Hmem Hnolive. unfold wfd in Hwf.
  unfold good_d, wfd_d; simpl. repeat split; try lia.
  - intros T c HL HT. subst T. exfalso. apply (Hnolive c). exact HL.
  - intros T c HL _. destruct (vt =? vq_term q) eqn:E; [|discriminate].
    inversion HL; subst. apply N.eqb_eq in E. left. exists q. repeat split; auto; lia.
Qed.

Lemma request_vote_good P s fs q : wfu s ->
  match request_vote s fs q with
  | Done s' r tr fs' =>
      wfu s' /\ dproj s' = fold_left vt_apply tr (dproj s) /\
      (forall j, good_d P s (NVote q) (fold_left vt_apply (firstn j tr) (dproj s))) /\
      v_term s <= fst r /\
      (snd r = true -> live s' = Some (vq_term q, vq_addr q))
  | Panic s' tr =>
      forall j, good_d P s (NVote q) (fold_left vt_apply (firstn j tr) (dproj s))
  end.
Proof.
  intros Hw. pose proof Hw as [Hwf Hvt]. unfold wfd in Hwf.
  assert (Hrefl : good_d P s (NVote q) (dproj s)) by (apply good_d_refl; exact Hwf).
  destruct (request_vote_cases s fs q) as [E|[[_ E]|(s1 & fs1 & tr1 & t1 & Hb & Hr)]]; [rewrite E..|].
  { (* the three refusals that write nothing *)
    split; [exact Hw|]. split; [reflexivity|]. split; [intros [|k]; exact Hrefl|].
    split; [apply N.le_refl|discriminate]. }
  { (* panic on the term write: nothing durable happened *)
    intros [|[|k]]; exact Hrefl. }
  (* the state after the bump, and the images reachable while only the bump has happened *)
  assert (Hs1 : dproj s1 = (vq_term q, d_vterm s, d_vcand s) /\ v_term s1 = vq_term q /\
                v_latest s1 = v_latest s /\ last_entry s1 = last_entry s /\
                fold_left vt_apply tr1 (dproj s) = dproj s1 /\ v_term s <= t1 /\ v_term s <= vq_term q /\
                forall j, good_d P s (NVote q) (fold_left vt_apply (firstn j tr1) (dproj s))).
  { destruct Hb as [(-> & -> & -> & -> & Ht)|(ET & -> & -> & Hlt)].
    - unfold dproj at 1. rewrite <- Hvt, Ht. do 5 (split; [reflexivity|]). split; [lia|]. split; [lia|]. intros [|k]; exact Hrefl.
    - apply do_set_term_spec in ET. destruct ET as (A & B & C & D & E & F & _).
      unfold dproj. rewrite A, C, D. do 5 (split; [auto|]). split; [lia|]. split; [lia|].
      intros [|[|k]]; simpl; try exact Hrefl; (apply good_term_only; [exact Hwf|lia]). }
  clear Hb. destruct Hs1 as (Hd1 & B & E & F & Hfold1 & Ht1 & E3 & Hpre).
  pose proof Hd1 as Hd1'. unfold dproj in Hd1'. injection Hd1' as A C D.
  assert (Hwf1 : wfu s1) by (apply wfu_intro; lia).
  destruct Hr as [(g & -> & Hg)|(Hmem & Hnv & Hlog & ->)].
  { (* answered without a further write; granted again only to the candidate the durable vote names *)
    split; [exact Hwf1|]. split; [symmetry; exact Hfold1|]. split; [exact Hpre|]. split; [exact Ht1|].
    simpl. intros ->. destruct (Hg eq_refl) as [Hv Hc]. apply live_intro; congruence. }
  rewrite E in Hmem. unfold log_ok in Hlog. rewrite F in Hlog. fold (log_ok s (vq_lastIdx q) (vq_lastTerm q)) in Hlog.
  assert (Hnolive : forall c0, live s <> Some (vq_term q, c0)).
  { intros c0 HL. unfold live, live_d, dproj in HL.
    destruct (d_vterm s =? d_term s) eqn:EE; [|discriminate].
    destruct (d_vcand s) as [c1|] eqn:EC; [|discriminate]. inversion HL; subst.
    rewrite C, D in Hnv. specialize (Hnv H0). discriminate. }
  pose proof (persist_vote_spec s1 fs1 (vq_term q) (vq_addr q)) as Hp.
  destruct (persist_vote s1 fs1 (vq_term q) (vq_addr q)) as [[[s2 ok] tr2] fs2].
  (* the three images the two writes of persistVote pass through *)
  assert (Hg0 : good_d P s (NVote q) (vq_term q, d_vterm s, d_vcand s)).
  { rewrite <- Hd1, <- Hfold1, <- (firstn_all tr1). apply Hpre. }
  assert (Hg1 : good_d P s (NVote q) (vq_term q, d_vterm s, Some (vq_addr q))).
  { apply good_cast; auto; lia. }
  assert (Hg2 : good_d P s (NVote q) (vq_term q, vq_term q, Some (vq_addr q))).
  { apply good_cast; auto; lia. }
  assert (Hsplit : forall tr2' j,
     (forall j', good_d P s (NVote q) (fold_left vt_apply (firstn j' tr2') (dproj s1))) ->
     good_d P s (NVote q) (fold_left vt_apply (firstn j (tr1 ++ tr2')) (dproj s))).
  { intros tr2' j H2. rewrite firstn_app, fold_left_app.
    destruct (Nat.le_gt_cases (length tr1) j) as [Hj|Hj].
    - rewrite (@firstn_all2 _ j tr1 Hj). rewrite Hfold1. apply H2.
    - replace (j - length tr1)%nat with 0%nat by (clear - Hj; lia). simpl. apply Hpre. }
  simpl. destruct Hp as [(-> & -> & ->)|[(-> & -> & ->)|(-> & -> & ->)]];
    (split; [|split; [rewrite fold_left_app, Hfold1, Hd1; unfold dproj; simpl; rewrite ?A, ?C; reflexivity
                     |split; [|split; [exact Ht1|]]]]).
  - exact Hwf1.
  - intros j. apply Hsplit. intros j'. rewrite Hd1. destruct j' as [|[|j']]; exact Hg0.
  - discriminate.
  - apply wfu_intro; simpl; lia.
  - intros j. apply Hsplit. intros j'. rewrite Hd1. destruct j' as [|[|[|j']]]; simpl; first [exact Hg1|exact Hg0].
  - discriminate.
  - apply wfu_intro; simpl; lia.
  - intros j. apply Hsplit. intros j'. rewrite Hd1. destruct j' as [|[|[|j']]]; simpl; first [exact Hg2|exact Hg1|exact Hg0].
  - simpl. intros _. apply live_intro; simpl; congruence.
Qed.

Lemma append_entries_good P s fs a : wfu s -> handler_good P s (NAppend a) (append_entries P s fs a).
Proof.
  intros Hw. destruct (append_entries_enter P s fs a) as [[_ ->]|[[Hle ->]|(s2 & tr1 & fs1 & Hat & ->)]].
  - apply refused_good, Hw.
  - apply term_panic_good; assumption.
  - exact (at_term_good _ _ _ _ _ _ _ _ _ Hw Hat (ae_body_ok _ _ _ _ _ _ _)).
Qed.

Lemma install_snapshot_good P s fs q : wfu s -> handler_good P s (NInstall q) (install_snapshot P s fs q).
Proof.
  intros Hw. destruct (install_snapshot_enter P s fs q) as [[_ ->]|[[Hle ->]|(s2 & tr1 & fs1 & Hat & ->)]].
  - apply refused_good, Hw.
  - apply term_panic_good; [exact Hw|lia].
  - exact (at_term_good _ _ _ _ _ _ _ _ _ Hw Hat (is_body_ok _ _ _ _ _ _)).
Qed.

Lemma elect_self_good P s fs : wfu s -> handler_good P s NElect (elect_self P s fs).
Proof.
  intros Hw. pose proof Hw as [Hwf Hvt]. unfold wfd in Hwf. unfold elect_self.
  assert (Hrefl : good_d P s NElect (dproj s)) by (apply good_d_refl; exact Hwf).
  destruct (do_set_term s fs (v_term s + 1)) as [[s1 fs1]|] eqn:E.
  2:{ intros j. destruct j as [|[|j]]; simpl; exact Hrefl. }
  apply do_set_term_spec in E. destruct E as (A & B & C & D & EL & F & _).
  assert (Hd1 : dproj s1 = (v_term s + 1, d_vterm s, d_vcand s)) by (unfold dproj; rewrite A, C, D; reflexivity).
  assert (Hg1 : good_d P s NElect (v_term s + 1, d_vterm s, d_vcand s)).
  { apply good_term_only; [exact Hwf|lia]. }
  destruct (last_entry s1) as [li lt].
  destruct (existsb (fun sv => is_voter sv && (s_id sv =? p_self P)) (v_latest s1)) eqn:EV.
  - pose proof (persist_vote_spec s1 fs1 (v_term s + 1) (p_self P)) as Hp.
    destruct (persist_vote s1 fs1 (v_term s + 1) (p_self P)) as [[[s2 ok] tr2] fs2].
    assert (Hg2 : good_d P s NElect (v_term s + 1, d_vterm s, Some (p_self P))).
    { unfold good_d, wfd_d, live, live_d, dproj; simpl. repeat split; try lia.
      - intros T c HL HT. destruct (d_vterm s =? d_term s) eqn:EE; [|discriminate].
        destruct (d_vcand s); inversion HL; subst. lia.
      - intros T c HL _. destruct (d_vterm s =? v_term s + 1) eqn:EE; [|discriminate]. lia. }
    assert (Hg3 : good_d P s NElect (v_term s + 1, v_term s + 1, Some (p_self P))).
    { unfold good_d, wfd_d, live, live_d, dproj; simpl. repeat split; try lia.
      - intros T c HL HT. destruct (d_vterm s =? d_term s) eqn:EE; [|discriminate].
        destruct (d_vcand s); inversion HL; subst. lia.
      - intros T c HL _. rewrite N.eqb_refl in HL. inversion HL; subst. right.
        repeat split; auto. rewrite <- EL. exact EV. }
    simpl. destruct Hp as [(-> & -> & ->)|[(-> & -> & ->)|(-> & -> & ->)]].
    + split; [apply wfu_intro; lia|]. split; [simpl; exact Hd1|].
      intros j. destruct j as [|[|[|j]]]; simpl; first [exact Hrefl|exact Hg1].
    + split; [apply wfu_intro; simpl; lia|].
      split; [unfold dproj; simpl; rewrite A, C; reflexivity|].
      intros j. destruct j as [|[|[|[|j]]]]; simpl; first [exact Hrefl|exact Hg1|exact Hg2].
    + split; [apply wfu_intro; simpl; lia|].
      split; [unfold dproj; simpl; rewrite A; reflexivity|].
      intros j. destruct j as [|[|[|[|j]]]]; simpl; first [exact Hrefl|exact Hg1|exact Hg2|exact Hg3].
  - simpl. split; [apply wfu_intro; lia|]. split; [exact Hd1|].
    intros j. destruct j as [|[|j]]; simpl; first [exact Hrefl|exact Hg1].
Qed.

Lemma recover_spec P img s tr : recover P img = RecOk s tr ->
  dproj s = dproj img /\ v_term s = d_term img.
Proof.
  intros H. apply (recover_frame vproj) in H; try (intros; reflexivity).
  split; [exact (f_equal fst H)|exact (f_equal snd H)].
Qed.

Lemma boot_spec P img r out : wfd img -> boot P img = (r, out) ->
  wfr r /\ dproj (image r) = dproj img.
Proof.
  intros Hwf H. destruct (boot_cases _ _ _ _ H) as [(s & tr & E & ->)| ->]; [|simpl; auto].
  apply recover_spec in E. destruct E as [E1 E2]. split; [|exact E1].
  destruct (dproj_eq _ _ E1) as (A & B & _). apply wfu_intro; unfold wfd in Hwf; lia.
Qed.

Lemma good_d_wfd P s e img : good_d P s e (dproj img) -> wfd img.
Proof. intros (H & _). exact H. Qed.

Lemma finish_good {R} P (enc : R -> list N) (mk : R -> nobs) si s e cut (o : outcome R) :
  handler_good P s e o ->
  let '(r', ob, out) := finish P enc mk si s cut o in
  wfr r' /\ good_d P s e (dproj (image r')) /\
  (ob = OLost \/ exists s' r tr fs', o = Done s' r tr fs' /\ r' = Up s' /\ ob = mk r).
Proof.
  intros Hg. destruct (finish P enc mk si s cut o) as [[r' ob] out] eqn:EF.
  destruct (finish_cases _ _ _ _ _ _ _ _ _ _ EF) as [(s1 & r & tr & fs' & -> & -> & ->)|(k & oo & EB & ->)].
  - destruct Hg as (Hw' & Hd & Hj). split; [exact Hw'|]. split; [|right; exists s1, r, tr, fs'; auto].
    simpl. rewrite Hd. rewrite <- (firstn_all tr) at 1. apply Hj.
  - assert (Hj : forall j, good_d P s e (fold_left vt_apply (firstn j (trace_of o)) (dproj s))) by (destruct o; apply Hg).
    destruct (cut_image_prefix P si (trace_of o) s k) as [j Hjj]. pose proof (Hj j) as Hgood. rewrite <- Hjj in Hgood.
    apply boot_spec in EB; [|eapply good_d_wfd; exact Hgood]. destruct EB as [B1 B2].
    split; [exact B1|]. split; [rewrite B2; exact Hgood|]. left. reflexivity.
Qed.

Lemma wfr_wfd r : wfr r -> wfd (image r).
Proof. destruct r; simpl; [intros [H _]; exact H|auto]. Qed.

(* takeSnapshot touches the snapshot store and the log store only *)
Lemma take_snapshot_good P s fs : wfu s -> handler_good P s NSnapshot (take_snapshot P s fs).
Proof. intros Hw. apply quiet_body_good; [exact Hw|apply take_snapshot_ok]. Qed.

(* Every event, every failure pattern, every crash cut *)
Theorem step_good P r e cut fs : wfr r ->
  let '(r', ob, out) := step_full P r e cut fs in
  wfr r' /\ good_d P (image r) e (dproj (image r')) /\
  (forall q t, ob = OVote q t true -> live (image r') = Some (vq_term q, vq_addr q)) /\
  (forall q t g s, ob = OVote q t g -> r = Up s -> v_term s <= t).
Proof.
  intros Hw. pose proof (wfr_wfd r Hw) as Hwd.
  (* the server stays as it is and no vote is observed *)
  assert (Hstay : forall ob, (forall q t g, ob <> OVote q t g) ->
     wfr r /\ good_d P (image r) e (dproj (image r)) /\
     (forall q t, ob = OVote q t true -> live (image r) = Some (vq_term q, vq_addr q)) /\
     (forall q t g s, ob = OVote q t g -> r = Up s -> v_term s <= t)).
  { intros ob Hno. split; [exact Hw|]. split; [apply good_d_refl; exact Hwd|].
    split; intros; exfalso; eapply Hno; eassumption. }
  (* NewRaft on the durable image *)
  assert (Hboot : forall r' out, boot P (image r) = (r', out) ->
     wfr r' /\ good_d P (image r) e (dproj (image r')) /\
     (forall q t, ONone = OVote q t true -> live (image r') = Some (vq_term q, vq_addr q)) /\
     (forall q t g s, ONone = OVote q t g -> r = Up s -> v_term s <= t)).
  { intros r' out EB. apply boot_spec in EB; [|exact Hwd]. destruct EB as [B1 B2].
    split; [exact B1|]. split; [rewrite B2; apply good_d_refl; exact Hwd|]. split; intros; discriminate. }
  (* a handler whose answer is not a vote *)
  assert (Hfin : forall R (enc : R -> list N) (mk : R -> nobs) si s (o : outcome R),
     r = Up s -> (forall x q t g, mk x <> OVote q t g) -> handler_good P s e o ->
     let '(r', ob, out) := finish P enc mk si s cut o in
     wfr r' /\ good_d P (image r) e (dproj (image r')) /\
     (forall q t, ob = OVote q t true -> live (image r') = Some (vq_term q, vq_addr q)) /\
     (forall q t g s0, ob = OVote q t g -> r = Up s0 -> v_term s0 <= t)).
  { intros R enc mk si s o -> Hmk Hh. pose proof (finish_good P enc mk si s e cut o Hh) as Hf.
    destruct (finish P enc mk si s cut o) as [[r' ob] out].
    destruct Hf as (F1 & F2 & F3). split; [exact F1|]. split; [exact F2|].
    destruct F3 as [->|(s' & rr & tr & fs' & Ho & -> & ->)]; split; intros; try discriminate;
      exfalso; eapply Hmk; eassumption. }
  unfold step_full. destruct r as [s|s]; destruct e as [q|q|a|q| | | | |];
    try (apply Hstay; discriminate).
  - (* vote *)
    pose proof (request_vote_good P s fs q Hw) as Hrv.
    assert (Hh : handler_good P s (NVote q) (request_vote s fs q)).
    { destruct (request_vote s fs q); simpl in *; [tauto|exact Hrv]. }
    pose proof (finish_good P (fun x : N * bool => [fst x; b2n (snd x)]) (fun x => OVote q (fst x) (snd x)) None s (NVote q) cut _ Hh) as Hf.
    destruct (finish P _ _ None s cut (request_vote s fs q)) as [[r' ob] out].
    destruct Hf as (F1 & F2 & F3). split; [exact F1|]. split; [exact F2|].
    destruct F3 as [->|(s' & rr & tr & fs' & Ho & -> & ->)].
    + split; intros; discriminate.
    + rewrite Ho in Hrv. destruct Hrv as (_ & _ & _ & Ht & Hgr). split.
      * intros q0 t0 Hob. inversion Hob; subst. simpl. apply Hgr. assumption.
      * intros q0 t0 g0 s0 Hob Hs. inversion Hob; subst. inversion Hs; subst. exact Ht.
  - (* pre-vote: no state change at all *)
    destruct (request_prevote s q) as [t g]. apply Hstay. discriminate.
  - (* append *) apply Hfin; [reflexivity|discriminate|apply append_entries_good, Hw].
  - (* install *) apply Hfin; [reflexivity|discriminate|apply install_snapshot_good, Hw].
  - (* elect *) apply Hfin; [reflexivity|discriminate|apply elect_self_good, Hw].
  - (* restart *) destruct (boot P _) as [r' out]. exact (Hboot r' out eq_refl).
  - (* snapshot *)
    destruct (fsm_index s) as [fi ft]. apply Hfin; [reflexivity|discriminate|apply take_snapshot_good, Hw].
  - destruct (boot P _) as [r' out]. exact (Hboot r' out eq_refl).
Qed.

Definition input : Type := nevent * N * list bool.
Definition hitem : Type := nrun * nevent * nobs * nrun.

Fixpoint run_hist (P : params) (r : nrun) (ins : list input) : list hitem :=
  match ins with
  | [] => []
  | (e, cut, fs) :: rest =>
    let '(r', ob, _) := step_full P r e cut fs in (r, e, ob, r') :: run_hist P r' rest
  end.

Definition grant_of (h : hitem) : list (N * N) :=
  match h with
  | (_, _, OVote q _ true, _) => [(vq_term q, vq_addr q)]
  | _ => []
  end.
Definition grants (h : list hitem) : list (N * N) := flat_map grant_of h.

Definition functional (G : list (N * N)) : Prop :=
  forall T c c', In (T, c) G -> In (T, c') G -> c = c'.

Definition inv_grants (r : nrun) (G : list (N * N)) : Prop :=
  forall T c, In (T, c) G ->
    T < d_term (image r) \/ (d_term (image r) = T /\ live (image r) = Some (T, c)).

Definition ob_grant (ob : nobs) : list (N * N) :=
  match ob with OVote q _ true => [(vq_term q, vq_addr q)] | _ => [] end.

(* r becomes r' while the votes E are added to those it is counted as having granted: the durable term does not
   fall, a complete vote record stays while the term does, and each vote of E is the record afterwards *)
Definition vmove (r : nrun) (E : list (N * N)) (r' : nrun) : Prop :=
  wfr r' /\ d_term (image r) <= d_term (image r') /\
  (forall T c, live (image r) = Some (T, c) -> d_term (image r') = T -> live (image r') = Some (T, c)) /\
  (forall T c, In (T, c) E -> live (image r') = Some (T, c)).

Lemma vmove_grants r E r' G : vmove r E r' -> inv_grants r G -> functional G ->
  inv_grants r' (E ++ G) /\ functional (E ++ G).
Proof.
  intros (_ & Hmono & Hstab & HE) Hinv Hfun.
  assert (Hinv' : inv_grants r' G).
  { intros T c Hin. destruct (Hinv T c Hin) as [Hlt|[Heq HL]]; [left; lia|].
    destruct (N.eq_dec (d_term (image r')) T) as [Et|Et]; [right; split; [exact Et|apply Hstab; assumption]|left; lia]. }
  assert (HEt : forall T c, In (T, c) E -> d_term (image r') = T) by (intros T c Hin; apply HE, live_term in Hin; tauto).
  (* a vote of E in a term in which G has one: G's is still the record *)
  assert (Hold : forall T c c', In (T, c) E -> In (T, c') G -> c' = c).
  { intros T c c' H1 H2. destruct (Hinv' _ _ H2) as [Hlt|[_ HL]]; [rewrite (HEt _ _ H1) in Hlt; lia|].
    rewrite (HE _ _ H1) in HL. congruence. }
  split.
  - intros T c Hin. apply in_app_iff in Hin. destruct Hin as [Hin|Hin]; [|apply Hinv', Hin].
    right. split; [eapply HEt|apply HE]; exact Hin.
  - intros T c c' H1 H2. apply in_app_iff in H1, H2. destruct H1 as [H1|H1], H2 as [H2|H2].
    + apply HE in H1, H2. congruence.
    + symmetry. eapply Hold; eassumption.
    + eapply Hold; eassumption.
    + exact (Hfun T c c' H1 H2).
Qed.

Lemma vmove_step P r e cut fs r' ob out : wfr r -> step_full P r e cut fs = (r', ob, out) -> vmove r (ob_grant ob) r'.
Proof.
  intros Hw Hs. pose proof (step_good P r e cut fs Hw) as Hg. rewrite Hs in Hg.
  destruct Hg as (Hw' & (_ & Hmono & Hstab & _) & Hgr & _).
  split; [exact Hw'|]. split; [exact Hmono|]. split; [exact Hstab|].
  destruct ob as [q t [|]| | | | | |]; intros T c Hin; try contradiction.
  destruct Hin as [Hin|[]]. inversion Hin; subst. exact (Hgr q t eq_refl).
Qed.

Lemma vmove_refl r : wfr r -> vmove r [] r.
Proof. intros Hw. split; [exact Hw|]. split; [apply N.le_refl|]. split; [auto|intros T c []]. Qed.

Lemma vmove_up r E r' : wfr r' -> d_term (image r) < d_term (image r') ->
  (forall T c, In (T, c) E -> live (image r') = Some (T, c)) -> vmove r E r'.
Proof.
  intros Hw Hlt HE. split; [exact Hw|]. split; [lia|]. split; [|exact HE].
  intros T c HL Ht. apply live_term in HL. lia.
Qed.

(* the conditions read only term and vote *)
Lemma vmove_ext r E r1 r2 : vmove r E r1 -> wfr r2 -> dproj (image r2) = dproj (image r1) -> vmove r E r2.
Proof.
  intros (_ & A & B & C) Hw Ed.
  assert (Et : d_term (image r2) = d_term (image r1)) by (apply (dproj_eq _ _ Ed)).
  unfold vmove, live. rewrite Ed, Et. auto.
Qed.

Lemma vmove_keep s s' : wfu s -> dproj s' = dproj s -> v_term s' = v_term s -> vmove (Up s) [] (Up s').
Proof. intros Hw Ed Ev. eapply vmove_ext; [apply vmove_refl, Hw|eapply wfu_dproj; eassumption|exact Ed]. Qed.

Lemma grants_cons h rest : grants (h :: rest) = grant_of h ++ grants rest.
Proof. reflexivity. Qed.

Lemma run_hist_cons P r e cut fs rest :
  run_hist P r ((e, cut, fs) :: rest) =
  (r, e, snd (fst (step_full P r e cut fs)), fst (fst (step_full P r e cut fs)))
    :: run_hist P (fst (fst (step_full P r e cut fs))) rest.
Proof. simpl. destruct (step_full P r e cut fs) as [[r' ob] out]. reflexivity. Qed.

Lemma grants_functional P ins : forall r G,
  wfr r -> inv_grants r G -> functional G -> functional (G ++ grants (run_hist P r ins)).
Proof.
  induction ins as [|[[e cut] fs] rest IH]; intros r G Hw Hinv Hfun.
  - simpl. rewrite app_nil_r. exact Hfun.
  - rewrite run_hist_cons, grants_cons, app_assoc.
    destruct (step_full P r e cut fs) as [[r' ob] out] eqn:Hs. cbn [fst snd].
    pose proof (vmove_step _ _ _ _ _ _ _ _ Hw Hs) as Hm.
    destruct (vmove_grants _ _ _ G Hm Hinv Hfun) as [Hi Hf].
    assert (Hsub : incl (G ++ ob_grant ob) (ob_grant ob ++ G)) by (apply incl_app; [apply incl_appr|apply incl_appl]; apply incl_refl).
    apply IH; [apply Hm|intros T c Hin; apply Hi, Hsub, Hin|intros T c c' H1 H2; apply (Hf T c c'); apply Hsub; assumption].
Qed.

Theorem one_vote_per_term P r ins : wfr r -> functional (grants (run_hist P r ins)).
Proof.
  intros Hw. change (functional ([] ++ grants (run_hist P r ins))).
  apply grants_functional; [exact Hw| |]; intros T c; [intros []|intros c' []].
Qed.

Lemma run_hist_step P ins : forall r, wfr r ->
  forall pre e ob post, In (pre, e, ob, post) (run_hist P r ins) ->
  exists cut fs out, step_full P pre e cut fs = (post, ob, out) /\ wfr pre.
Proof.
  induction ins as [|[[e cut] fs] rest IH]; intros r Hw pre e' ob post Hin; simpl in Hin; [contradiction|].
  pose proof (step_good P r e cut fs Hw) as Hs.
  destruct (step_full P r e cut fs) as [[r' ob'] out] eqn:ES. destruct Hs as (Hw' & _).
  destruct Hin as [Hin|Hin].
  - inversion Hin; subst. exists cut, fs, out. auto.
  - eapply IH; eauto.
Qed.

Lemma run_hist_wf P ins : forall r, wfr r ->
  forall pre e ob post, In (pre, e, ob, post) (run_hist P r ins) -> wfr pre /\ wfr post.
Proof.
  intros r Hw pre e ob post Hin. destruct (run_hist_step P ins r Hw pre e ob post Hin) as (cut & fs & out & ES & Hwp).
  split; [exact Hwp|]. pose proof (step_good P pre e cut fs Hwp) as Hs. rewrite ES in Hs. apply Hs.
Qed.

(* every item of every history: term monotone, casts checked, grants persisted, the answer's term not
   below the server's *)
Theorem history_item_good P r ins : wfr r ->
  forall pre e ob post, In (pre, e, ob, post) (run_hist P r ins) ->
  d_term (image pre) <= d_term (image post) /\
  (forall T c, live (image post) = Some (T, c) -> live (image pre) <> Some (T, c) -> cast_ok P (image pre) e T c) /\
  (forall q t, ob = OVote q t true ->
     d_term (image post) = vq_term q /\ d_vterm (image post) = vq_term q /\ d_vcand (image post) = Some (vq_addr q)) /\
  (forall q t g s, ob = OVote q t g -> pre = Up s -> d_term s <= t).
Proof.
  intros Hw pre e ob post Hin.
  destruct (run_hist_step P ins r Hw pre e ob post Hin) as (cut & fs & out & ES & Hwp).
  pose proof (step_good P pre e cut fs Hwp) as Hs. rewrite ES in Hs.
  destruct Hs as (_ & (_ & Hmono & _ & Hcast) & Hgr & Hrt).
  split; [exact Hmono|]. split; [exact Hcast|]. split.
  - intros q t Hob. apply live_term. apply (Hgr q t Hob).
  - intros q t g s Hob Hpre. subst pre. destruct Hwp as [_ Hv]. rewrite <- Hv. eapply Hrt; eauto.
Qed.
