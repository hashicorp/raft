(* ClusterCommitLog.v — what each label of cstep does, as inversions (cstep_base_inv, cstep_ack_inv,
   cstep_giveup_inv, cstep_commit_inv, over ack_result and base_leads / base_hb / base_ans; cstep_handler_inv for
   the three labels that run a handler at one server): CBase is
   a ClusterLog step; CAck / CGiveUp / CCommit touch only the role (step-down), the commit / applied /
   FSM fields (ckeep, its parts by name: ckeep_view; leader_commit_ckeep) and the leadership bookkeeping, never logs, terms or votes.  So a step
   without takeSnapshot keeps the Log Matching invariant of Proofs/ClusterLogSnapInv.v at h = false on the replication
   part cg_l (cstep_sinv, crun_sinv), and such a run keeps every snapshot store empty (crun_no_snaps): that is
   what the statements without snapshots use. *)
From Coq Require Import List NArith Bool Lia.
From stdpp Require Import gmap.
From RaftModel Require Import Base Config Commitment Node NodeCodec Leader Cluster ClusterLog ClusterCommit.
From RaftProofs Require Import ConfigProofs VoteProofs LeaderProofs ClusterProofs ClusterStepInv ClusterLogSpec ClusterLogChain
  ClusterLogNode ClusterLogVote ClusterLogShell ClusterCommitSpec ClusterCommitInv ClusterCommitSnapLog ClusterLogSnapState
  ClusterLogSnapInv ClusterLogSnapMain ClusterLogMain ClusterQuorumMonoSpec.
Open Scope N_scope.

Section Volatile.
  Variable cfgs : list config.
  Hypothesis HQ : quorums_intersect cfgs.
  Variable base : list entry.

  (* a Leader's state changes outside what the Log Matching invariant (without takeSnapshot) reads *)
  Lemma sinv_volatile g C i n s s' :
    sinv false base 0 cfgs g C -> find_node (g_nodes (lg_g g)) i = Some n -> gn_run n = Up s -> v_role s = Leader ->
    dproj s' = dproj s -> v_term s' = v_term s -> lkeep s' s -> v_lastSnapTerm s' = v_lastSnapTerm s ->
    sinv false base 0 cfgs (mkLG (set_node_run (lg_g g) i n (Up s')) (lg_msgs g)) C.
  Proof.
    intros Hinv Hfind Hrun Hrole Hd Ht Hk Hst. destruct (find_node_in _ _ _ Hfind) as [Hin _].
    destruct (sh_nodes Hinv n Hin) as [Hnl _]. unfold snp in Hnl. rewrite Hrun in Hnl. destruct Hnl as [HZ [_ HN]].
    apply (shell_volatile cfgs HQ _ _ _ (snp_mono false base 0) (srq_mono false 0) _ C i n s s' Hinv Hfind Hrun Hrole Hd Ht); [apply Hk|].
    assert (Dt : d_term s' = d_term s) by (unfold dproj in Hd; inversion Hd; reflexivity).
    split; [apply (zup_lkeep C s s' HZ Hk Hst); rewrite Dt; apply N.le_refl|]. split; [discriminate|].
    intros _. destruct Hk as (_ & K2 & _ & _ & K5). rewrite K2, K5. apply (HN eq_refl).
  Qed.
End Volatile.

(* everything but commitIndex, lastApplied, the FSM and the committed configuration is untouched *)
Definition ckeep (s' s : nstate) : Prop :=
  dproj s' = dproj s /\ d_log s' = d_log s /\ d_snaps s' = d_snaps s /\ d_staged s' = d_staged s /\ d_pcommit s' = d_pcommit s /\
  v_role s' = v_role s /\ v_term s' = v_term s /\ v_lastLogIdx s' = v_lastLogIdx s /\ v_lastLogTerm s' = v_lastLogTerm s /\
  v_lastSnapIdx s' = v_lastSnapIdx s /\ v_lastSnapTerm s' = v_lastSnapTerm s /\
  v_latest s' = v_latest s /\ v_latestIdx s' = v_latestIdx s /\ v_transfer s' = v_transfer s.

Section CkeepView.
  Context {s' s : nstate}.
  Record ckeep_view : Prop := {
    ck_dproj : dproj s' = dproj s;
    ck_log : d_log s' = d_log s;
    ck_snaps : d_snaps s' = d_snaps s;
    ck_staged : d_staged s' = d_staged s;
    ck_pcommit : d_pcommit s' = d_pcommit s;
    ck_role : v_role s' = v_role s;
    ck_term : v_term s' = v_term s;
    ck_lastIdx : v_lastLogIdx s' = v_lastLogIdx s;
    ck_lastTerm : v_lastLogTerm s' = v_lastLogTerm s;
    ck_snapIdx : v_lastSnapIdx s' = v_lastSnapIdx s;
    ck_snapTerm : v_lastSnapTerm s' = v_lastSnapTerm s;
    ck_latest : v_latest s' = v_latest s;
    ck_latestIdx : v_latestIdx s' = v_latestIdx s;
    ck_transfer : v_transfer s' = v_transfer s
  }.
End CkeepView.
Arguments ckeep_view : clear implicits.

Lemma ckeep_fields {s' s} : ckeep s' s -> ckeep_view s' s.
Proof. unfold ckeep. intros H. decompose [and] H. constructor; assumption. Qed.

Lemma ckeep_lkeep s' s : ckeep s' s -> lkeep s' s.
Proof. unfold ckeep, lkeep. intros H. decompose [and] H. repeat split; assumption. Qed.

Lemma last_in_nonempty {A} (l : list A) d : l <> [] -> In (last l d) l.
Proof. apply last_in. Qed.

Lemma leader_commit_ckeep ls ls2 tr res : leader_commit ls = Some (ls2, tr, res) ->
  ckeep (l_node ls2) (l_node ls) /\ v_commit (l_node ls2) = cm_commit (l_cm ls) /\ l_cm ls2 = l_cm ls /\
  (v_committed (l_node ls2) = v_committed (l_node ls) \/ v_committed (l_node ls2) = v_latest (l_node ls)) /\
  (v_applied (l_node ls2) = v_applied (l_node ls) \/ v_applied (l_node ls2) <= cm_commit (l_cm ls)).
Proof.
  intros H. destruct (leader_commit_spec _ _ _ _ H) as (ready & a & fsm & fl & _ & _ & Hcm & -> & Ha). cbv zeta in Ha.
  split; [|split; [|split; [exact Hcm|split]]]; unfold commit_cfg; destruct (_ && _); simpl; try (repeat split; fail); auto.
  all: destruct Ha as [(-> & _)|(items & Hle & _)]; [left; reflexivity|right; lia].
Qed.

Lemma cstep_giveup_inv sn cfgs g i j g' : cstep sn cfgs g (CGiveUp i j) = Some g' ->
  exists n ld s k, find_node (cnodes g) i = Some n /\ find_lead (cg_lead g) i = Some ld /\ gn_run n = Up s /\
    assoc (ld_out ld) j = Some k /\ v_role s = Leader /\
    g' = mkCG (cg_l g) (set_lead (cg_lead g) i (with_out ld j None)) (cg_hb g) (cg_ans g).
Proof.
  unfold cstep, cnodes. destruct (find_node _ i) as [n|]; [|discriminate].
  destruct (find_lead _ i) as [ld|]; [|discriminate]. destruct (gn_run n) as [s|s] eqn:R; [|discriminate].
  destruct (assoc (ld_out ld) j) as [k|] eqn:A; [|discriminate].
  destruct (N.eqb_spec (v_role s) Leader) as [Hr|]; [|discriminate].
  intros H; inversion H; subst. exists n, ld, s, k. repeat split; auto.
Qed.

Lemma cstep_commit_inv sn cfgs g i g' : cstep sn cfgs g (CCommit i) = Some g' ->
  exists n ld s ls2 tr res, find_node (cnodes g) i = Some n /\ find_lead (cg_lead g) i = Some ld /\ gn_run n = Up s /\
    v_role s = Leader /\ ld_notified ld = true /\
    leader_commit (mkLS s (ld_cm ld) (ld_infl ld)) = Some (ls2, tr, res) /\
    g' = mkCG (mkLG (set_node_run (lg_g (cg_l g)) i n (Up (l_node ls2))) (lg_msgs (cg_l g)))
              (set_lead (cg_lead g) i (with_notified (with_cm ld (l_cm ls2) (l_inflight ls2)) false)) (cg_hb g) (cg_ans g).
Proof.
  unfold cstep, cnodes. destruct (find_node _ i) as [n|]; [|discriminate].
  destruct (find_lead _ i) as [ld|]; [|discriminate]. destruct (gn_run n) as [s|s] eqn:R; [|discriminate].
  destruct ((v_role s =? Leader) && ld_notified ld) eqn:B; [|discriminate].
  apply andb_prop in B. destruct B as [B1 B2]. apply N.eqb_eq in B1.
  destruct (leader_commit _) as [[[ls2 tr] res]|] eqn:L; [|discriminate].
  intros H; inversion H; subst. exists n, ld, s, ls2, tr, res. repeat split; auto.
Qed.

Definition ack_result (g : cgstate) (a : ares) (m : amsg) (n : gnode) (s : nstate) (ld0 : lead) : cgstate :=
  let i := am_from m in let j := am_to m in
  let ld := with_out ld0 j None in
  let r := rs_resp a in
  if aq_term (am_req m) <? ar_term r then
    mkCG (mkLG (set_node_run (lg_g (cg_l g)) i n (Up (set_state s Follower))) (lg_msgs (cg_l g)))
         (set_lead (cg_lead g) i ld) (cg_hb g) (cg_ans g)
  else if ar_success r then
    match aq_entries (am_req m) with
    | [] => mkCG (cg_l g) (set_lead (cg_lead g) i ld) (cg_hb g) (cg_ans g)
    | es =>
      let li := e_idx (last_of es) in
      let ld1 := with_next ld j (li + 1) in
      let ls1 := peer_match (mkLS s (ld_cm ld1) (ld_infl ld1)) j li in
      let ld2 := with_cm ld1 (l_cm ls1) (l_inflight ls1) in
      mkCG (cg_l g)
           (set_lead (cg_lead g) i (if cm_commit (l_cm ls1) =? cm_commit (ld_cm ld1) then ld2 else with_notified ld2 true))
           (cg_hb g) (cg_ans g)
    end
  else
    let nx := N.max (N.min (next_of ld j - 1) (ar_last r + 1)) 1 in
    mkCG (cg_l g) (set_lead (cg_lead g) i (with_next ld j nx)) (cg_hb g) (cg_ans g).

Lemma cstep_ack_inv sn cfgs g k g' : cstep sn cfgs g (CAck k) = Some g' ->
  exists a m n ld0 s, nth_error (cg_ans g) k = Some a /\ nth_error (lg_msgs (cg_l g)) (rs_req a) = Some m /\
    find_node (cnodes g) (am_from m) = Some n /\ find_lead (cg_lead g) (am_from m) = Some ld0 /\ gn_run n = Up s /\
    v_role s = Leader /\ v_term s = aq_term (am_req m) /\ assoc (ld_out ld0) (am_to m) = Some (rs_req a) /\
    g' = ack_result g a m n s ld0.
Proof.
  unfold cstep, cnodes. destruct (nth_error (cg_ans g) k) as [a|] eqn:Ea; [|discriminate].
  destruct (nth_error (lg_msgs (cg_l g)) (rs_req a)) as [m|] eqn:Em; [|discriminate].
  destruct (find_node _ (am_from m)) as [n|] eqn:Fn; [|discriminate].
  destruct (find_lead _ (am_from m)) as [ld0|] eqn:Fl; [|discriminate].
  destruct (gn_run n) as [s|s] eqn:R; [|discriminate].
  destruct (negb _) eqn:B; [discriminate|]. apply negb_false_iff in B.
  apply andb_prop in B. destruct B as [B B3]. apply andb_prop in B. destruct B as [B1 B2].
  apply N.eqb_eq in B1. apply N.eqb_eq in B2.
  destruct (assoc (ld_out ld0) (am_to m)) as [k0|] eqn:A; [|discriminate]. apply Nat.eqb_eq in B3. subst k0.
  intros H. exists a, m, n, ld0, s. repeat (split; [first [assumption|reflexivity]|]).
  unfold ack_result. cbv zeta.
  destruct (aq_term (am_req m) <? ar_term (rs_resp a)); [inversion H; reflexivity|].
  destruct (ar_success (rs_resp a)); [|inversion H; reflexivity].
  destruct (aq_entries (am_req m)); inversion H; reflexivity.
Qed.

Definition base_leads (g : cgstate) (bl : llabel) : list (N * lead) :=
  match bl with
  | LPropose i ty data fs =>
    match find_node (cnodes g) i, find_lead (cg_lead g) i with
    | Some n, Some ld =>
      match gn_run n with
      | Up s =>
        let '(ls', _, _, _) := dispatch (gn_P n) (mkLS s (ld_cm ld) (ld_infl ld)) fs [(ty, data, 0)] in
        set_lead (cg_lead g) i (with_cm ld (l_cm ls') (l_inflight ls'))
      | Down _ => cg_lead g
      end
    | _, _ => cg_lead g
    end
  | LSend i j _ _ =>
    match find_lead (cg_lead g) i with
    | Some ld => set_lead (cg_lead g) i (with_out ld j (Some (length (lg_msgs (cg_l g)))))
    | None => cg_lead g
    end
  | _ => cg_lead g
  end.

Definition base_hb (g : cgstate) (bl : llabel) : list nat :=
  match bl with LHeartbeat _ _ => cg_hb g ++ [length (lg_msgs (cg_l g))] | _ => cg_hb g end.

Definition base_ans (g : cgstate) (bl : llabel) : list ares :=
  match bl with
  | LDeliver k cut fs =>
    match nth_error (lg_msgs (cg_l g)) k with
    | Some m =>
      match find_node (cnodes g) (am_to m) with
      | Some nj =>
        match step_full (gn_P nj) (gn_run nj) (NAppend (am_req m)) cut fs with
        | (_, OAppend _ r, _) => cg_ans g ++ [mkARes k r]
        | _ => cg_ans g
        end
      | None => cg_ans g
      end
    | None => cg_ans g
    end
  | _ => cg_ans g
  end.

Lemma cstep_base_inv sn cfgs g bl g' : cstep sn cfgs g (CBase bl) = Some g' ->
  send_ok g bl = true /\ exists l', lstep sn cfgs (cg_l g) bl = Some l' /\
    g' = mkCG l' (refresh_leads (cnodes g) (g_nodes (lg_g l')) (base_leads g bl)) (base_hb g bl) (base_ans g bl).
Proof.
  unfold cstep. destruct (send_ok g bl); [|discriminate]. cbn [negb].
  destruct (lstep sn cfgs (cg_l g) bl) as [l'|]; [|discriminate].
  intros H; inversion H; subst. split; [reflexivity|]. exists l'. split; reflexivity.
Qed.

(* the labels of the steps that run a handler at one server, and the state after such a step: the handler is
   Proofs/ClusterQuorumMonoSpec.v handler_of; its event is an input from outside (a vote request: of the runCandidate
   invocation of another server), or a request taken from the network, whose answer is recorded *)
Definition handler_label (l : clabel) : Prop :=
  match l with CBase (LElect (GVoteReq _ _ _ _ | GInput _ _ _ _) | LDeliver _ _ _) => True | _ => False end.

Lemma cstep_handler_inv sn cfgs g l g' : cstep sn cfgs g l = Some g' -> handler_label l ->
  exists j e cut fs nj r' ob out g1 ans', handler_of g l = Some (j, e, cut, fs) /\ find_node (cnodes g) j = Some nj /\
    step_full (gn_P nj) (gn_run nj) e cut fs = (r', ob, out) /\ (ginv cfgs (gof g) -> ginv cfgs g1) /\
    g_nodes g1 = upd_node (cnodes g) j (mkGN (gn_P nj) r' (keep_sess r' (gn_sess nj)) (gn_next nj)) /\
    g_leaders g1 = g_leaders (gof g) /\ g_grants g1 = grant_ghost j ob ++ g_grants (gof g) /\
    g' = mkCG (mkLG g1 (lg_msgs (cg_l g))) (refresh_leads (cnodes g) (g_nodes g1) (cg_lead g)) (cg_hb g) ans' /\
    (input_ok sn e = true /\ ans' = cg_ans g /\
     (ginv cfgs (gof g) -> label_no_stray_vote l -> forall q, e = NVote q ->
        exists ni se, In ni (cnodes g) /\ gn_id ni = vq_addr q /\ vq_addr q <> j /\ gn_sess ni = Some se /\ se_req se = q) \/
     exists k m, nth_error (lg_msgs (cg_l g)) k = Some m /\ j = am_to m /\ e = NAppend (am_req m) /\
       ans' = match ob with OAppend _ r => cg_ans g ++ [mkARes k r] | _ => cg_ans g end).
Proof.
  intros Hstep Hh. destruct l as [bl| | |]; try destruct Hh.
  apply cstep_base_inv in Hstep. destruct Hstep as (_ & l' & Hl & ->).
  assert (Hinv : forall gl g1, gstep cfgs (gof g) gl = Some g1 -> ginv cfgs (gof g) -> ginv cfgs g1)
    by (intros gl g1 Hg H0; apply (gstep_inv cfgs _ _ _ H0 Hg)).
  destruct bl as [[i|i j c f|i j|j e c f]| | | |k c f]; try destruct Hh; cbn [handler_of].
  - destruct (lstep_elect_inv _ _ _ _ _ Hl) as (_ & g1 & Hg & ->).
    destruct (gstep_votereq_inv _ _ _ _ _ _ _ Hg) as (ni & nj & se & r' & ob & out & Hfi & Hfj & Hse & Hmem & Hsf & E).
    unfold cnodes at 1. rewrite Hfi, Hse.
    exists j, (NVote (se_req se)), c, f, nj, r', ob, out, g1, (cg_ans g). pose proof (Hinv _ _ Hg). subst g1. do 8 (split; [assumption || reflexivity|]).
    left. do 2 (split; [reflexivity|]). intros H0 _ q Eq. inversion Eq; subst q. destruct (find_node_in _ _ _ Hfi) as [Hini _].
    destruct (ginv_sess cfgs _ ni _ H0 Hini Hse) as (si & _ & _ & _ & Haddr & Hnot & _).
    exists ni, se. rewrite Haddr. repeat split; try assumption. intros E. apply Hnot. rewrite E. exact Hmem.
  - destruct (lstep_elect_inv _ _ _ _ _ Hl) as (Hok & g1 & Hg & ->).
    destruct (gstep_input_inv _ _ _ _ _ _ _ Hg) as (nj & r' & ob & out & Hfj & Hsf & E & _).
    exists j, e, c, f, nj, r', ob, out, g1, (cg_ans g). pose proof (Hinv _ _ Hg). subst g1. do 8 (split; [assumption || reflexivity|]).
    left. split; [exact Hok|]. split; [reflexivity|]. intros _ F q ->. destruct F.
  - destruct (lstep_deliver_inv _ _ _ _ _ _ _ Hl) as (m & g1 & Hk & _ & Hg & ->). rewrite Hk.
    destruct (gstep_input_inv _ _ _ _ _ _ _ Hg) as (nj & r' & ob & out & Hfj & Hsf & E & _). fold (cnodes g) in Hfj.
    eexists _, _, c, f, nj, r', ob, out, g1, _. pose proof (Hinv _ _ Hg). subst g1. do 7 (split; [assumption || reflexivity|]).
    split; [|right; exists k, m; repeat split; exact Hk]. unfold base_ans. rewrite Hk, Hfj, Hsf. reflexivity.
Qed.

Section Project.
  Variable cfgs : list config.
  Hypothesis HQ : quorums_intersect cfgs.
  Variable base : list entry.
  Hypothesis Hh : hist_ok (0, 0) base.

  Let SI := Sinv false base 0 cfgs.

  Theorem cstep_sinv g l g' : SI (cg_l g) -> cstep false cfgs g l = Some g' -> SI (cg_l g').
  Proof.
    intros Hinv Hstep. destruct l as [bl|k|i j|i].
    - apply cstep_base_inv in Hstep. destruct Hstep as (_ & l' & Hl & ->). cbn [cg_l].
      exact (sstep_inv false base 0 Hh (fun _ => eq_refl) cfgs HQ _ _ _ Hinv Hl).
    - apply cstep_ack_inv in Hstep.
      destruct Hstep as (a & m & n & ld0 & s & _ & _ & Hfind & _ & Hrun & Hrole & _ & _ & ->).
      unfold ack_result. cbv zeta.
      destruct (aq_term (am_req m) <? ar_term (rs_resp a)).
      + cbn [cg_l]. destruct Hinv as [C Hinv]. exists C.
        apply (sinv_volatile cfgs HQ base (cg_l g) C (am_from m) n s (set_state s Follower) Hinv Hfind Hrun Hrole); try reflexivity.
        repeat split.
      + destruct (ar_success (rs_resp a)); [|exact Hinv]. destruct (aq_entries (am_req m)); exact Hinv.
    - apply cstep_giveup_inv in Hstep. destruct Hstep as (n & ld & s & k & _ & _ & _ & _ & _ & ->). exact Hinv.
    - apply cstep_commit_inv in Hstep.
      destruct Hstep as (n & ld & s & ls2 & tr & res & Hfind & _ & Hrun & Hrole & _ & Hlc & ->).
      cbn [cg_l]. destruct Hinv as [C Hinv]. exists C.
      apply leader_commit_ckeep in Hlc. cbn [l_node] in Hlc. destruct Hlc as (K & _). pose proof (ckeep_fields K) as F.
      apply (sinv_volatile cfgs HQ base (cg_l g) C i n s (l_node ls2) Hinv Hfind Hrun Hrole (ck_dproj F) (ck_term F) (ckeep_lkeep _ _ K) (ck_snapTerm F)).
  Qed.

  Theorem crun_sinv ls : forall g g', SI (cg_l g) -> crun false cfgs g ls = Some g' -> SI (cg_l g').
  Proof.
    induction ls as [|l r IH]; intros g g' Hinv H; simpl in H.
    - inversion H; subst. exact Hinv.
    - destruct (cstep false cfgs g l) as [g1|] eqn:E; [|discriminate].
      eapply IH; [eapply cstep_sinv; eassumption|exact H].
  Qed.
End Project.

(* a run without takeSnapshot from the initial states of Proofs/ClusterLogSpec.v keeps the invariant of
   Proofs/ClusterLogSnapInv.v at h = false on the replication part *)
Lemma crun_plain cfgs g0 ls g : quorums_intersect cfgs -> linit_ok (cg_l g0) -> crun false cfgs g0 ls = Some g ->
  exists base, Sinv false base 0 cfgs (cg_l g).
Proof.
  intros HQ H0 Hrun. destruct (linit_sinv_plain cfgs (cg_l g0) H0) as (base & C & Hh & HC). exists base.
  apply (crun_sinv cfgs HQ base Hh ls g0 g); [exists C; exact HC|exact Hrun].
Qed.

(* LOG MATCHING in every state reachable in Model/ClusterCommit.v without snapshots *)
Theorem ccommit_log_matching : forall cfgs g0 ls g,
  quorums_intersect cfgs -> linit_ok (cg_l g0) -> crun false cfgs g0 ls = Some g ->
  log_matching (cg_l g) /\ terms_monotone (cg_l g).
Proof.
  intros cfgs g0 ls g HQ H0 Hrun. destruct (crun_plain cfgs g0 ls g HQ H0 Hrun) as [base H].
  apply (sinv_log_matching false base 0 cfgs (cg_l g) H).
Qed.

Definition no_snaps (g : cgstate) : Prop :=
  forall n, In n (cnodes g) -> d_snaps (image (gn_run n)) = [] /\ forall s, gn_run n = Up s -> v_lastSnapIdx s = 0.

Theorem crun_no_snaps cfgs g0 ls g : quorums_intersect cfgs -> linit_ok (cg_l g0) -> crun false cfgs g0 ls = Some g -> no_snaps g.
Proof.
  intros HQ H0 Hrun. destruct (crun_plain cfgs g0 ls g HQ H0 Hrun) as (base & C & HL).
  intros n Hin. destruct (sh_nodes HL n Hin) as [Hn _]. unfold snp in Hn.
  destruct (gn_run n) as [s|s]; simpl in *; destruct Hn as [_ [_ HN]]; specialize (HN eq_refl).
  - split; [apply HN|]. intros s' E. inversion E; subst s'. apply HN.
  - split; [exact HN|]. intros s' E. discriminate.
Qed.

Print Assumptions ccommit_log_matching.
