(* FileSnapJ.v — a Close that has returned has its Rename before the last fsync, hence before the crash cut. *)
From Coq Require Import List Arith NArith Bool Lia.
From RaftModel Require Import FileSnap FileSnapSpec.
From RaftProofs Require Import FileSnapA FileSnapB FileSnapC FileSnapD FileSnapE FileSnapF FileSnapG FileSnapH FileSnapI.
Import ListNotations.
Open Scope N_scope.

Lemma close_seg_shape : forall sfirst retain past st h sid, Inv retain past st h ->
  In sid (created past) -> ended past sid = None ->
  exists a b, snd (exec_op sfirst st (SClose sid)) = a ++ FSyncParent :: b /\ In (FRename sid) a.
Proof.
  intros sfirst retain past st h sid HI Hin He.
  destruct (i_sinks _ _ _ _ HI sid Hin) as [k [Hf [_ Hok]]].
  assert (Hks := find_sink_sid _ _ _ Hf). rewrite Hks in Hok.
  destruct (k_done k) eqn:Hd; [contradiction|].
  rewrite (exec_close sfirst st sid k Hf Hd). cbn [snd].
  exists (close_pre k ++ [FRename sid]), (reap_ops sfirst (st_retain st) (fs_run (st_fs st) (close_ops1 k))).
  split.
  - unfold close_ops1. rewrite Hks, <- !app_assoc. reflexivity.
  - apply in_or_app. right. left. reflexivity.
Qed.

Lemma close_pos : forall sfirst retain sid rest past st h seen pos e, Inv retain past st h ->
  (forall x, In x seen <-> In x (created past)) -> wf_from seen rest ->
  ended past sid = None -> ended (past ++ rest) sid = Some true ->
  close_end rest (snd (run_script sfirst st rest)) sid pos = Some e ->
  exists a b, concat (snd (run_script sfirst st rest)) = a ++ FSyncParent :: b /\
              In (FRename sid) a /\ (pos + S (length a) <= e)%nat.
Proof.
  intros sfirst retain sid. induction rest as [|o rest IH]; intros past st h seen pos e HI Heq Hwf He Hee Hce.
  - simpl in Hce. discriminate.
  - destruct (wf_head _ _ _ _ Heq Hwf) as [Hop [seen' [Heq' Hwf']]].
    destruct (step_both sfirst retain past st h o HI Hop) as [HI' _].
    rewrite run_script_cons in *. set (seg := snd (exec_op sfirst st o)) in *.
    set (st1 := fst (exec_op sfirst st o)) in *. simpl concat.
    assert (Hcont : ended (past ++ [o]) sid = None ->
                    close_end rest (snd (run_script sfirst st1 rest)) sid (pos + length seg) = Some e ->
                    exists a b, seg ++ concat (snd (run_script sfirst st1 rest)) = a ++ FSyncParent :: b /\
                                In (FRename sid) a /\ (pos + S (length a) <= e)%nat).
    { intros He' Hce'.
      destruct (IH (past ++ [o]) st1 (h ++ seg) seen' (pos + length seg)%nat e HI' Heq' Hwf' He') as [a [b [E [Ha Hl]]]].
      - rewrite <- app_assoc. exact Hee.
      - exact Hce'.
      - exists (seg ++ a), b. rewrite E, app_assoc. split; [reflexivity|].
        split; [apply in_or_app; right; exact Ha|]. rewrite app_length. lia. }
    destruct o as [c t i|c b0|c|c]; simpl in Hce.
    + apply Hcont; [|exact Hce]. rewrite ended_app, He. reflexivity.
    + apply Hcont; [|exact Hce]. rewrite ended_app, He. reflexivity.
    + destruct (N.eqb_spec c sid) as [Ec|Ec].
      * subst c. inversion Hce; subst e. simpl in Hop.
        destruct (close_seg_shape sfirst retain past st h sid HI Hop He) as [a [b [E Ha]]].
        exists a, (b ++ concat (snd (run_script sfirst st1 rest))). unfold seg.
        rewrite E, <- app_assoc. split; [reflexivity|]. split; [exact Ha|].
        rewrite app_length. simpl. lia.
      * apply Hcont; [|exact Hce]. rewrite ended_app, He. simpl.
        destruct (N.eqb_spec c sid); [contradiction|reflexivity].
    + apply Hcont; [|exact Hce]. rewrite ended_app, He. simpl.
      destruct (N.eqb_spec c sid) as [Ec|Ec]; [|reflexivity].
      exfalso. subst c. rewrite ended_app, He in Hee. simpl in Hee.
      rewrite N.eqb_refl in Hee. discriminate.
Qed.

Lemma crash_ok_facts : forall ops k j, crash_ok ops k j = true ->
  (k <= length ops)%nat /\ (j <= k)%nat /\ (last_sync (firstn k ops) <= j)%nat.
Proof.
  intros ops k j H. unfold crash_ok in H. apply andb_prop in H. destruct H as [H H3].
  apply andb_prop in H. destruct H as [H1 H2].
  apply Nat.leb_le in H1, H2, H3. auto.
Qed.

Theorem renamed_before_cut : forall sfirst retain script sid k j, well_formed script ->
  close_returned sfirst retain script sid k ->
  crash_ok (program sfirst retain script) k j = true ->
  In (FRename sid) (firstn j (program sfirst retain script)).
Proof.
  intros sfirst retain script sid k j Hwf [Hee [e [Hce Hek]]] Hck.
  destruct (crash_ok_facts _ _ _ Hck) as [Hk [Hjk Hls]].
  destruct (close_pos sfirst retain sid script [] (mkStore retain [] []) [] [] 0%nat e) as [a [b [E [Ha Hl]]]]; auto.
  - apply Inv_init.
  - intros x; simpl; tauto.
  - unfold program in *. rewrite E in *.
    assert (Hfk : firstn k (a ++ FSyncParent :: b) = a ++ FSyncParent :: firstn (k - S (length a)) b).
    { rewrite firstn_app, (firstn_all2 a) by lia.
      replace (k - length a)%nat with (S (k - S (length a))) by lia. reflexivity. }
    rewrite Hfk in Hls.
    assert (Hge := last_sync_ge a FSyncParent (firstn (k - S (length a)) b) eq_refl).
    rewrite firstn_app, (firstn_all2 a) by lia. apply in_or_app. left. exact Ha.
Qed.
