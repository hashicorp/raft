(* ClusterLogSnapExample.v — non-vacuity of Log Matching with takeSnapshot: a driver state in which a running server's
   commit index is set to a value <= c0 still satisfies linit_snap_ok (ClusterLogExample.mk_nodes_linit_snap), and from
   it a run of the system takes a snapshot. *)
From Coq Require Import List NArith Bool Lia FinFun.
From stdpp Require Import gmap.
From RaftModel Require Import Base Node NodeCodec Cluster ClusterLog.
From RaftProofs Require Import VoteProofs RecoverProofs ClusterLogSpec ClusterLogExample ClusterLogSnapCex
  ClusterLogSnapSpec ClusterLogSnapBoot.
Open Scope N_scope.

Lemma bump_commit_init_snap c c0 base n : c <= c0 -> wfr (gn_run n) /\ node_init_snap base c0 n ->
  wfr (gn_run (bump_commit c n)) /\ node_init_snap base c0 (bump_commit c n).
Proof.
  intros Hc. unfold node_init_snap, node_init, bump_commit. cbn [gn_run]. destruct (gn_run n) as [s|s]; [|intros H; exact H].
  cbn [image]. intros (Hw & Hni & He & Hp & Hs & Hcm & Hf & Ha).
  split; [exact Hw|]. split; [exact Hni|]. split; [exact He|]. split; [exact Hp|]. split; [exact Hs|].
  split; [simpl; exact Hc|]. split; [exact Hf|exact Ha].
Qed.

(* three servers holding 2, 2 and 3 entries, committed prefix c0 = 2, server 1 knows "commit 2" *)
Definition snap_nodes : list gnode :=
  map (fun n => if gn_id n =? 1 then bump_commit 2 n else n)
      (map (fun p => mk_node (mk_cfg 3) (N.of_nat (fst p)) (snd p)) (combine (seq 1 3) [1; 1; 2])).
Definition snap_g0 : lgstate := mkLG (mkG snap_nodes [] [] []) [].

Example snap_init_ok : linit_snap_ok snap_g0.
Proof.
  unfold snap_g0, snap_nodes. apply (mk_nodes_linit_snap 3 [1; 1; 2] 2).
  - intros x [<-|[<-|[<-|[]]]]; lia.
  - intros nd. destruct (gn_id nd =? 1); split; reflexivity.
  - intros nd base H. destruct (gn_id nd =? 1); [apply bump_commit_init_snap; [lia|exact H]|exact H].
Qed.

(* server 1 is elected, tells server 2 "commit 2" with an empty request whose previous entry is entry 2
   (the commit index follows the last index the request vouches for); server 2 applies entries
   1..2 and takes a snapshot: its snapshot store is no longer empty and its snapshot index is 2 *)
Definition snap_labels : list llabel :=
  [LElect (GTimeout 1); LElect (GVoteReq 1 2 0 []); LElect (GVoteResp 1 2);
   LSend 1 2 3 2; LDeliver 0 0 []; LElect (GInput 2 NSnapshot 0 [])].

Definition took_snapshot (g : lgstate) (i : N) : bool :=
  match find_node (g_nodes (lg_g g)) i with
  | Some n => match gn_run n with
              | Up s => negb (length (d_snaps s) =? 0)%nat && (v_lastSnapIdx s =? 2)
              | Down _ => false
              end
  | None => false
  end.

Example snapshots_do_happen :
  match lrun true [mk_cfg 3] snap_g0 snap_labels with Some g => took_snapshot g 2 | None => false end = true.
Proof. vm_compute. reflexivity. Qed.
