(* ClusterCommitSnapLeader2.v — the leader loop beyond replication.
   The futures it answers without error (Model/ClusterCommit.v step_acks): their indexes are at or below the commit
   index the step installs.  The commitCh case and the FSM: lastApplied never moves back, and the
   (index, term) the FSM goroutine reports moves to an entry that came from the in-flight list or from the log,
   between the old and the new lastApplied.  All of it is read off LeaderProofs.leader_commit_spec. *)
From Coq Require Import List NArith Bool Lia.
From stdpp Require Import gmap.
From RaftModel Require Import Base Commitment Node Cluster Leader NodeCodec
  ClusterLog ClusterCommit.
From RaftProofs Require Import RecoverProofs AppendProofs LeaderProofs ClusterLogSpec ClusterLogChain ClusterLogLeader ClusterLogSnapBoot
  ClusterCommitLog.
Open Scope N_scope.

Lemma leader_commit_res ls ls2 tr res : leader_commit ls = Some (ls2, tr, res) ->
  forall r, In r res -> fr_index r <= cm_commit (l_cm ls).
Proof.
  intros H r Hr. destruct (leader_commit_spec _ _ _ _ H) as (ready & a & fsm & fl & _ & _ & _ & _ & [(_ & _ & _ & _ & ->)|Hit]); [destruct Hr|].
  destruct Hit as (items & Ha & Ec & _ & _ & _ & Hres). destruct (proj1 (Hres r) Hr) as (x & Hx & Hrx).
  unfold item_res in Hrx. destruct (collect_items _ _ _ _ _ Ec x Hx) as [_ [(fid & E & _ & Hi)|(E & i & Hi & Hb)]]; rewrite E in Hrx; [|destruct Hrx].
  destruct Hrx as [<-|[]]. simpl. lia.
Qed.

Lemma step_acks_commit sn cfgs g i g' T e : cstep sn cfgs g (CCommit i) = Some g' -> In (T, e) (step_acks g (CCommit i)) ->
  exists n ld s ls2 tr res r, find_node (cnodes g) i = Some n /\ find_lead (cg_lead g) i = Some ld /\ gn_run n = Up s /\
    v_role s = Leader /\ leader_commit (mkLS s (ld_cm ld) (ld_infl ld)) = Some (ls2, tr, res) /\
    In r res /\ d_log (l_node ls2) !! fr_index r = Some e /\ T = v_term s /\
    g' = mkCG (mkLG (set_node_run (lg_g (cg_l g)) i n (Up (l_node ls2))) (lg_msgs (cg_l g)))
              (set_lead (cg_lead g) i (with_notified (with_cm ld (l_cm ls2) (l_inflight ls2)) false)) (cg_hb g) (cg_ans g).
Proof.
  intros Hstep Hin. apply cstep_commit_inv in Hstep.
  destruct Hstep as (n & ld & s & ls2 & tr & res & Hf & Hfl & Hr & Hrole & Hnt & Hlc & ->).
  unfold step_acks in Hin. unfold cnodes in Hf. rewrite Hf, Hfl, Hr, Hrole, Hnt, Hlc in Hin. cbn [N.eqb andb] in Hin.
  rewrite N.eqb_refl in Hin. cbn [andb] in Hin.
  apply in_flat_map in Hin. destruct Hin as (r & Hr' & Hin).
  destruct (fr_err r =? E_OK); [|contradiction].
  destruct (d_log (l_node ls2) !! fr_index r) as [e0|] eqn:E; [|contradiction]. destruct Hin as [Hin|[]]. inversion Hin; subst.
  exists n, ld, s, ls2, tr, res, r. unfold cnodes. repeat (split; [first [assumption|reflexivity]|]). reflexivity.
Qed.

Lemma step_acks_other g l T e : In (T, e) (step_acks g l) -> exists i, l = CCommit i.
Proof. destruct l; simpl; try contradiction. eauto. Qed.

Lemma leader_commit_fsm s cm infl ls2 tr res : keys_ok (d_log s) -> leader_commit (mkLS s cm infl) = Some (ls2, tr, res) ->
  (forall x, In x (l_inflight ls2) -> In x infl) /\
  ((v_applied (l_node ls2) = v_applied s /\ v_fsmLast (l_node ls2) = v_fsmLast s) \/
   (v_applied s < v_applied (l_node ls2) /\ v_applied (l_node ls2) <= cm_commit cm /\
    (v_fsmLast (l_node ls2) = v_fsmLast s \/
     exists e, v_applied s < e_idx e <= v_applied (l_node ls2) /\ v_fsmLast (l_node ls2) = key e /\
       ((exists fid, In (e, fid) infl) \/ exists i, d_log s !! i = Some e)))).
Proof.
  intros Hk H. destruct (leader_commit_spec _ _ _ _ H) as (ready & a & fsm & fl & Hinfl & _ & _ & -> & Ha).
  cbn [l_node l_cm l_inflight] in *. split; [intros x Hx; rewrite Hinfl; apply in_or_app; right; exact Hx|].
  cbn [v_applied v_fsmLast set_applied_fsm]. destruct Ha as [(-> & _ & -> & _)|(items & Hle & Ec & _ & -> & _)]; [left; auto|right].
  split; [lia|]. split; [lia|]. destruct (last_opt (map fst (handed_items items))) as [e|] eqn:EL; [right|left; reflexivity].
  apply last_opt_in in EL. apply in_map_iff in EL. destruct EL as (x & <- & Hx). apply filter_In in Hx. destruct Hx as [Hx _].
  exists (fst x). destruct (collect_items _ _ _ _ _ Ec x Hx) as [_ [(fid & _ & Hin & Hi)|(_ & i & Hi & Hb)]].
  - split; [lia|]. split; [reflexivity|]. left. exists fid. rewrite Hinfl. apply in_or_app. left. exact Hin.
  - pose proof (Hk _ _ Hi). split; [lia|]. split; [reflexivity|]. right. eauto.
Qed.
