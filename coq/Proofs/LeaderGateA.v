(* LeaderGateA.v — what each leader operation does to the fields the gate depends on, and the invariants
   of a leadership run (used by LeaderGateProofs.v). *)
From Coq Require Import List NArith Bool Lia ZifyBool ZifyN.
From stdpp Require Import gmap.
From RaftModel Require Import Base Config Commitment Node Leader LeaderCodec.
From RaftProofs Require Import CommitmentProofs AppendProofs LeaderProofs LeaderGateSpec.
Open Scope N_scope.

Local Opaque cm_step.

Ltac nsimp :=
  cbn [l_node l_cm l_inflight d_term d_vterm d_vcand d_log d_staged d_pcommit d_snaps v_role v_term v_commit
       v_applied v_lastLogIdx v_lastLogTerm v_lastSnapIdx v_lastSnapTerm v_latest v_latestIdx v_committed
       v_committedIdx v_leader v_leaderId v_transfer v_fsm v_fsmLast set_log set_snaps set_role set_commit
       set_lastlog set_lastsnap set_latest set_committed set_leader set_applied_fsm set_state
       fst snd] in *.

(* the volatile fields the gate reads *)
Definition same_core (s s' : nstate) : Prop :=
  v_term s' = v_term s /\ v_commit s' = v_commit s /\ v_latestIdx s' = v_latestIdx s /\
  v_committedIdx s' = v_committedIdx s.

Lemma same_core_refl s : same_core s s.
Proof. repeat split. Qed.

Lemma same_core_trans a b c : same_core a b -> same_core b c -> same_core a c.
Proof. unfold same_core. intros (A1 & A2 & A3 & A4) (B1 & B2 & B3 & B4). repeat split; congruence. Qed.

Definition log_shrinks (s s' : nstate) : Prop := forall k e, d_log s' !! k = Some e -> d_log s !! k = Some e.

Lemma do_delete_effect s fs lo hi s' ok fs' : do_delete s fs lo hi = (s', ok, fs') -> same_core s s' /\ log_shrinks s s'.
Proof.
  unfold do_delete. destruct (next_fail fs) as [f fs1]. destruct f; intros H; inversion H; subst;
    (split; [repeat split|]); intros k e Hk; nsimp; [exact Hk|].
  rewrite log_delete_lookup in Hk. destruct (_ && _); [discriminate|exact Hk].
Qed.

Lemma run_compaction_effect s fs range s' tr fs' : run_compaction s fs range = (s', tr, fs') -> same_core s s' /\ log_shrinks s s'.
Proof.
  unfold run_compaction. destruct range as [[lo hi]|].
  - destruct (do_delete s fs lo hi) as [[s1 ok] fs1] eqn:E. intros H; inversion H; subst.
    eapply do_delete_effect. exact E.
  - intros H; inversion H; subst. split; [apply same_core_refl|]. intros k e Hk; exact Hk.
Qed.

Lemma number_logs_in term reqs : forall last e,
  In e (map fst (number_logs last term reqs)) -> e_term e = term /\ exists d f, In (e_ty e, d, f) reqs.
Proof.
  induction reqs as [|[[ty d] f] r IH]; intros last e H; simpl in H; [contradiction|].
  destruct H as [H|H].
  - subst e. simpl. split; [reflexivity|]. exists d, f. left. reflexivity.
  - apply IH in H. destruct H as [H1 (d' & f' & H2)]. split; [exact H1|]. exists d', f'. right. exact H2.
Qed.

Lemma dispatch_effect P ls fs reqs ls' res tr fs' :
  dispatch P ls fs reqs = (ls', res, tr, fs') ->
  same_core (l_node ls) (l_node ls') /\
  cm_start (l_cm ls') = cm_start (l_cm ls) /\ cm_commit (l_cm ls) <= cm_commit (l_cm ls') /\
  forall k e, d_log (l_node ls') !! k = Some e ->
    d_log (l_node ls) !! k = Some e \/
    (e_idx e = k /\ In e (map fst (number_logs (last_index (l_node ls)) (v_term (l_node ls)) reqs))).
Proof.
  rewrite dispatch_spec. cbv zeta. unfold do_stage.
  destruct (fst (next_fail fs)); intros H; injection H as <- _ _ _; nsimp.
  - split; [destruct (p_track P); repeat split|]. split; [reflexivity|]. split; [lia|].
    intros k e Hk. left. destruct (p_track P); exact Hk.
  - split; [destruct (p_track P); repeat split|]. split; [exact (proj1 (cm_step_spec _ _))|]. split; [apply commit_monotone|].
    intros k e Hk. assert (Hk' : log_store (d_log (l_node ls)) (map fst (number_logs (last_index (l_node ls)) (v_term (l_node ls)) reqs)) !! k = Some e)
      by (destruct (p_track P); exact Hk).
    rewrite log_store_lookup in Hk'. destruct (find_last k _) as [y|] eqn:F; [|left; exact Hk'].
    apply find_last_In in F. injection Hk' as <-. right. split; apply F.
Qed.

Lemma commit_effect ls ls' tr res :
  leader_commit ls = Some (ls', tr, res) ->
  l_cm ls' = l_cm ls /\ d_log (l_node ls') = d_log (l_node ls) /\
  v_term (l_node ls') = v_term (l_node ls) /\ v_latestIdx (l_node ls') = v_latestIdx (l_node ls) /\
  v_commit (l_node ls') = cm_commit (l_cm ls) /\
  v_committedIdx (l_node ls') =
    (if (v_commit (l_node ls) <? v_latestIdx (l_node ls)) && (v_latestIdx (l_node ls) <=? cm_commit (l_cm ls))
     then v_latestIdx (l_node ls) else v_committedIdx (l_node ls)).
Proof.
  intros H. destruct (leader_commit_spec _ _ _ _ H) as (_ & a & fsm & fl & _ & _ & Hcm & -> & _).
  split; [exact Hcm|]. unfold commit_cfg. nsimp. destruct (_ && _); nsimp; repeat split.
Qed.

Lemma config_effect P enc ls fs q fid ls' res tr fs' :
  append_config P enc ls fs q fid = (ls', res, tr, fs') ->
  ls' = ls \/
  exists cfg, next_config (v_latest (l_node ls)) (v_latestIdx (l_node ls)) q = Some cfg /\
    v_term (l_node ls') = v_term (l_node ls) /\ v_commit (l_node ls') = v_commit (l_node ls) /\
    v_committedIdx (l_node ls') = v_committedIdx (l_node ls) /\
    v_latest (l_node ls') = cfg /\ v_latestIdx (l_node ls') = last_index (l_node ls) + 1 /\
    cm_start (l_cm ls') = cm_start (l_cm ls) /\ cm_commit (l_cm ls) <= cm_commit (l_cm ls') /\
    forall k e, d_log (l_node ls') !! k = Some e ->
      d_log (l_node ls) !! k = Some e \/
      (e_idx e = k /\ e_term e = v_term (l_node ls) /\ k = last_index (l_node ls) + 1).
Proof.
  unfold append_config.
  destruct (next_config _ _ q) as [cfg|] eqn:En; [|intros H; inversion H; subst; left; reflexivity].
  destruct (dispatch P ls fs _) as [[[ls1 res1] tr1] fs1] eqn:Ed.
  intros H; injection H as <- _ _ _. right. exists cfg. split; [reflexivity|].
  pose proof Ed as Ed'. apply dispatch_effect in Ed'. destruct Ed' as ((C1 & C2 & C3 & C4) & S & M & L).
  nsimp. repeat split; try assumption.
  - rewrite <- S. exact (proj1 (cm_step_spec _ _)).
  - pose proof (commit_monotone (l_cm ls1) (CSetCfg cfg)). lia.
  - intros k e Hk. apply L in Hk. destruct Hk as [Hk|(H1 & H2)]; [left; exact Hk|].
    right. simpl in H2. destruct H2 as [H2|[]]. subst e. simpl in *. repeat split; congruence.
Qed.

Lemma log_shrinks_refl s : log_shrinks s s.
Proof. intros k e H; exact H. Qed.

Lemma restore_effect P ls fs mi data so ls' code res tr fs' :
  restore_user P ls fs mi data so = (ls', code, res, tr, fs') ->
  same_core (l_node ls) (l_node ls') /\ l_cm ls' = l_cm ls /\ log_shrinks (l_node ls) (l_node ls').
Proof.
  unfold restore_user.
  destruct (negb (v_committedIdx (l_node ls) =? v_latestIdx (l_node ls))).
  { intros H; injection H as <- _ _ _ _. split; [apply same_core_refl|]. split; [reflexivity|apply log_shrinks_refl]. }
  destruct (next_fail fs) as [fc fs1]. destruct fc.
  { intros H; injection H as <- _ _ _ _. nsimp. split; [apply same_core_refl|]. split; [reflexivity|apply log_shrinks_refl]. }
  destruct (negb so).
  { intros H; injection H as <- _ _ _ _. nsimp. split; [apply same_core_refl|]. split; [reflexivity|apply log_shrinks_refl]. }
  destruct (next_fail fs1) as [fcl fs2]. destruct fcl.
  { intros H; injection H as <- _ _ _ _. nsimp. split; [apply same_core_refl|]. split; [reflexivity|apply log_shrinks_refl]. }
  destruct (p_monotonic P).
  - match goal with |- context [run_compaction ?S ?F ?R] =>
      destruct (run_compaction S F R) as [[s3 trc] fs3] eqn:E end.
    apply run_compaction_effect in E. destruct E as [C L].
    intros H; injection H as <- _ _ _ _. nsimp.
    split; [|split; [reflexivity|]].
    + eapply same_core_trans; [|exact C]. repeat split.
    + intros k e Hk. apply L in Hk. exact Hk.
  - intros H; injection H as <- _ _ _ _. nsimp. split; [repeat split|]. split; [reflexivity|]. intros k e Hk; exact Hk.
Qed.

Definition no_config_req (o : lop) : bool :=
  match o with
  | LDispatch reqs _ => forallb (fun r => negb (fst (fst r) =? LogConfiguration)) reqs
  | _ => true
  end.

(* The fields the gate and the invariants of a leadership read, before and after an operation of leaderLoop.
   Whatever the operation, the term and the commitment's start index stand, the commitment's commit index does
   not fall, and an entry new in the log store carries the leader's term under its own index; a new configuration
   entry is the latest configuration (appendConfigurationEntry made it) unless dispatchLogs was handed one.  The
   commit index and the configuration indices stay, or appendConfigurationEntry moves the latest configuration
   to the next free index, or the commitCh case adopts the commitment's commit index. *)
Record lop_effect (o : lop) (ls ls' : lstate) : Prop := {
  le_term : v_term (l_node ls') = v_term (l_node ls);
  le_start : cm_start (l_cm ls') = cm_start (l_cm ls);
  le_cm : cm_commit (l_cm ls) <= cm_commit (l_cm ls');
  le_log : forall k e, d_log (l_node ls') !! k = Some e ->
    d_log (l_node ls) !! k = Some e \/
    (e_idx e = k /\ e_term e = v_term (l_node ls) /\
     (e_ty e = LogConfiguration -> no_config_req o = true -> k = v_latestIdx (l_node ls')));
  le_fields :
    (v_commit (l_node ls') = v_commit (l_node ls) /\ v_committedIdx (l_node ls') = v_committedIdx (l_node ls) /\
     (v_latestIdx (l_node ls') = v_latestIdx (l_node ls) \/
      (exists q fid fs, o = LConfig q fid fs) /\ v_latestIdx (l_node ls') = last_index (l_node ls) + 1)) \/
    (v_commit (l_node ls') = cm_commit (l_cm ls) /\ v_latestIdx (l_node ls') = v_latestIdx (l_node ls) /\
     v_committedIdx (l_node ls') =
       (if (v_commit (l_node ls) <? v_latestIdx (l_node ls)) && (v_latestIdx (l_node ls) <=? cm_commit (l_cm ls))
        then v_latestIdx (l_node ls) else v_committedIdx (l_node ls))) }.

Lemma step_lop_effect P tab ls vf o ls' vf' out :
  step_lop P tab ls vf o = (Some ls', vf', out) -> lop_effect o ls ls'.
Proof.
  assert (Hrefl : forall o', lop_effect o' ls ls).
  { intros o'. constructor; [reflexivity|reflexivity|lia|intros k e Hk; left; exact Hk|left; auto]. }
  intros H. destruct o; unfold step_lop in H.
  - destruct (dispatch P ls fs reqs) as [[[ls1 res] tr] fs1] eqn:E. injection H as <- _ _.
    apply dispatch_effect in E. destruct E as ((C1 & C2 & C3 & C4) & S & M & L).
    constructor; [exact C1|exact S|exact M| |left; auto].
    intros k e Hk. apply L in Hk. destruct Hk as [Hk|[Hk1 Hk2]]; [left; exact Hk|right].
    apply number_logs_in in Hk2. destruct Hk2 as [Ht (d & f & Hin)]. split; [exact Hk1|]. split; [exact Ht|].
    intros Hty Nc. simpl in Nc. rewrite forallb_forall in Nc. specialize (Nc _ Hin). simpl in Nc.
    rewrite Hty in Nc. discriminate.
  - injection H as <- _ _. unfold peer_match.
    constructor; nsimp; [reflexivity|apply cm_step_spec|apply commit_monotone|intros k e Hk; left; exact Hk|left; auto].
  - destruct (leader_commit ls) as [[[ls1 tr] res]|] eqn:E; [|discriminate]. injection H as <- _ _.
    apply commit_effect in E. destruct E as (E1 & E2 & E3 & E4 & E5 & E6).
    constructor; [exact E3|rewrite E1; reflexivity|rewrite E1; lia|intros k e Hk; left; rewrite <- E2; exact Hk|right; auto].
  - destruct (append_config P (encode_cfg tab) ls fs q fid) as [[[ls1 res] tr] fs1] eqn:E. injection H as <- _ _.
    apply config_effect in E. destruct E as [->|(cfg & _ & E1 & E2 & E3 & _ & E5 & E6 & E7 & L)]; [apply Hrefl|].
    constructor; [exact E1|exact E6|exact E7| |left; eauto 10].
    intros k e Hk. apply L in Hk. destruct Hk as [Hk|(Hk1 & Hk2 & Hk3)]; [left; exact Hk|right].
    split; [exact Hk1|]. split; [exact Hk2|]. intros _ _. congruence.
  - destruct (restore_user P ls fs metaIdx data sizeOk) as [[[[ls1 code] res] tr] fs1] eqn:E. injection H as <- _ _.
    apply restore_effect in E. destruct E as ((C1 & C2 & C3 & C4) & S & L).
    constructor; [exact C1|rewrite S; reflexivity|rewrite S; lia|intros k e Hk; left; apply L; exact Hk|left; auto].
  - destruct (verify_leader P (l_node ls)) as [[[votes qq] now] peers]. injection H as <- _ _. apply Hrefl.
  - injection H as <- _ _. apply Hrefl.
  - injection H as <- _ _. apply Hrefl.
Qed.

Section Inv.
Variables (last0 term0 : N).

(* the commitment starts above the election-time log; the term stands; a configuration committed during
   this leadership is at or below the commit index, which the commitment has reached *)
Record core_inv (ls : lstate) : Prop := {
  ci_start : cm_start (l_cm ls) = last0 + 1;
  ci_term : v_term (l_node ls) = term0;
  ci_A : last0 < v_committedIdx (l_node ls) ->
         v_committedIdx (l_node ls) <= v_commit (l_node ls) /\ v_commit (l_node ls) <= cm_commit (l_cm ls) }.

Definition term_inv (ls : lstate) : Prop :=
  forall i e, last0 < i -> d_log (l_node ls) !! i = Some e -> e_term e = term0 /\ e_idx e = i.

Definition cfg_inv (ls : lstate) : Prop :=
  forall k e, d_log (l_node ls) !! k = Some e -> e_ty e = LogConfiguration -> last0 < e_idx e ->
    k = e_idx e /\
    ((e_idx e <= v_commit (l_node ls) /\ e_idx e <= cm_commit (l_cm ls)) \/ e_idx e = v_latestIdx (l_node ls)).

Lemma core_step P tab ls vf o ls' vf' out :
  core_inv ls -> step_lop P tab ls vf o = (Some ls', vf', out) -> core_inv ls'.
Proof.
  intros [I1 I2 I3] H. apply step_lop_effect in H. destruct H as [T S M _ F].
  constructor; [congruence|congruence|]. destruct F as [(F1 & F2 & _)|(F1 & _ & F3)].
  - rewrite F1, F2. intros Hc. specialize (I3 Hc). lia.
  - rewrite F1, F3.
    destruct ((v_commit (l_node ls) <? v_latestIdx (l_node ls)) && (v_latestIdx (l_node ls) <=? cm_commit (l_cm ls))) eqn:B.
    + intros _. lia.
    + intros Hc. specialize (I3 Hc). lia.
Qed.

Lemma term_step P tab ls vf o ls' vf' out :
  core_inv ls -> term_inv ls -> step_lop P tab ls vf o = (Some ls', vf', out) -> term_inv ls'.
Proof.
  intros [_ I2 _] T H. apply step_lop_effect in H. intros i e Hi Hk.
  apply (le_log _ _ _ H) in Hk. destruct Hk as [Hk|(Hk1 & Hk2 & _)]; [exact (T i e Hi Hk)|]. split; congruence.
Qed.

(* G1, from the core invariant alone *)
Lemma gate_open_committed ls :
  core_inv ls -> config_gate_open ls = true ->
  v_latestIdx (l_node ls) <= v_commit (l_node ls) /\ last0 + 1 <= v_commit (l_node ls).
Proof.
  intros [I1 I2 I3] G. unfold config_gate_open in G. apply andb_true_iff in G. destruct G as [G1 G2].
  apply N.eqb_eq in G1. apply N.leb_le in G2. rewrite I1 in G2. split; [|exact G2].
  destruct (N.le_gt_cases (v_committedIdx (l_node ls)) last0) as [Hle|Hgt]; [lia|].
  specialize (I3 Hgt). lia.
Qed.

Lemma cfg_step P tab ls vf o ls' vf' out :
  core_inv ls -> cfg_inv ls -> op_enabled ls o = true -> no_config_req o = true ->
  step_lop P tab ls vf o = (Some ls', vf', out) -> cfg_inv ls'.
Proof.
  intros I B En Nc H. apply step_lop_effect in H. destruct H as [_ _ M L F].
  intros k e Hk Ht Hi. apply L in Hk. destruct Hk as [Hk|(Hk1 & _ & Hk3)].
  2:{ split; [congruence|]. right. rewrite Hk1. apply Hk3; assumption. }
  destruct (B k e Hk Ht Hi) as [B1 B2]. split; [exact B1|].
  destruct F as [(F1 & _ & [F3|[(q & fid & fs & ->) _]])|(F1 & F2 & _)].
  - rewrite F1, F3. lia.
  - (* the gate was open: the configuration this one replaces is committed *)
    unfold op_enabled in En. apply andb_true_iff in En. destruct En as [_ G].
    pose proof (gate_open_committed ls I G) as [G1 _]. pose proof (ci_A _ I) as I3.
    unfold config_gate_open in G. apply andb_true_iff in G. destruct G as [Ge _]. apply N.eqb_eq in Ge.
    left. rewrite F1. lia.
  - rewrite F1, F2. lia.
Qed.

Lemma run_inv (Inv : lstate -> Prop) (okb : lop -> bool) P tab :
  (forall ls vf o ls' vf' out, Inv ls -> op_enabled ls o = true -> okb o = true ->
     step_lop P tab ls vf o = (Some ls', vf', out) -> Inv ls') ->
  forall ops ls vf ls' vf', forallb okb ops = true -> Inv ls ->
    leader_run P tab ls vf ops = Some (ls', vf') -> Inv ls'.
Proof.
  intros Hstep. induction ops as [|o r IH]; intros ls vf ls' vf' Hok Hi Hr; simpl in Hr.
  - injection Hr as <- _. exact Hi.
  - simpl in Hok. apply andb_true_iff in Hok. destruct Hok as [Ho Hok].
    destruct (op_enabled ls o) eqn:En; [|discriminate].
    destruct (step_lop P tab ls vf o) as [[[ls1|] vf1] out] eqn:Es; [|discriminate].
    eapply IH; [exact Hok| |exact Hr]. eapply Hstep; eassumption.
Qed.

Lemma forallb_true_all {A} (l : list A) : forallb (fun _ => true) l = true.
Proof. induction l; simpl; auto. Qed.

Lemma run_core P tab ops ls vf ls' vf' :
  core_inv ls -> leader_run P tab ls vf ops = Some (ls', vf') -> core_inv ls'.
Proof.
  intros Hi Hr. eapply (run_inv core_inv (fun _ => true) P tab); [|apply forallb_true_all|exact Hi|exact Hr].
  intros ls0 vf0 o ls1 vf1 out I _ _ Hs. eapply core_step; eassumption.
Qed.

Lemma run_term P tab ops ls vf ls' vf' :
  core_inv ls -> term_inv ls -> leader_run P tab ls vf ops = Some (ls', vf') -> core_inv ls' /\ term_inv ls'.
Proof.
  intros Hi Ht Hr.
  eapply (run_inv (fun x => core_inv x /\ term_inv x) (fun _ => true) P tab); [|apply forallb_true_all|split; eassumption|exact Hr].
  intros ls0 vf0 o ls1 vf1 out [I T] _ _ Hs. split; [eapply core_step; eassumption|eapply term_step; eassumption].
Qed.

Lemma run_cfg P tab ops ls vf ls' vf' :
  forallb no_config_req ops = true ->
  core_inv ls -> cfg_inv ls -> leader_run P tab ls vf ops = Some (ls', vf') -> core_inv ls' /\ cfg_inv ls'.
Proof.
  intros Hn Hi Hc Hr.
  eapply (run_inv (fun x => core_inv x /\ cfg_inv x) no_config_req P tab); [|exact Hn|split; eassumption|exact Hr].
  intros ls0 vf0 o ls1 vf1 out [I T] En Nc Hs. split; [eapply core_step; eassumption|eapply cfg_step; eassumption].
Qed.

End Inv.

Lemma core_inv_setup s0 : leader_start_ok s0 -> core_inv (last_index s0) (v_term s0) (leader_setup s0).
Proof.
  intros (_ & H1 & H2). constructor; [reflexivity|reflexivity|]. simpl. intros Hc. lia.
Qed.
