(* NodeFrame.v — what the pieces of the RPC handlers write and emit.

   Below the term check the handlers (appendEntries, installSnapshot, takeSnapshot, processLogs)
   touch the log store and its staged commit index, the cached last log entry, the two
   configurations, the commit index, lastApplied with the FSM, the snapshot store and the last
   snapshot; they never touch term, vote, role or advertised leader.  So: for a projection f of
   the state that the setters of the former fields leave alone, each piece leaves f alone; and
   for a predicate Q on events that holds of store / delete / snapshot / apply / restore events
   and of stage events up to X (the commit index of the request), each piece extends the trace by
   events satisfying Q.  (dispatchLogs steps down when its StoreLogs fails and NewRaft restores a
   snapshot with set_applied: their two lemmas ask f to survive those setters as well.)

   Section VoteFrame is the other half: RequestVote and the term bump touch term, vote, role and advertised leader
   only; request_vote_cases before it lists the outcomes of requestVote once.  installSnapshot below the term check and
   takeSnapshot are described once each, in closed form (is_body_spec, take_snapshot_spec); their frame lemmas are
   corollaries.  The term check in front of appendEntries and installSnapshot is one notion: at_term (the state and
   trace with which the handler goes below it), with append_entries_enter / install_snapshot_enter (every outcome)
   and *_done (a handler that returned).

   Each family of proofs reads its own projection (term and vote; leader, role, term; leader id
   and commit index; the fields the log invariants read) and takes its frame facts from here; a
   lemma uses only the setter hypotheses its piece needs.

   Sections Replay and Filter are about crash cuts: for a projection f of the durable image that
   follows the trace item by item, the image a cut leaves is the replay of a prefix of the
   trace; items that do not move f can be filtered out.  Section CandFrame: runCandidate (Model/Candidate.v)
   keeps every projection that the setters of term, vote, role, advertised leader and transfer flag leave alone;
   `rest` is the largest one the proofs use. *)
From Coq Require Import List NArith Bool Lia.
From stdpp Require Import gmap.
From RaftModel Require Import Base Config Compaction Node NodeCodec Candidate Leader.
From RaftProofs Require Import CompactionProofs RecoverProofs.
Open Scope N_scope.

Lemma next_fail_hd fs : next_fail fs = (hd false fs, tl fs).
Proof. destruct fs; reflexivity. Qed.

(* the bookkeeping after Create / Close: the snapshot is stored, restored into the FSM, the new boundary, and both
   configurations are its configuration *)
Definition is_book (s2 : nstate) (q : ireq) : nstate :=
  set_committed (set_latest (set_lastsnap (set_applied_fsm
    (set_snaps s2 (d_snaps s2 ++ [mkSnap (iq_lastIdx q) (iq_lastTerm q) (iq_cfg q) (iq_cfgIdx q) (iq_data q) true]))
    (iq_lastIdx q) (iq_data q) (iq_lastIdx q, iq_lastTerm q)) (iq_lastIdx q) (iq_lastTerm q))
    (iq_cfg q) (iq_cfgIdx q)) (iq_cfg q) (iq_cfgIdx q).

(* the log does not follow the snapshot at its index *)
Definition stale_tail (s2 : nstate) (q : ireq) : bool :=
  (iq_lastIdx q <=? v_lastLogIdx s2) &&
  match d_log s2 !! iq_lastIdx q with
  | Some e => negb (e_term e =? iq_lastTerm q)
  | None => negb ((v_lastSnapIdx s2 =? iq_lastIdx q) && (v_lastSnapTerm s2 =? iq_lastTerm q))
  end.

(* is_body_spec: everything below the term check.  Refused (Create / Close failed, short stream) with the state
   untouched; or the bookkeeping is_book with a log m' that lost at most what one compaction takes (entries at or below the snapshot)
   and the cached last entry kept - without store failures only when the log follows the snapshot -; or is_book with
   the cached last entry reset, after the wholesale delete of a monotonic store or the delete of the stale tail.
   snap_ev: the events it emits on the way. *)
Definition snap_ev (e : ev) : Prop := match e with ESnap _ _ _ | ERestore _ | EDelete _ _ _ => True | _ => False end.

Theorem is_body_spec P s2 rt tr1 fs1 q : exists s' r tr fs', is_body P s2 rt tr1 fs1 q = Done s' r tr fs' /\
  (exists tr', tr = tr1 ++ tr' /\ Forall snap_ev tr') /\
  ((s' = s2 /\ r = (rt, false, true)) \/
   (r = (rt, true, false) /\ exists m',
      (s' = set_log (is_book s2 q) m' (d_staged s2) (d_pcommit s2) /\
       (m' = d_log s2 \/ exists lo hi, m' = log_delete (d_log s2) lo hi /\ hi <= iq_lastIdx q) /\
       (In true fs1 \/ (p_monotonic P = false /\ stale_tail s2 q = false))) \/
      (s' = set_lastlog (set_log (is_book s2 q) m' (d_staged s2) (d_pcommit s2)) 0 0 /\
       (if p_monotonic P
        then match remove_old (log_first (d_log s2)) (log_last (d_log s2)) with
             | None => m' = d_log s2
             | Some (lo, hi) => m' = log_delete (d_log s2) lo hi
             end
        else m' = log_delete (d_log s2) (iq_lastIdx q) (v_lastLogIdx s2))))).
Proof.
  assert (Hin : forall l : list bool, hd false l = true -> In true l) by (intros [|[|] l] H; [discriminate|left; reflexivity|discriminate]).
  assert (Htl : forall l : list bool, In true (tl l) -> In true l) by (intros [|b l] H; [exact H|right; exact H]).
  unfold is_body. rewrite next_fail_hd. destruct (hd false fs1).
  { do 4 eexists. split; [reflexivity|]. split; [eexists; split; [reflexivity|repeat constructor]|left; auto]. }
  destruct (iq_short q).
  { do 4 eexists. split; [reflexivity|]. split; [exists []; rewrite app_nil_r; auto|left; auto]. }
  rewrite next_fail_hd. destruct (hd false (tl fs1)).
  { do 4 eexists. split; [reflexivity|]. split; [eexists; split; [reflexivity|repeat constructor]|left; auto]. }
  cbv zeta. fold (is_book s2 q). set (s6 := is_book s2 q).
  change (d_log s6) with (d_log s2). change (v_lastLogIdx s6) with (v_lastLogIdx s2). fold (stale_tail s2 q).
  set (fs3 := tl (tl fs1)). assert (H3 : In true fs3 -> In true fs1) by (intros H; apply Htl, Htl, H).
  destruct (p_monotonic P).
  - destruct (remove_old (log_first (d_log s2)) (log_last (d_log s2))) as [[lo hi]|].
    + unfold do_delete. rewrite next_fail_hd.
      destruct (hd false fs3) eqn:E3; cbv beta iota zeta; do 4 eexists; (split; [reflexivity|]);
        (split; [eexists; split; [reflexivity|repeat constructor]|right; split; [reflexivity|]]).
      * exists (d_log s2). left. split; [reflexivity|]. split; [left; reflexivity|left; apply H3, Hin, E3].
      * exists (log_delete (d_log s2) lo hi). right. split; reflexivity.
    + do 4 eexists. split; [reflexivity|]. split; [eexists; split; [reflexivity|repeat constructor]|right; split; [reflexivity|]].
      exists (d_log s2). right. split; reflexivity.
  - (* compactLogs on the bookkeeping state, cached last entry kept *)
    assert (Hc : forall fsx, let '(s7, trc, _) := run_compaction s6 fsx (compact (log_first (d_log s2)) (iq_lastIdx q)
                                                                               (v_lastLogIdx s2) (p_trailing P)) in
              Forall snap_ev trc /\ exists m', s7 = set_log s6 m' (d_staged s2) (d_pcommit s2) /\
                (m' = d_log s2 \/ exists lo hi, m' = log_delete (d_log s2) lo hi /\ hi <= iq_lastIdx q)).
    { intros fsx. destruct (compact _ _ _ _) as [[lo hi]|] eqn:Ec; cbn [run_compaction]; [|split; [constructor|exists (d_log s2); auto]].
      apply compaction_range in Ec. unfold do_delete. rewrite next_fail_hd.
      destruct (hd false fsx); (split; [repeat constructor|]); [exists (d_log s2); auto|].
      exists (log_delete (d_log s2) lo hi). split; [reflexivity|]. right. exists lo, hi. split; [reflexivity|apply Ec]. }
    destruct (stale_tail s2 q) eqn:Est.
    + unfold do_delete. rewrite next_fail_hd. destruct (hd false fs3) eqn:E3; cbv beta iota zeta.
      * specialize (Hc (tl fs3)). destruct (run_compaction s6 (tl fs3) _) as [[s7 trc] fs4].
        destruct Hc as (Ht & m' & -> & Hm). do 4 eexists. split; [reflexivity|].
        split; [eexists; split; [reflexivity|repeat constructor; exact Ht]|right; split; [reflexivity|]]. exists m'. left.
        split; [reflexivity|]. split; [exact Hm|left; apply H3, Hin, E3].
      * (* after the reset the cached last index is 0: nothing to compact *)
        cbn [set_lastlog v_lastLogIdx]. rewrite compaction_empty. cbn [run_compaction].
        do 4 eexists. split; [reflexivity|]. split; [eexists; split; [reflexivity|repeat constructor]|right; split; [reflexivity|]].
        exists (log_delete (d_log s2) (iq_lastIdx q) (v_lastLogIdx s2)). right. split; reflexivity.
    + specialize (Hc fs3). destruct (run_compaction s6 fs3 _) as [[s7 trc] fs4].
      destruct Hc as (Ht & m' & -> & Hm). do 4 eexists. split; [reflexivity|].
      split; [eexists; split; [reflexivity|repeat constructor; exact Ht]|right; split; [reflexivity|]]. exists m'. left. auto.
Qed.

(* The state s2 and the trace tr1 with which the handler of a request of term t from (addr, id) goes below its term
   check: the sender advertised, after setState(Follower) and setCurrentTerm(t) if the term is newer (appendEntries:
   also when the server is not a Follower and no leadership transfer is under way).  s2 differs from s in term, role
   and advertised leader only. *)
Definition at_term (s : nstate) (t addr id : N) (s2 : nstate) (tr1 : list ev) : Prop :=
  v_term s <= t /\
  ((v_term s = t /\ s2 = set_leader s addr id /\ tr1 = []) \/
   (s2 = set_leader (set_vol_term (set_durable_term (set_state s Follower) t) t) addr id /\ tr1 = [ESetTerm t true])).

Lemma at_term_frame {A} (f : nstate -> A) {s t addr id s2 tr1} : at_term s t addr id s2 tr1 ->
  (forall s t, f (set_durable_term s t) = f s) -> (forall s t, f (set_vol_term s t) = f s) ->
  (forall s r, f (set_state s r) = f s) -> (forall s a i, f (set_leader s a i) = f s) -> f s2 = f s.
Proof. intros (_ & [(_ & -> & _)|(-> & _)]) F1 F2 F3 F4; rewrite F4, ?F2, ?F1, ?F3; reflexivity. Qed.

(* refused, a panic when the newer term cannot be persisted, or the rest of the handler from such a state *)
Lemma append_entries_enter P s fs a :
  (aq_term a < v_term s /\
   append_entries P s fs a = Done s (mkAResp (v_term s) (last_index s) false false false) [] fs) \/
  (v_term s <= aq_term a /\ append_entries P s fs a = Panic (set_state s Follower) [ESetTerm (aq_term a) false]) \/
  exists s2 tr1 fs1, at_term s (aq_term a) (aq_addr a) (aq_id a) s2 tr1 /\
    append_entries P s fs a = ae_body P s s2 (aq_term a) tr1 fs1 a.
Proof.
  unfold append_entries, at_term. destruct (N.ltb_spec (aq_term a) (v_term s)) as [Hlt|Hge]; [left; auto|right].
  destruct (N.ltb_spec (v_term s) (aq_term a)) as [Hb|Hnb]; cbn [orb].
  2:{ destruct (negb (v_role s =? Follower) && negb (v_transfer s)).
      2:{ right. eexists _, _, _. split; [split; [exact Hge|left; split; [lia|auto]]|]. replace (aq_term a) with (v_term s) by lia. reflexivity. }
      unfold do_set_term. rewrite next_fail_hd. destruct (hd false fs); [left; auto|right; eexists _, _, _; eauto]. }
  unfold do_set_term. rewrite next_fail_hd. destruct (hd false fs); [left; auto|right; eexists _, _, _; eauto].
Qed.

Lemma install_snapshot_enter P s fs q :
  (iq_term q < v_term s /\ install_snapshot P s fs q = Done s (v_term s, false, false) [] fs) \/
  (v_term s < iq_term q /\ install_snapshot P s fs q = Panic (set_state s Follower) [ESetTerm (iq_term q) false]) \/
  exists s2 tr1 fs1, at_term s (iq_term q) (iq_addr q) (iq_id q) s2 tr1 /\
    install_snapshot P s fs q = is_body P s2 (iq_term q) tr1 fs1 q.
Proof.
  unfold install_snapshot, at_term. destruct (N.ltb_spec (iq_term q) (v_term s)) as [Hlt|Hge]; [left; auto|right].
  destruct (N.ltb_spec (v_term s) (iq_term q)) as [Hb|Hnb].
  2:{ right. eexists _, _, _. split; [split; [exact Hge|left; split; [lia|auto]]|]. replace (iq_term q) with (v_term s) by lia. reflexivity. }
  unfold do_set_term. rewrite next_fail_hd. destruct (hd false fs); [left; auto|right; eexists _, _, _; eauto].
Qed.

(* the form for a handler that returned *)
Lemma append_entries_done P s fs a s' r tr fs' : append_entries P s fs a = Done s' r tr fs' ->
  (aq_term a < v_term s /\ s' = s /\ r = mkAResp (v_term s) (last_index s) false false false /\ tr = []) \/
  exists s2 tr1 fs1, at_term s (aq_term a) (aq_addr a) (aq_id a) s2 tr1 /\
    ae_body P s s2 (aq_term a) tr1 fs1 a = Done s' r tr fs'.
Proof.
  intros H. destruct (append_entries_enter P s fs a) as [[Hlt E]|[[_ E]|(s2 & tr1 & fs1 & Hat & E)]]; rewrite E in H.
  - left. inversion H; subst. auto.
  - discriminate.
  - right. eauto.
Qed.

Lemma install_snapshot_done P s fs q s' r tr fs' : install_snapshot P s fs q = Done s' r tr fs' ->
  (iq_term q < v_term s /\ s' = s /\ r = (v_term s, false, false) /\ tr = []) \/
  exists s2 tr1 fs1, at_term s (iq_term q) (iq_addr q) (iq_id q) s2 tr1 /\
    is_body P s2 (iq_term q) tr1 fs1 q = Done s' r tr fs'.
Proof.
  intros H. destruct (install_snapshot_enter P s fs q) as [[Hlt E]|[[_ E]|(s2 & tr1 & fs1 & Hat & E)]]; rewrite E in H.
  - left. inversion H; subst. auto.
  - discriminate.
  - right. eauto.
Qed.

(* takeSnapshot in closed form.  Refused (nothing handed to the FSM goroutine yet: 2; the committed configuration
   entry has not reached it: 3) or the snapshot store failed (4): the state is untouched.  Otherwise the snapshot sn
   of what the FSM goroutine reported is stored and becomes the boundary (s1), and compactLogs issues at most one
   DeleteRange, at or below the snapshot index and short of the TrailingLogs tail; 5 = that DeleteRange failed. *)
Lemma take_snapshot_spec P s fs :
  let fi := fst (v_fsmLast s) in let ft := snd (v_fsmLast s) in
  let sn := mkSnap fi ft (v_committed s) (v_committedIdx s) (v_fsm s) true in
  let s1 := set_lastsnap (set_snaps s (d_snaps s ++ [sn])) fi ft in
  (exists code (tr : list ev) fs', take_snapshot P s fs = Done s code tr fs' /\ 2 <= code <= 4 /\ (tr = [] \/ tr = [ESnap fi ft false])) \/
  (fi <> 0 /\ v_committedIdx s <= fi /\
   ((exists fs', take_snapshot P s fs = Done s1 0 [ESnap fi ft true] fs') \/
    exists lo hi (ok : bool) fs', hi <= fi /\ (p_trailing P < v_lastLogIdx s -> hi <= v_lastLogIdx s - p_trailing P) /\
      take_snapshot P s fs =
      Done (if ok then set_log s1 (log_delete (d_log s) lo hi) (d_staged s) (d_pcommit s) else s1)
           (if ok then 0 else 5) [ESnap fi ft true; EDelete lo hi ok] fs')).
Proof.
  cbv zeta. unfold take_snapshot, fsm_index. destruct (v_fsmLast s) as [fi ft]. cbn [fst snd].
  destruct (N.eqb_spec fi 0) as [Ez|Hnz]; [left; exists 2, [], fs; repeat split; auto; lia|].
  destruct (N.ltb_spec fi (v_committedIdx s)) as [|Hci]; [left; exists 3, [], fs; repeat split; auto; lia|].
  destruct (next_fail fs) as [fc fs1]. destruct fc; [left; eexists 4, _, _; repeat split; auto; lia|].
  destruct (next_fail fs1) as [fcl fs2]. destruct fcl; [left; eexists 4, _, _; repeat split; auto; lia|].
  right. split; [exact Hnz|]. split; [exact Hci|]. unfold run_compaction.
  match goal with |- context [compact ?F ?S ?L ?T] => destruct (compact F S L T) as [[lo hi]|] eqn:Ec end;
    [|left; eexists; reflexivity].
  right. pose proof (compaction_range _ _ _ _ _ _ Ec) as (_ & Hhi & Htr & _). change (v_lastLogIdx (set_lastsnap _ _ _)) with (v_lastLogIdx s) in Htr.
  unfold do_delete. destruct (next_fail fs2) as [fd fs3].
  exists lo, hi, (negb fd), fs3. split; [exact Hhi|]. split; [lia|]. destruct fd; reflexivity.
Qed.

Section Frame.
  Context {A : Type} (f : nstate -> A) (Q : ev -> Prop) (X : N).
  Hypothesis f_log : forall s l st pc, f (set_log s l st pc) = f s.
  Hypothesis f_lastlog : forall s i t, f (set_lastlog s i t) = f s.
  Hypothesis f_latest : forall s c i, f (set_latest s c i) = f s.
  Hypothesis f_committed : forall s c i, f (set_committed s c i) = f s.
  Hypothesis f_commit : forall s c, f (set_commit s c) = f s.
  Hypothesis f_applied : forall s a m x, f (set_applied_fsm s a m x) = f s.
  Hypothesis f_restored : forall s a m, f (set_applied s a m) = f s.
  Hypothesis f_snaps : forall s l, f (set_snaps s l) = f s.
  Hypothesis f_lastsnap : forall s i t, f (set_lastsnap s i t) = f s.
  Hypothesis f_state : forall s r, f (set_state s r) = f s.
  Hypothesis Q_stage : forall c, c <= X -> Q (EStage c).
  Hypothesis Q_store : forall es ok, Q (EStore es ok).
  Hypothesis Q_delete : forall lo hi ok, Q (EDelete lo hi ok).
  Hypothesis Q_snap : forall i t ok, Q (ESnap i t ok).
  Hypothesis Q_apply : forall e, Q (EApply e).
  Hypothesis Q_conf : forall i, Q (EConf i).
  Hypothesis Q_restore : forall d, Q (ERestore d).

  Lemma do_stage_frame P s c : f (fst (do_stage P s c)) = f s.
  Proof. unfold do_stage. destruct (p_track P); simpl; auto. Qed.

  Lemma do_stage_emits P s c : c <= X -> Forall Q (snd (do_stage P s c)).
  Proof. intros H. unfold do_stage. destruct (p_track P); simpl; auto. Qed.

  Lemma do_store_frame P s fs es : f (fst (fst (do_store P s fs es))) = f s.
  Proof. unfold do_store. destruct (next_fail fs) as [b fs']. destruct b; simpl; auto. Qed.

  Lemma do_delete_frame s fs lo hi : f (fst (fst (do_delete s fs lo hi))) = f s.
  Proof. unfold do_delete. destruct (next_fail fs) as [b fs']. destruct b; simpl; auto. Qed.

  Lemma process_config_entry_frame P s e : f (process_config_entry P s e) = f s.
  Proof.
    unfold process_config_entry. destruct (e_ty e =? LogConfiguration); [|reflexivity].
    rewrite f_latest. apply f_committed.
  Qed.

  Lemma fold_config_frame P es : forall s, f (fold_left (process_config_entry P) es s) = f s.
  Proof.
    induction es as [|e r IH]; intros s; simpl; [reflexivity|].
    rewrite IH. apply process_config_entry_frame.
  Qed.

  Lemma fsm_events_Q e : Forall Q (fsm_events e).
  Proof.
    unfold fsm_events. destruct (e_ty e =? LogCommand); [auto|].
    destruct (e_ty e =? LogConfiguration); auto.
  Qed.

  Lemma process_logs_frame s idx s' tr : process_logs s idx = Some (s', tr) -> f s' = f s.
  Proof.
    unfold process_logs. destruct (idx <=? v_applied s).
    - intros H; inversion H; reflexivity.
    - destruct (collect_logs _ _ _) as [es|]; [|discriminate].
      intros H; inversion H; subst. apply f_applied.
  Qed.

  Lemma process_logs_emits s idx s' tr : process_logs s idx = Some (s', tr) -> Forall Q tr.
  Proof.
    unfold process_logs. destruct (idx <=? v_applied s).
    - intros H; inversion H; subst. auto.
    - destruct (collect_logs _ _ _) as [es|]; [|discriminate].
      intros H; inversion H; subst.
      apply Forall_flat_map, Forall_forall. intros e _. apply fsm_events_Q.
  Qed.

  (* the piece ends in a state that agrees with s2 on f, having extended the trace tr1 by Q-events *)
  Definition ext_ok (s2 : nstate) (tr1 : list ev) (s' : nstate) (tr : list ev) : Prop :=
    f s' = f s2 /\ exists tr', tr = tr1 ++ tr' /\ Forall Q tr'.

  Definition body_frame {R} (s2 : nstate) (tr1 : list ev) (o : outcome R) : Prop :=
    match o with
    | Done s' _ tr _ => ext_ok s2 tr1 s' tr
    | Panic _ tr => exists tr', tr = tr1 ++ tr' /\ Forall Q tr'
    end.

  Definition cont_frame (s2 : nstate) (tr1 : list ev) (c : ae_cont) : Prop :=
    match c with
    | inl (Some (s8, tr8, _)) => ext_ok s2 tr1 s8 tr8
    | inl None => True
    | inr (_, s', tr', _) => ext_ok s2 tr1 s' tr'
    end.

  Lemma ext_ok_refl s tr : ext_ok s tr s tr.
  Proof. split; [reflexivity|]. exists []. rewrite app_nil_r. auto. Qed.

  Lemma ext_ok_step s2 tr1 s3 tr3 s' more :
    ext_ok s2 tr1 s3 tr3 -> f s' = f s3 -> Forall Q more -> ext_ok s2 tr1 s' (tr3 ++ more).
  Proof.
    intros [E (tr' & -> & H)] Es Hm. split; [congruence|].
    exists (tr' ++ more). rewrite app_assoc. split; [reflexivity|]. apply Forall_app. auto.
  Qed.

  Lemma store_new_frame P fr lc s2 tr1 s3 tr3 fs3 news : lc <= X ->
    ext_ok s2 tr1 s3 tr3 -> cont_frame s2 tr1 (store_new P fr lc s3 tr3 fs3 news).
  Proof.
    intros Hlc H. unfold store_new.
    pose proof (do_stage_frame P s3 (N.min lc (e_idx (last_of news)))) as S1.
    pose proof (do_stage_emits P s3 (N.min lc (e_idx (last_of news))) (N.le_trans _ _ _ (N.le_min_l _ _) Hlc)) as S2.
    destruct (do_stage P s3 _) as [s4 trs]. simpl in S1, S2.
    pose proof (do_store_frame P s4 fs3 news) as T1.
    destruct (do_store P s4 fs3 news) as [[s5 ok] fs5]. simpl in T1.
    destruct ok; simpl; (eapply ext_ok_step; [exact H| |apply Forall_app; auto]).
    - rewrite f_lastlog, fold_config_frame. congruence.
    - congruence.
  Qed.

  Lemma ae_entries_frame P fr s2 tr1 fs1 a : aq_commit a <= X -> cont_frame s2 tr1 (ae_entries P fr s2 tr1 fs1 a).
  Proof.
    intros Hlc. unfold ae_entries. destruct (aq_entries a) as [|e0 es0]; [apply ext_ok_refl|].
    destruct (scan_entries (d_log s2) (v_lastLogIdx s2) (e0 :: es0)) as [news|ci news| |];
      try apply ext_ok_refl.
    - apply (store_new_frame _ _ _ _ _ _ _ _ _ Hlc), ext_ok_refl.
    - pose proof (do_delete_frame s2 fs1 ci (v_lastLogIdx s2)) as D.
      destruct (do_delete s2 fs1 ci (v_lastLogIdx s2)) as [[s3 ok] fs3]. simpl in D.
      destruct ok; simpl.
      + destruct (conflict_pred a news) as [pi pt]. apply (store_new_frame _ _ _ _ _ _ _ _ _ Hlc).
        eapply ext_ok_step; [apply ext_ok_refl| |auto].
        destruct (ci <=? v_latestIdx _); rewrite ?f_latest, f_lastlog; exact D.
      + eapply ext_ok_step; [apply ext_ok_refl|exact D|auto].
  Qed.

  Lemma ae_commit_frame okr s2 tr1 s8 tr8 fs8 a :
    ext_ok s2 tr1 s8 tr8 -> body_frame s2 tr1 (ae_commit okr s8 tr8 fs8 a).
  Proof.
    intros H. unfold ae_commit.
    destruct ((0 <? aq_commit a) && (v_commit s8 <? aq_commit a)); [|exact H].
    cbv zeta. destruct (v_commit s8 <? _); [|exact H].
    match goal with |- context [process_logs ?S ?I] => destruct (process_logs S I) as [[s11 tra]|] eqn:EP end.
    - pose proof (process_logs_frame _ _ _ _ EP) as E1. apply process_logs_emits in EP as E2. simpl.
      eapply ext_ok_step; [exact H| |exact E2]. rewrite E1.
      destruct (v_latestIdx _ <=? _); rewrite ?f_committed; apply f_commit.
    - apply H.
  Qed.

  Lemma ae_body_frame P s0 s2 rt tr1 fs1 a : aq_commit a <= X -> body_frame s2 tr1 (ae_body P s0 s2 rt tr1 fs1 a).
  Proof.
    intros Hlc. unfold ae_body. destruct (prev_check s2 a) as [[|]|]; try apply ext_ok_refl.
    pose proof (ae_entries_frame P (mkAResp rt (last_index s0) false false false) s2 tr1 fs1 a Hlc) as Hae.
    destruct (ae_entries P _ s2 tr1 fs1 a) as [[[[s8 tr8] fs8]|]|[[[resp s'] tr'] fs']]; simpl in Hae.
    - apply ae_commit_frame, Hae.
    - apply (ext_ok_refl s2).
    - exact Hae.
  Qed.

  Lemma is_body_frame P s2 rt tr1 fs1 q : body_frame s2 tr1 (is_body P s2 rt tr1 fs1 q).
  Proof.
    destruct (is_body_spec P s2 rt tr1 fs1 q) as (s' & r & tr & fs' & -> & (tr' & -> & Ht) & Hs). split.
    - assert (Hb : f (is_book s2 q) = f s2)
        by (unfold is_book; rewrite f_committed, f_latest, f_lastsnap, f_applied; apply f_snaps).
      destruct Hs as [[-> _]|(_ & m' & [[-> _]|[-> _]])]; rewrite ?f_lastlog, ?f_log; auto.
    - exists tr'. split; [reflexivity|]. eapply Forall_impl; [|exact Ht]. intros [] He; try contradiction; auto.
  Qed.

  Lemma take_snapshot_frame P s fs : body_frame s [] (take_snapshot P s fs).
  Proof.
    pose proof (take_snapshot_spec P s fs) as H. cbv zeta in H.
    destruct H as [(code & tr & fs' & -> & _ & Ht)|(_ & _ & [(fs' & ->)|(lo & hi & ok & fs' & _ & _ & ->)])];
      (split; [|eexists; split; [reflexivity|]]).
    - reflexivity.
    - destruct Ht as [->| ->]; auto.
    - rewrite f_lastsnap. apply f_snaps.
    - auto.
    - destruct ok; rewrite ?f_log, f_lastsnap; apply f_snaps.
    - auto.
  Qed.

  Lemma dispatch_frame P ls fs reqs :
    f (l_node (fst (fst (fst (dispatch P ls fs reqs))))) = f (l_node ls).
  Proof.
    unfold dispatch.
    pose proof (do_stage_frame P (l_node ls) (v_commit (l_node ls))) as S.
    destruct (do_stage P (l_node ls) _) as [s1 trs]. simpl in S.
    match goal with |- context [do_store P s1 fs ?es] =>
      pose proof (do_store_frame P s1 fs es) as T; destruct (do_store P s1 fs es) as [[s2 ok] fs'] end.
    simpl in T. destruct ok; simpl; rewrite ?f_lastlog, ?f_state; congruence.
  Qed.

  Lemma scan_configs_frame P n : forall s from s', scan_configs P s from n = Some s' -> f s' = f s.
  Proof.
    induction n as [|n IH]; intros s from s' H; simpl in H.
    - inversion H; reflexivity.
    - destruct (d_log s !! from) as [e|]; [|discriminate].
      rewrite (IH _ _ _ H). apply process_config_entry_frame.
  Qed.

  (* the server starts from the durable image with the stored term as its current term *)
  Lemma recover_frame P img s tr : recover P img = RecOk s tr ->
    f s = f (set_vol_term (fresh_volatile img) (d_term img)).
  Proof.
    intros H. destruct (recover_stages _ _ _ _ H) as (le & s3 & tr3 & s4 & tr4 & s5 & _ & E3 & E4 & ES & -> & _).
    cbv zeta in E3, E4. apply scan_configs_frame in ES.
    assert (H3 : f s3 = f (set_vol_term (fresh_volatile img) (d_term img))).
    { destruct (find sn_ok _) as [sn|]; [destruct E3 as [_ ->]|destruct E3 as (_ & _ & ->)]; [|apply f_lastlog].
      rewrite f_latest, f_committed, f_lastsnap, f_restored. apply f_lastlog. }
    assert (H4 : f s4 = f s3).
    { destruct E4 as [(_ & -> & _)|(_ & _ & EP)]; [reflexivity|]. apply process_logs_frame in EP. rewrite EP. apply f_commit. }
    unfold rec_fin. destruct (_ && _); rewrite ?f_committed; congruence.
  Qed.

End Frame.

(* The decision tree of requestVote, for every proof that follows a handful of fields through it: refused before
   anything moves; a panic when the newer term cannot be persisted; or, from the state s1 the optional term bump
   leaves (t1 is the answer's term), an answer without a further write (granted only when the durable vote of this
   term already names the candidate), or - the candidate may vote, no vote of this term is recorded, its log is
   up to date - whatever persistVote does. *)
Lemma request_vote_cases s fs q :
  request_vote s fs q = Done s (v_term s, false) [] fs \/
  (v_term s < vq_term q /\ request_vote s fs q = Panic (set_state s Follower) [ESetTerm (vq_term q) false]) \/
  exists s1 fs1 tr1 t1,
    ((s1 = s /\ fs1 = fs /\ tr1 = [] /\ t1 = v_term s /\ v_term s = vq_term q) \/
     (do_set_term (set_state s Follower) fs (vq_term q) = Some (s1, fs1) /\ tr1 = [ESetTerm (vq_term q) true] /\
      t1 = vq_term q /\ v_term s < vq_term q)) /\
    ((exists g, request_vote s fs q = Done s1 (t1, g) tr1 fs1 /\
                (g = true -> d_vterm s1 = vq_term q /\ d_vcand s1 = Some (vq_addr q))) \/
     ((vq_id q <> 0 -> v_latest s1 <> [] -> has_vote (v_latest s1) (vq_id q) = true) /\
      (d_vterm s1 = vq_term q -> d_vcand s1 = None) /\
      log_ok s1 (vq_lastIdx q) (vq_lastTerm q) = true /\
      request_vote s fs q = let '(s2, ok, tr2, fs2) := persist_vote s1 fs1 (vq_term q) (vq_addr q) in
                            Done s2 (t1, ok) (tr1 ++ tr2) fs2)).
Proof.
  unfold request_vote.
  destruct (negb (vq_id q =? 0) && nonempty (v_latest s) && negb (in_config (v_latest s) (vq_id q))); [left; reflexivity|].
  destruct (negb (v_leader s =? 0) && negb (v_leader s =? vq_addr q) && negb (vq_transfer q)); [left; reflexivity|].
  destruct (N.ltb_spec (vq_term q) (v_term s)) as [|Hge]; [left; reflexivity|]. right.
  set (t1 := if v_term s <? vq_term q then vq_term q else v_term s).
  destruct (if v_term s <? vq_term q then _ else Some (s, fs, [])) as [[[s1 fs1] tr1]|] eqn:Eb.
  2:{ left. destruct (N.ltb_spec (v_term s) (vq_term q)); [auto|discriminate]. }
  right. exists s1, fs1, tr1, t1. split.
  { subst t1. destruct (N.ltb_spec (v_term s) (vq_term q)).
    - right. destruct (do_set_term _ fs (vq_term q)) as [[s1' fs1']|]; [|discriminate]. inversion Eb; subst. auto.
    - left. inversion Eb; subst. repeat split. lia. }
  clear Eb. generalize t1. clear t1. intros t1.
  destruct (negb (vq_id q =? 0) && nonempty (v_latest s1) && negb (has_vote (v_latest s1) (vq_id q))) eqn:E6.
  { left. exists false. split; [reflexivity|discriminate]. }
  assert (Hmem : vq_id q <> 0 -> v_latest s1 <> [] -> has_vote (v_latest s1) (vq_id q) = true).
  { intros Hid Hne. destruct (v_latest s1); [congruence|].
    apply N.eqb_neq in Hid. rewrite Hid in E6. simpl in E6. apply negb_false_iff in E6. exact E6. }
  destruct (if d_vterm s1 =? vq_term q then d_vcand s1 else None) as [c|] eqn:E7.
  { left. exists (c =? vq_addr q). split; [reflexivity|]. intros Eg. apply N.eqb_eq in Eg. subst c.
    destruct (N.eqb_spec (d_vterm s1) (vq_term q)); [auto|discriminate]. }
  destruct (log_ok s1 (vq_lastIdx q) (vq_lastTerm q)); cbn [negb]; [right|left; exists false; split; [reflexivity|discriminate]].
  split; [exact Hmem|]. split; [|auto]. intros Ev. rewrite Ev, N.eqb_refl in E7. exact E7.
Qed.

Lemma do_set_term_eq s fs t s' fs' :
  do_set_term s fs t = Some (s', fs') -> s' = set_vol_term (set_durable_term s t) t /\ fs' = tl fs.
Proof. unfold do_set_term. destruct fs as [|[|] r]; [|discriminate|]; intros H; inversion H; auto. Qed.

Section VoteFrame.
  Context {A : Type} (f : nstate -> A).
  Hypothesis f_dterm : forall s t, f (set_durable_term s t) = f s.
  Hypothesis f_vol_term : forall s t, f (set_vol_term s t) = f s.
  Hypothesis f_vterm : forall s t, f (set_vterm s t) = f s.
  Hypothesis f_vcand : forall s c, f (set_vcand s c) = f s.
  Hypothesis f_state : forall s r, f (set_state s r) = f s.

  Lemma do_set_term_frame s fs t s' fs' : do_set_term s fs t = Some (s', fs') -> f s' = f s.
  Proof.
    intros H. apply do_set_term_eq in H. destruct H as [-> _]. rewrite f_vol_term. apply f_dterm.
  Qed.

  Lemma persist_vote_frame s fs t c : f (fst (fst (fst (persist_vote s fs t c)))) = f s.
  Proof.
    unfold persist_vote. destruct (next_fail fs) as [b1 fs1]. destruct b1; [reflexivity|].
    destruct (next_fail fs1) as [b2 fs2]. destruct b2; simpl; rewrite ?f_vterm; apply f_vcand.
  Qed.

  Lemma request_vote_frame s fs q s' r tr fs' : request_vote s fs q = Done s' r tr fs' -> f s' = f s.
  Proof.
    intros H. destruct (request_vote_cases s fs q) as [E|[[_ E]|(s1 & fs1 & tr1 & t1 & Hb & Hr)]].
    - rewrite E in H. inversion H; reflexivity.
    - rewrite E in H. discriminate.
    - assert (F1 : f s1 = f s).
      { destruct Hb as [(-> & _)|(ET & _)]; [reflexivity|]. apply do_set_term_frame in ET. rewrite ET. apply f_state. }
      destruct Hr as [(g & E & _)|(_ & _ & _ & E)]; rewrite E in H.
      + inversion H; subst. exact F1.
      + pose proof (persist_vote_frame s1 fs1 (vq_term q) (vq_addr q)) as Hp.
        destruct (persist_vote s1 fs1 (vq_term q) (vq_addr q)) as [[[s2 ok] tr2] fs2].
        inversion H; subst. simpl in Hp. congruence.
  Qed.

End VoteFrame.

Section Replay.
  Context {A : Type} (f : nstate -> A) (step : A -> ev -> A) (P : params) (si : option snapshot).
  Hypothesis f_apply : forall s e, f (apply_ev P si s e) = step (f s) e.

  Lemma cut_image_replay tr : forall s k,
    exists j, f (cut_image P si s tr k) = fold_left step (firstn j tr) (f s).
  Proof.
    induction tr as [|e r IH]; intros s k.
    - exists 0%nat. destruct k; reflexivity.
    - destruct k as [|k']; [exists 0%nat; reflexivity|]. simpl.
      destruct (is_durable e); [destruct (IH (apply_ev P si s e) k') as [j Hj]|destruct (IH (apply_ev P si s e) (S k')) as [j Hj]];
        exists (S j); simpl; rewrite Hj, f_apply; reflexivity.
  Qed.
End Replay.

Section Filter.
  Context {A : Type} (step : A -> ev -> A) (keep : ev -> bool).
  Hypothesis step_skip : forall d e, keep e = false -> step d e = d.

  Lemma fold_filter tr : forall d, fold_left step tr d = fold_left step (filter keep tr) d.
  Proof.
    induction tr as [|e r IH]; intros d; simpl; [reflexivity|].
    destruct (keep e) eqn:E; simpl; [apply IH|]. rewrite step_skip by exact E. apply IH.
  Qed.

  Lemma prefix_filter tr : forall d j,
    exists j', fold_left step (firstn j tr) d = fold_left step (firstn j' (filter keep tr)) d.
  Proof.
    induction tr as [|e r IH]; intros d j.
    - exists 0%nat. destruct j; reflexivity.
    - destruct j as [|j]; [exists 0%nat; reflexivity|]. simpl.
      destruct (keep e) eqn:E.
      + destruct (IH (step d e) j) as [j' Hj']. exists (S j'). simpl. exact Hj'.
      + rewrite step_skip by exact E. destruct (IH d j) as [j' Hj']. exists j'. exact Hj'.
  Qed.
End Filter.

Lemma filter_drops_all {A} (keep : A -> bool) l : Forall (fun e => keep e = false) l -> filter keep l = [].
Proof. induction 1 as [|e r He _ IH]; simpl; [reflexivity|]. rewrite He. exact IH. Qed.

(* runCandidate (Model/Candidate.v) writes term, vote, role, advertised leader and the transfer flag, whatever
   arrives and whether or not pre-vote is on: it keeps every projection those setters leave alone *)
(* every field that RequestVote, the pre-vote, TimeoutNow, the term bump and runCandidate leave alone *)
Definition rest (s : nstate) :=
  (d_log s, d_staged s, d_pcommit s, d_snaps s, (v_commit s, v_applied s, v_fsm s, v_fsmLast s),
   (v_lastLogIdx s, v_lastLogTerm s, v_lastSnapIdx s, v_lastSnapTerm s),
   (v_latest s, v_latestIdx s, v_committed s, v_committedIdx s)).

Section CandFrame.
  Context {A : Type} (f : nstate -> A).
  Hypothesis f_dterm : forall s t, f (set_durable_term s t) = f s.
  Hypothesis f_vol_term : forall s t, f (set_vol_term s t) = f s.
  Hypothesis f_vterm : forall s t, f (set_vterm s t) = f s.
  Hypothesis f_vcand : forall s c, f (set_vcand s c) = f s.
  Hypothesis f_state : forall s r, f (set_state s r) = f s.
  Hypothesis f_leader : forall s a i, f (set_leader s a i) = f s.
  Hypothesis f_transfer : forall s b, f (set_transfer s b) = f s.

  Definition out_proj {R} (o : outcome R) : A := match o with Done s _ _ _ => f s | Panic s _ => f s end.

  Lemma elect_self_frame P s fs : out_proj (elect_self P s fs) = f s.
  Proof.
    unfold elect_self. cbv zeta. destruct (do_set_term s fs (v_term s + 1)) as [[s1 fs1]|] eqn:E; [|reflexivity].
    apply (do_set_term_frame f f_dterm f_vol_term) in E. destruct (last_entry s1) as [li lt].
    destruct (existsb _ _); [|exact E].
    pose proof (persist_vote_frame f f_vterm f_vcand s1 fs1 (v_term s + 1) (p_self P)) as EP.
    destruct (persist_vote s1 fs1 (v_term s + 1) (p_self P)) as [[[s2 ok] tr2] fs2]. simpl in *. congruence.
  Qed.

  Lemma cand_enter_frame P pv s fs : out_proj (cand_enter P pv s fs) = f s.
  Proof.
    unfold cand_enter. cbv zeta. destruct (pv && negb (v_transfer s)); [reflexivity|].
    pose proof (elect_self_frame P s fs) as H. destruct (elect_self P s fs) as [s' [q self] tr fs'|s' tr]; exact H.
  Qed.

  (* a newer term in an answer: setState(Follower), setCurrentTerm *)
  Lemma newer_term_frame {R} s fs t (r : R) :
    out_proj (match do_set_term (set_state s Follower) fs t with
              | Some (s1, fs1) => Done s1 r [ESetTerm t true] fs1
              | None => Panic (set_state s Follower) [ESetTerm t false]
              end) = f s.
  Proof.
    destruct (do_set_term (set_state s Follower) fs t) as [[s1 fs1]|] eqn:E; [|apply f_state].
    apply (do_set_term_frame f f_dterm f_vol_term) in E. simpl. rewrite E. apply f_state.
  Qed.

  Lemma on_prevote_frame P c s fs v : out_proj (on_prevote P c s fs v) = f s.
  Proof.
    unfold on_prevote. destruct (negb (c_prevote c)); [reflexivity|].
    destruct (c_term c <? vr_term v); [apply newer_term_frame|].
    cbv zeta. destruct (c_needed c <=? _); [|reflexivity].
    pose proof (elect_self_frame P s fs) as H. destruct (elect_self P s fs) as [s' [q self] tr fs'|s' tr]; exact H.
  Qed.

  Lemma on_vote_frame P c s fs v : out_proj (on_vote P c s fs v) = f s.
  Proof.
    unfold on_vote. destruct (negb (c_voting c)); [reflexivity|].
    destruct (v_term s <? vr_term v); [apply newer_term_frame|].
    cbv zeta. destruct (c_needed c <=? _); [|reflexivity]. simpl. rewrite f_leader. apply f_state.
  Qed.

  Lemma feed_self_frame P fuel : forall s c self tr, f (sess_state (fst (feed_self P fuel s c self tr))) = f s.
  Proof.
    induction fuel as [|n IH]; intros s c self tr; destruct self as [|v rest]; try reflexivity.
    simpl.
    assert (H : out_proj (if c_prevote c then on_prevote P c s [] v else on_vote P c s [] v) = f s)
      by (destruct (c_prevote c); [apply on_prevote_frame|apply on_vote_frame]).
    destruct (if c_prevote c then on_prevote P c s [] v else on_vote P c s [] v) as [s' [c' self'| |] tr' fs'|s' tr'];
      simpl in H; rewrite ?IH; exact H.
  Qed.

  Lemma exit_loop_frame x : f (sess_state (fst (exit_loop x))) = f (sess_state (fst x)).
  Proof. destruct x as [[s c|s|s|s] tr]; simpl; rewrite ?f_transfer; reflexivity. Qed.

  Lemma sess_enter_frame P pv s : f (sess_state (fst (sess_enter P pv s))) = f s.
  Proof.
    unfold sess_enter. pose proof (cand_enter_frame P pv (set_state s Candidate) []) as H. rewrite f_state in H.
    destruct (cand_enter P pv (set_state s Candidate) []) as [s' [c self] tr fs'|s' tr]; simpl in H; [|exact H].
    rewrite exit_loop_frame, feed_self_frame. exact H.
  Qed.

  Lemma sess_step_frame P pv x e : f (sess_state (fst (sess_step P pv x e))) = f (sess_state x).
  Proof.
    destruct x as [s c|s|s|s]; try reflexivity. cbn [sess_state].
    assert (Hres : forall o : outcome cand_next, out_proj o = f s ->
              f (sess_state (fst (match o with
                                  | Done s' (CStay c' self) tr _ => exit_loop (feed_self P 4 s' c' self tr)
                                  | Done s' CFollower tr _ => (SFollower (set_transfer s' false), tr)
                                  | Done s' CLeader tr _ => (SLeader (set_transfer s' false), tr)
                                  | Panic s' tr => (SDead s', tr)
                                  end))) = f s).
    { intros [s' [c' self'| |] tr' fs'|s' tr'] H; cbn [out_proj] in H; cbn [fst sess_state]; rewrite ?f_transfer; try exact H.
      rewrite exit_loop_frame, feed_self_frame. exact H. }
    destruct e as [v|v|]; unfold sess_step.
    - apply Hres, on_prevote_frame.
    - apply Hres, on_vote_frame.
    - rewrite sess_enter_frame. apply f_transfer.
  Qed.
End CandFrame.

