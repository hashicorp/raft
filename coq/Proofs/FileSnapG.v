(* FileSnapG.v — Inv is preserved by Close / Cancel of a finished sink and by Cancel. *)
From Coq Require Import List Arith NArith Bool Lia Permutation.
From RaftModel Require Import FileSnap FileSnapSpec.
From RaftProofs Require Import FileSnapA FileSnapB FileSnapC FileSnapD FileSnapE FileSnapF.
Import ListNotations.
Open Scope N_scope.

Definition set_done (k : sink) : sink := mkSink (k_sid k) (k_term k) (k_index k) (k_buf k) true.

Definition is_end (o : sop) : Prop := match o with SClose _ | SCancel _ => True | _ => False end.

(* the sink that a Close / Cancel finishes *)
Lemma SinkOK_end : forall s h f k o h' f', SinkOK s h f k -> is_end o -> sop_sid o = k_sid k ->
  SinkOK (s ++ [o]) h' f' (set_done k).
Proof.
  intros s h f k o h' f' [Hc Hd] Ho E. split; simpl; [eapply created_as_app_some; eauto|].
  rewrite ended_app. destruct (ended s (k_sid k)); [discriminate|].
  rewrite <- E. destruct o; try contradiction; simpl; rewrite N.eqb_refl; discriminate.
Qed.

Lemma wf_end : forall s o, is_end o -> In (sop_sid o) (created s) -> wf_op s o.
Proof. intros s [] Ho H; simpl in *; auto; contradiction. Qed.

(* Close / Cancel of a sink that is already finished: nothing happens *)
Lemma Inv_noop : forall retain s st h o, Inv retain s st h -> is_end o ->
  (forall k, find_sink (st_sinks st) (sop_sid o) = Some k -> k_done k = true) ->
  In (sop_sid o) (created s) -> Inv retain (s ++ [o]) st (h ++ []).
Proof.
  intros retain s st h o HI Ho Hdone Hin. destruct (i_sinks _ _ _ _ HI _ Hin) as [k [Hfk Hok]].
  destruct st as [rt f sinks].
  apply (Inv_step retain s (mkStore rt f sinks) h o [] sinks); simpl; auto.
  - apply wf_end; assumption.
  - apply QP_nil, Q_mono, (i_q _ _ _ _ HI).
  - intros y [].
  - exists k. split; [exact Hfk|]. destruct Hok as [Hc Hd]. split; [eapply created_as_app_some; eauto|].
    rewrite (Hdone k Hfk) in *. rewrite ended_app. destruct (ended s (k_sid k)); [discriminate|contradiction].
Qed.

Definition cancel_ops (sfirst : bool) (f : fs) (k : sink) : list fsop :=
  flush_ops k ++ remove_all sfirst (fs_run f (flush_ops k)) (k_sid k).

Lemma exec_cancel : forall sfirst st sid k, find_sink (st_sinks st) sid = Some k -> k_done k = false ->
  exec_op sfirst st (SCancel sid) =
  (mkStore (st_retain st) (fs_run (st_fs st) (cancel_ops sfirst (st_fs st) k)) (upd_sink (st_sinks st) sid set_done),
   cancel_ops sfirst (st_fs st) k).
Proof.
  intros sfirst st sid k Hf Hd. unfold exec_op. rewrite Hf, Hd. unfold cancel_ops.
  rewrite fs_run_app. rewrite (find_sink_sid _ _ _ Hf). reflexivity.
Qed.

Lemma cancel_tmp : forall sfirst f k o, In o (cancel_ops sfirst f k) -> tmp_op (k_sid k) o.
Proof.
  intros sfirst f k o H. unfold cancel_ops in H. apply in_app_or in H. destruct H as [H|H].
  - apply flush_tmp. exact H.
  - apply remove_all_ops in H. destruct H. apply rm_tmp_op; assumption.
Qed.

Section CancelOpen.
  Variables (sfirst : bool) (retain : N) (s : list sop) (st : store) (h : list fsop) (sid : N) (k : sink).
  Hypothesis HI : Inv retain s st h.
  Hypothesis Hfk : find_sink (st_sinks st) sid = Some k.
  Hypothesis Hnd : k_done k = false.
  Hypothesis Hin : In sid (created s).
  Let seg := cancel_ops sfirst (st_fs st) k.

  (* only Hfk is needed *)
  Lemma cancel_seg_tmp : forall o', In o' seg -> tmp_op sid o'.
  Proof using HI Hfk Hnd Hin.
    intros o' Ho'. rewrite <- (find_sink_sid _ _ _ Hfk). eapply cancel_tmp; eauto.
  Qed.
End CancelOpen.

Lemma Inv_tmp_end : forall retain s st h o seg, Inv retain s st h -> is_end o ->
  In (sop_sid o) (created s) -> (forall o', In o' seg -> tmp_op (sop_sid o) o') ->
  ~ In (FRename (sop_sid o)) h ->
  Inv retain (s ++ [o])
      (mkStore (st_retain st) (fs_run (st_fs st) seg) (upd_sink (st_sinks st) (sop_sid o) set_done)) (h ++ seg) /\
  QP (N.to_nat retain) (s ++ [o]) h (st_fs st) seg.
Proof.
  intros retain s st h o seg HI Ho Hin Hall Hnr.
  destruct (QP_tmp (N.to_nat retain) (s ++ [o]) (sop_sid o) seg h (st_fs st)) as [HQP Hnr'];
    [apply Q_mono, (i_q _ _ _ _ HI)|exact Hnr|exact Hall|].
  assert (Hother : forall d, d_sid d <> sop_sid o -> forall o', In o' seg -> op_sid o' <> Some (d_sid d)).
  { intros d Hd o' Ho' E. destruct (Hall o' Ho') as [Hs _]. rewrite Hs in E. inversion E. congruence. }
  destruct (i_sinks _ _ _ _ HI _ Hin) as [k [Hfk Hok]].
  split; [|exact HQP]. apply Inv_step; auto.
  - apply wf_end; assumption.
  - intros d Hd. destruct (N.eq_dec (d_sid d) (sop_sid o)) as [E|E].
    + right. split; [exact E|]. intros Ht. exfalso. apply Hnr'. rewrite <- E.
      apply (q_ren _ _ _ _ (QP_end _ _ _ _ _ HQP)); assumption.
    + left. apply (run_back seg); [intros o' Ho'; apply (Hall o' Ho')|exact Hd|apply Hother; exact E].
  - intros x Hx [d [Hd Hrest]]. exists d. split; [|exact Hrest].
    apply run_keep; [exact Hd|]. apply Hother. destruct Hrest as [Hr _]. congruence.
  - intros y Hi. destruct (Hall _ Hi) as [_ [Hr _]]. exfalso. eapply Hr. reflexivity.
  - intros y Hne. apply find_sink_upd_other; [reflexivity|exact Hne].
  - exists (set_done k). split; [apply find_sink_upd_same; [reflexivity|exact Hfk]|].
    eapply SinkOK_end; eauto. symmetry. apply (find_sink_sid _ _ _ Hfk).
Qed.
