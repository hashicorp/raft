(* ClusterCommitInit2.v — the initial states of Proofs/ClusterCommitSpec.v satisfy cinv of
   Proofs/ClusterCommitInv.v: the ghost history is the common initial history, nobody has been
   elected, nothing was accepted, nobody voted.  cinv is the form of the invariant the initial states
   are shown to satisfy; the steps keep zinvg (Proofs/ClusterCommitSnapInv2.v), which cinv implies
   there (cinv_zinv, Proofs/ClusterCommitSnapMain.v). *)
From Coq Require Import List NArith Bool Lia.
From stdpp Require Import gmap.
From RaftModel Require Import Node NodeCodec Cluster ClusterLog ClusterCommit.
From RaftProofs Require Import ClusterProofs ClusterLogSpec ClusterLogNode ClusterLogInv ClusterLogSnapMain ClusterLogMain ClusterCommitSpec
  ClusterCommitChain ClusterCommitAE2 ClusterCommitNode ClusterCommitGhost ClusterCommitInv.
Open Scope N_scope.

(* base: the common initial history *)
Lemma linit_linv_base cfgs g0 : linit_ok g0 ->
  exists base, hist_ok (0, 0) base /\ linv cfgs g0 (base_chain (0, 0) base) /\
    forall n, In n (g_nodes (lg_g g0)) -> node_init base n.
Proof.
  intros (Hg & Hmsgs & base & Hh & Hnodes). exists base. split; [exact Hh|]. split; [|exact Hnodes].
  apply (sinv_linv base 0), init_sinv; auto.
  intros n Hin. split; [apply (Hnodes n Hin)|]. split; [left; reflexivity|discriminate].
Qed.

Lemma base_chain_inv base : hist_ok (0, 0) base -> chain_inv (base_chain (0, 0) base) [].
Proof.
  intros Hh. constructor.
  - apply base_chain_ok, Hh.
  - intros e p Hin. apply (base_chain_pred _ _ e p Hin).
  - intros T c tl c' tl' [].
  - intros T c tl x p [].
  - intros T c tl x p [].
  - intros x p y q Hx Hy _ Hle.
    destruct (base_chain_nth _ _ x p Hx) as [kx Hkx]. destruct (base_chain_nth _ _ y q Hy) as [ky Hky].
    pose proof (hist_idx _ _ Hh kx x Hkx) as Ix. pose proof (hist_idx _ _ Hh ky y Hky) as Iy. simpl in Ix, Iy.
    apply (base_chain_anc (base_chain (0, 0) base) (0, 0) base (incl_refl _) ky y Hky) with (k' := kx); [lia|exact Hkx].
  - intros T c tl [].
  - intros T c tl [].
  - intros x p _. right. intros T c tl [].
Qed.

Lemma prefix_lcontig base k m : log_prefix base k m -> lcontig m.
Proof.
  intros Hp i Hi [e He]. pose proof Hp as [_ H]. rewrite H in He.
  destruct (N.leb_spec 1 i); [|discriminate]. destruct (N.leb_spec i (N.of_nat k)); [|discriminate].
  apply (prefix_some base k m (i - 1) Hp). lia.
Qed.

Lemma prefix_top base k m : log_prefix base k m -> top_of m (N.of_nat k).
Proof.
  intros Hp. split.
  - intros i Hi. destruct Hp as [_ H]. rewrite H. destruct (N.leb_spec i (N.of_nat k)); [lia|]. rewrite andb_false_r. reflexivity.
  - intros Hpos. apply (prefix_some base k m _ Hp). lia.
Qed.

Theorem cinit_cinv cfg g0 : cinit_ok cfg g0 ->
  exists C, cinv cfg (map gn_P (cnodes g0)) g0 C [] [] [].
Proof.
  intros (Hlin & Hlead & Hhb & Hans & HV & Hcn).
  destruct (linit_linv_base [cfg] (cg_l g0) Hlin) as (base & Hh & Hlinv & Hni).
  pose proof Hlin as ((_ & Hn0 & _ & Hl0 & Hg0) & Hm0 & _).
  exists (base_chain (0, 0) base). constructor.
  - exact Hlinv.
  - apply base_chain_inv, Hh.
  - constructor.
    + intros w T' c kw rq k k0 [].
    + intros T' c tl' [].
    + intros w T' c kw rq [].
    + intros w k [].
  - intros T c. unfold gof. rewrite Hl0. split; [intros []|intros (tl & [])].
  - intros n Hin. destruct (Hcn n Hin) as (Hrc & _ & Hce & Hup). destruct (Hni n Hin) as (_ & _ & k & Hp & Hrun).
    split; [exact Hrc|]. split; [apply in_map, Hin|].
    assert (Hdec : log_dec cfg (map gn_P (cnodes g0)) (d_log (image (gn_run n)))).
    { intros i e He Hty P HP. apply in_map_iff in HP. destruct HP as (n' & <- & Hn'). apply (Hce i e He Hty n' Hn'). }
    destruct (gn_run n) as [s|s]; simpl in *.
    + destruct Hrun as (_ & _ & Hck). destruct Hup as (U1 & U2 & U3 & U4).
      split; [eapply prefix_lcontig; eauto|]. split; [exact Hdec|]. split.
      { replace (v_lastLogIdx s) with (N.of_nat k); [eapply prefix_top; eauto|].
        rewrite <- (last_key_idx base k Hh (proj1 Hp)), <- Hck. reflexivity. }
      split; [exact U3|]. split; [exact U4|lia].
    + split; [eapply prefix_lcontig; eauto|exact Hdec].
  - intros n s Hin Hr. destruct (Hcn n Hin) as (_ & _ & _ & Hup). rewrite Hr in Hup. destruct Hup as (U1 & _).
    rewrite U1. split; [lia|]. intros i e He Hi. exfalso.
    destruct (li_nodes [cfg] _ _ Hlinv n Hin) as [Hnl _]. rewrite Hr in Hnl. destruct Hnl as (_ & Hli & _).
    pose proof (log_in_pos _ _ _ i e (li_chain [cfg] _ _ Hlinv) Hli He). lia.
  - intros n s Hin Hr Hrole. exfalso. destruct (Hni n Hin) as (_ & _ & k & _ & Hrun). rewrite Hr in Hrun. tauto.
  - rewrite Hm0. intros m [].
  - rewrite Hans. intros x [].
  - intros w k [].
  - intros w k n k0 [].
  - intros w T' c kw rq [].
  - intros w T' c kw rq nc se [].
  - unfold gof. rewrite Hg0. intros w T' c [].
  - intros n T' c Hin Hlv. destruct (Hcn n Hin) as (_ & Hnl & _). rewrite Hnl in Hlv. discriminate.
  - intros n se Hin Hse. destruct (Hn0 n Hin) as [_ Hs]. unfold cnodes in Hin. congruence.
  - intros n se Hin Hse. destruct (Hn0 n Hin) as [_ Hs]. unfold cnodes in Hin. congruence.
Qed.
