(* ClusterCommitSnapBoot.v — NewRaft from a durable image that holds snapshots: the newest snapshot
   becomes the boundary and the restarted server satisfies the node invariant of
   Proofs/ClusterCommitSnapLog.v (any parameters). *)
From Coq Require Import List NArith Bool Lia.
From stdpp Require Import gmap.
From RaftModel Require Import Base Node NodeCodec.
From RaftProofs Require Export ClusterCommitInit.
From RaftProofs Require Import RecoverProofs AppendProofs ClusterLogSpec ClusterLogChain ClusterLogNode ClusterLogSnapBoot
  ClusterCommitSpec ClusterCommitChain ClusterCommitInv ClusterCommitSnapLog.
Open Scope N_scope.

(* the snapshots of one branch: the (term, index)-largest is the index-largest *)
Lemma sle_branch C top z sn : chain_ok C -> anc C (sk z) top -> anc C (sk sn) top -> sle z sn = true -> sn_idx z <= sn_idx sn.
Proof.
  intros HC Hz Hs Hle. apply sle_spec in Hle.
  destruct (N.le_gt_cases (sn_idx z) (sn_idx sn)) as [|Hgt]; [assumption|exfalso].
  assert (Ha : anc C (sk sn) (sk z)) by (apply (anc_linear C _ _ top HC Hs Hz); unfold sk; simpl; lia).
  destruct (anc_le C _ _ HC Ha) as [_ Ht]. unfold sk in Ht. simpl in Ht. lia.
Qed.

Lemma cmp_root C top x y : chain_ok C -> pclosed C -> rootc C x -> rootc C y ->
  (x = (0, 0) \/ anc C x top) -> (y = (0, 0) \/ anc C y top) -> fst x <= fst y -> anc C x y.
Proof.
  intros HC Hp Rx Ry [->|Hx] Hy Hle; [apply anc_root_all; assumption|].
  destruct Hy as [->|Hy]; [|apply (anc_linear C x y top HC Hx Hy Hle)].
  rewrite (rootc_zero C x HC Rx) by (simpl in Hle; lia). apply anc_refl.
Qed.

Lemma recover_zup C P img s tr : chain_ok C -> pclosed C -> zimg C img -> recover P img = RecOk s tr -> zup C s.
Proof.
  intros HC Hp [Hin (top & Hbel & Hsnt) Hsn Hseg] ER.
  pose proof (recover_ok P img s tr (log_in_keys C _ _ Hin) ER) as ((Dt & _ & _ & Dl & _ & _ & Ds) & _).
  destruct (recover_keys P img s tr (log_in_keys C _ _ Hin) ER) as (K5 & Htop & Hbk).
  pose proof (find_ok_snap (d_snaps img) (fun sn H => proj1 (Hsn sn H))) as Hfo.
  unfold zup. rewrite Dt, Dl, Ds. change (cached_key s) with (topk s) in K5, Htop. set (m := d_log img) in *. set (sns := d_snaps img) in *. set (T := d_term img) in *.
  assert (Htk : rootc C (topk s) /\ snd (topk s) <= T /\ log_below C m (topk s) /\ (topk s = (0, 0) \/ anc C (topk s) top)).
  { destruct Htop as [[E0 ->]|(le & Hle & ->)].
    - split; [left; reflexivity|]. split; [simpl; lia|]. split; [|left; reflexivity].
      intros i x Hx. exfalso. pose proof (log_in_pos C _ _ i x HC Hin Hx). pose proof (log_last_ge _ i x Hx). lia.
    - destruct (Hin _ le Hle) as (_ & (p & Pp) & Hterm).
      split; [right; exists le, p; auto|]. split; [exact Hterm|]. split; [|right; apply (Hbel _ le Hle)].
      intros i x Hx. apply (top_dominates C 0 m T top le HC Hin (fun i e He _ => Hbel i e He) Hle i x Hx).
      pose proof (log_in_pos C _ _ i x HC Hin Hx). lia. }
  destruct Htk as (K1 & K2 & K3 & K4).
  assert (Hb : rootc C (bk s) /\ snd (bk s) <= T /\ (bk s = (0, 0) \/ anc C (bk s) top) /\
               (forall z, In z sns -> sn_idx z <= fst (bk s)) /\ (fst (bk s) = 0 \/ exists sn, In sn sns /\ sk sn = bk s)).
  { fold sns in Hbk, Hfo. destruct (find sn_ok (list_snaps sns)) as [sn|].
    - destruct Hbk as (Hi & E). change (sn_idx sn, sn_term sn) with (sk sn) in E. destruct Hfo as [_ Hmax]. destruct (Hsn sn Hi) as (_ & B2 & B3).
      assert (Eb : bk s = sk sn).
      { rewrite bk_pos; [exact E|]. pose proof (created_pos C _ HC B2) as H1. injection E as E1 _. unfold sk in H1. simpl in H1. lia. }
      rewrite Eb.
      split; [right; exact B2|]. split; [exact B3|]. split; [right; apply Hsnt, Hi|]. split; [|right; exists sn; auto].
      intros z Hz. destruct (Hmax z Hz) as [->|Hle]; [simpl; lia|].
      apply (sle_branch C top z sn HC (Hsnt z Hz) (Hsnt sn Hi) Hle).
    - rewrite (bk_zero s Hbk). split; [left; reflexivity|]. split; [simpl; lia|]. split; [left; reflexivity|].
      split; [rewrite Hfo; intros z []|left; reflexivity]. }
  destruct Hb as (B1 & B2 & B3 & B4 & B5).
  constructor; try assumption.
  - intros Hle. apply (cmp_root C top); assumption.
  - intros Hlt'. apply (cmp_root C top); try assumption. lia.
  - intros i Hi Hi'. apply Hseg; [lia| |lia]. intros z Hz. pose proof (B4 z Hz). lia.
  - intros z Hz. destruct (Hsn z Hz) as (Z1 & Z2 & Z3). split; [exact Z1|]. split; [exact Z2|]. split; [exact Z3|].
    apply (cmp_root C top); try assumption; [right; exact Z2|right; apply Hsnt, Hz|apply (B4 z Hz)].
Qed.

Lemma boot_znlog C P img r out : chain_ok C -> pclosed C -> zimg C img -> boot P img = (r, out) ->
  znlog C r /\ d_term (image r) = d_term img /\ d_log (image r) = d_log img /\ d_snaps (image r) = d_snaps img /\
  (forall s, r = Up s -> v_role s = Follower).
Proof.
  intros HC Hp Himg HB. destruct (boot_cases _ _ _ _ HB) as [(s & tr & ER & ->)| ->]; clear HB;
    [|simpl; split; [exact Himg|]; repeat (split; [reflexivity|]); intros s0 Hs0; discriminate].
  pose proof (recover_zup C P img s tr HC Hp Himg ER) as Hz.
  destruct Himg as [Hin _ _ _].
  pose proof (recover_ok P img s tr (log_in_keys C _ _ Hin) ER) as ((Dt & _ & _ & Dl & _ & _ & Ds) & _ & Hrole & _).
  simpl. split; [exact Hz|]. split; [exact Dt|]. split; [exact Dl|]. split; [exact Ds|].
  intros s0 Hs0. inversion Hs0; subst. exact Hrole.
Qed.
