(* ClusterLogSnapBoot.v — the snapshot listing, what NewRaft caches and applies (for no invariant in particular). *)
From Coq Require Import List NArith Bool Lia.
From stdpp Require Import gmap.
From RaftModel Require Import Base Node NodeCodec.
From RaftProofs Require Import NodeFrame RecoverProofs AppendProofs ClusterLogSpec ClusterLogChain ClusterLogNode ClusterLogCut
  NodeStep.
Open Scope N_scope.

Definition sle (y x : snapshot) : bool :=
  (sn_term y <? sn_term x) || ((sn_term y =? sn_term x) && (sn_idx y <=? sn_idx x)).

Lemma sle_spec y x : sle y x = true <-> sn_term y < sn_term x \/ (sn_term y = sn_term x /\ sn_idx y <= sn_idx x).
Proof.
  unfold sle. rewrite orb_true_iff, andb_true_iff, N.ltb_lt, N.eqb_eq, N.leb_le. tauto.
Qed.

Fixpoint sorted_desc (l : list snapshot) : Prop :=
  match l with [] => True | h :: t => (forall z, In z t -> sle z h = true) /\ sorted_desc t end.

Lemma insert_snap_in x l z : In z (insert_snap x l) <-> z = x \/ In z l.
Proof.
  induction l as [|y r IH]; simpl; [intuition|]. fold (sle y x).
  destruct (sle y x); simpl; [intuition|]. rewrite IH. intuition.
Qed.

Lemma insert_snap_sorted x l : sorted_desc l -> sorted_desc (insert_snap x l).
Proof.
  induction l as [|y r IH]; simpl; [intros _; split; [intros z []|exact I]|]. fold (sle y x).
  intros [Hy Hr]. destruct (sle y x) eqn:E.
  - split; [|split; assumption]. intros z [<-|Hz]; [exact E|].
    specialize (Hy z Hz). apply sle_spec in Hy, E. apply sle_spec. lia.
  - simpl. split; [|apply IH, Hr]. intros z Hz. apply insert_snap_in in Hz. destruct Hz as [->|Hz]; [|apply Hy, Hz].
    apply sle_spec. assert (Hn : ~ (sn_term y < sn_term x \/ sn_term y = sn_term x /\ sn_idx y <= sn_idx x)).
    { intros H. apply sle_spec in H. congruence. } lia.
Qed.

Lemma list_snaps_spec l : sorted_desc (list_snaps l) /\ forall z, In z (list_snaps l) <-> In z l.
Proof.
  unfold list_snaps.
  assert (G : forall l acc, sorted_desc acc ->
            sorted_desc (fold_left (fun a x => insert_snap x a) l acc) /\
            forall z, In z (fold_left (fun a x => insert_snap x a) l acc) <-> In z l \/ In z acc).
  { clear l. induction l as [|x r IH]; intros acc Hs; simpl; [split; [exact Hs|intuition]|].
    destruct (IH (insert_snap x acc) (insert_snap_sorted x acc Hs)) as [A B]. split; [exact A|].
    intros z. rewrite B, insert_snap_in. intuition. }
  destruct (G l [] I) as [A B]. split; [exact A|]. intros z. rewrite B. simpl. intuition.
Qed.

(* with only usable snapshots NewRaft restores the (term, index)-largest one *)
Lemma find_ok_snap l : (forall sn, In sn l -> sn_ok sn = true) ->
  match find sn_ok (list_snaps l) with
  | Some sn => In sn l /\ forall z, In z l -> z = sn \/ sle z sn = true
  | None => l = []
  end.
Proof.
  intros Hok. destruct (list_snaps_spec l) as [Hs Hm].
  destruct (list_snaps l) as [|h t] eqn:E.
  - simpl. destruct l as [|x r]; [reflexivity|]. exfalso. apply (proj2 (Hm x)). left. reflexivity.
  - simpl. rewrite (Hok h) by (apply Hm; left; reflexivity).
    split; [apply Hm; left; reflexivity|]. intros z Hz. apply Hm in Hz. destruct Hz as [<-|Hz]; [left; reflexivity|].
    right. apply (proj1 Hs z Hz).
Qed.

(* the key of the stored entry with the largest index, and the newest usable snapshot *)
Lemma recover_keys P img s tr : keys_ok (d_log img) -> recover P img = RecOk s tr ->
  fst (cached_key s) = log_last (d_log img) /\
  ((log_last (d_log img) = 0 /\ cached_key s = (0, 0)) \/ (exists le, d_log img !! log_last (d_log img) = Some le /\ cached_key s = key le)) /\
  match find sn_ok (list_snaps (d_snaps img)) with
  | Some sn => In sn (d_snaps img) /\ (v_lastSnapIdx s, v_lastSnapTerm s) = (sn_idx sn, sn_term sn)
  | None => v_lastSnapIdx s = 0
  end.
Proof.
  intros Hk ER. pose proof (recover_ok P img s tr Hk ER) as (_ & _ & _ & Hli & Hlt & Hsn & _).
  split; [exact Hli|]. split.
  - destruct (N.ltb_spec 0 (log_last (d_log img))) as [Hpos|Hz].
    + right. destruct Hlt as (le & Hle & Hlt). exists le. split; [exact Hle|].
      unfold cached_key, key. rewrite Hli, Hlt, (Hk _ _ Hle). reflexivity.
    + left. assert (E0 : log_last (d_log img) = 0) by lia. split; [exact E0|]. unfold cached_key. rewrite Hli, E0, Hlt. reflexivity.
  - destruct (find sn_ok (list_snaps (d_snaps img))) as [sn|] eqn:EF.
    + apply find_some in EF. destruct EF as [EF _]. apply (proj2 (list_snaps_spec (d_snaps img))) in EF.
      destruct Hsn as [-> ->]. split; [exact EF|reflexivity].
    + apply Hsn.
Qed.

(* that entry dominates what lies on one branch with it (above B) *)
Lemma top_dominates C B m T top le : chain_ok C -> log_in C m T ->
  (forall i e, m !! i = Some e -> B < i -> anc C (key e) top) -> m !! log_last m = Some le ->
  forall i e, m !! i = Some e -> B < i -> anc C (key e) (key le).
Proof.
  intros HC Hin Hab Hle i e He Hb. destruct (Hin i e He) as (Hk & _). destruct (Hin _ le Hle) as (Hkl & _).
  pose proof (log_last_ge _ i e He) as Hge.
  apply (anc_linear C (key e) (key le) top HC (Hab i e He Hb) (Hab _ le Hle ltac:(lia))). unfold key. simpl. lia.
Qed.

Lemma scan_configs_fsm P n : forall s from s', scan_configs P s from n = Some s' -> v_fsmLast s' = v_fsmLast s.
Proof. apply scan_configs_frame; intros; reflexivity. Qed.

Lemma recover_apply P img s tr : recover P img = RecOk s tr ->
  let a0 := match find sn_ok (list_snaps (d_snaps img)) with Some sn => sn_idx sn | None => 0 end in
  (v_commit s = 0 /\ v_applied s = a0 /\ v_fsmLast s = (0, 0)) \/
  (exists s3 s4 tr4, let ci := N.min (d_pcommit img) (log_last (d_log img)) in
     d_log s3 = d_log img /\ v_applied s3 = a0 /\ v_fsmLast s3 = (0, 0) /\ v_commit s3 = ci /\
     process_logs s3 ci = Some (s4, tr4) /\
     v_commit s = v_commit s4 /\ v_applied s = v_applied s4 /\ v_fsmLast s = v_fsmLast s4).
Proof.
  cbv zeta. intros H. destruct (recover_stages _ _ _ _ H) as (le & s3 & tr3 & s4 & tr4 & s5 & _ & E3 & E4 & ES & -> & _).
  cbv zeta in E3, E4. clear H.
  assert (F5 : v_fsmLast (rec_fin s5) = v_fsmLast s4)
    by (rewrite <- (scan_configs_fsm _ _ _ _ _ ES); unfold rec_fin; destruct (_ && _); reflexivity).
  apply scan_configs_keeps_fin in ES. destruct ES as (_ & _ & A5 & _ & _ & _ & _ & _ & _ & C5).
  assert (H3 : d_log s3 = d_log img /\ d_pcommit s3 = d_pcommit img /\ v_commit s3 = 0 /\ v_fsmLast s3 = (0, 0) /\
               v_applied s3 = match find sn_ok (list_snaps (d_snaps img)) with Some sn => sn_idx sn | None => 0 end).
  { destruct (find sn_ok (list_snaps (d_snaps img))) as [sn|]; [destruct E3 as [_ ->]|destruct E3 as (_ & _ & ->)]; repeat split. }
  destruct H3 as (L3 & P3 & C3 & F3 & A3).
  destruct E4 as [(_ & -> & _)|(_ & _ & EP)]; [left; split; [congruence|]; split; congruence|right].
  rewrite P3, L3 in EP.
  exists (set_commit s3 (N.min (d_pcommit img) (log_last (d_log img)))), s4, tr4. cbv zeta.
  split; [exact L3|]. split; [exact A3|]. split; [exact F3|]. split; [reflexivity|]. split; [exact EP|].
  split; [exact C5|]. split; [exact A5|exact F5].
Qed.
