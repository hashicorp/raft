(* ClusterLeaderMain.v — WHO acts as leader, over all runs of Model/ClusterCommit.v (with and without
   takeSnapshot): the statements of Proofs/ClusterLeaderSpec.v.

   one_leader_per_term, leaders_are_recorded and the first half of ae_senders_are_leaders are read off the
   invariant of Proofs/ClusterCommitSnapMain.v (Zinvg: it contains the election invariant ginv, lead_ok for
   every server and msg_ok for every request).  Beside it: every request names its sender as leader
   (msgs_ids), and the pair (currentTerm, advertised leader id) of every running server is recorded
   (nodes_adv) — kept by every step because the server a step touches (Proofs/ClusterCommitMove.v) keeps the
   pair, clears the leader, adopts the pair of an AppendEntries it accepts (recorded: the request is in
   lg_msgs), or wins an election (recorded in the same step): Proofs/ClusterLeaderNode.v. *)
From Coq Require Import List NArith Bool Lia.
From stdpp Require Import gmap.
From RaftModel Require Import Base Config Node NodeCodec Leader Cluster ClusterLog ClusterCommit.
From RaftProofs Require Import NodeFrame LeaderProofs ClusterProofs ClusterStepInv ClusterLogInv ClusterCommitSpec ClusterCommitLog
  ClusterCommitSnapSpec ClusterCommitSnapLinv ClusterCommitSnapInv2 ClusterCommitSnapMain ClusterLeaderSpec
  ClusterLeaderNode ClusterCommitMove.
Open Scope N_scope.

(* every request was sent by a recorded leader of its term, and names its sender as leader *)
Definition msgs_rec (g : cgstate) : Prop :=
  forall m, In m (lg_msgs (cg_l g)) -> In (aq_term (am_req m), am_from m) (leaders_of g).
Definition msgs_ids (g : cgstate) : Prop := forall m, In m (lg_msgs (cg_l g)) -> aq_id (am_req m) = am_from m.
Definition nodes_adv (g : cgstate) : Prop := forall n, In n (cnodes g) -> nadv (leaders_of g) (gn_run n).

Lemma loop_result_adv P s x : loop_result P s x -> sess_adv P s x.
Proof. intros [(s0 & _ & ->)|(c & v & ->)]; [apply sess_enter_adv|apply sess_vote_adv]. Qed.

(* the moved server: its code keeps the pair, clears the leader, adopts the pair of a request that was sent, or wins *)
Lemma cmove_nadv sn g l n r' L' : msgs_rec g -> msgs_ids g -> nadv (leaders_of g) (gn_run n) -> cmove sn g l n r' L' -> nadv L' r'.
Proof.
  intros Hrec Hids Hn [e cut fs r1 ob out _ He Hsf|s x Hr Hx|s ty data fs Hr _|s Hr _|s ld ls2 tr res Hr _ _ _ Hlc];
    try rewrite Hr in Hn.
  - refine (step_full_nadv _ _ _ _ _ _ _ _ _ Hn _ _ Hsf); [intros ->; exact He|].
    destruct e; try discriminate; [|destruct He]. intros ad i t Hx. inversion Hx; subst. destruct He as (m & Hm & ->).
    rewrite (Hids m Hm). apply Hrec, Hm.
  - apply (sess_result_adv _ s); [exact Hn|apply loop_result_adv, Hx].
  - destruct (dispatch_adv (gn_P n) (leader_setup s) fs [(ty, data, 0)]) as (Ht & _ & [Hl|Hl]); [|left; exact Hl].
    cbn [nadv]. rewrite Ht, Hl. exact Hn.
  - left. reflexivity.
  - apply (leader_commit_frame (fun x => (v_leaderId x, v_term x))) in Hlc; try (intros; reflexivity). injection Hlc as A B. cbn [l_node] in A, B.
    cbn [nadv]. rewrite A, B. exact Hn.
Qed.

Definition Ladv (g : cgstate) : Prop := msgs_ids g /\ nodes_adv g.

Section Main.
  Variable cfg : config.
  Variable Ps : list params.
  Hypothesis HVn : NoDup (voters cfg).

  Lemma Zinvg_facts g : Zinvg cfg Ps true g -> one_leader_per_term g /\ leaders_are_recorded g /\ msgs_rec g.
  Proof.
    intros (C & LL & A & V & HI). pose proof (zg_l HI) as HL.
    split; [|split].
    - intros T i i' H1 H2. apply (leaders_fun [cfg] (lg_g (cg_l g)) T i i' (quorums_intersect_one cfg HVn) (zl_g _ _ _ HL) H1 H2).
    - intros n s Hin Hr Hrole. destruct (zl_nodes _ _ _ HL n Hin) as [_ Hlead]. apply (Hlead s Hr Hrole).
    - intros m Hm. destruct (zl_msgs _ _ _ HL m Hm) as (_ & B & _). exact B.
  Qed.

  Lemma cstep_adv sn g l g' : Zinvg cfg Ps true g -> Ladv g -> cstep sn [cfg] g l = Some g' -> Ladv g'.
  Proof.
    intros HZ [Hids Hadv] Hstep. destruct (Zinvg_facts g HZ) as (_ & _ & Hrec). split.
    - intros m Hm. destruct (cstep_msgs _ _ _ _ _ Hstep) as [E|(n & s & m' & _ & _ & _ & _ & Hid & E)]; rewrite E in Hm; [apply Hids, Hm|].
      apply in_app_iff in Hm. destruct Hm as [Hm|[<-|[]]]; [apply Hids, Hm|exact Hid].
    - destruct (cstep_nodes _ _ _ _ _ Hstep) as [Hincl Hnodes]. intros x' Hx'.
      destruct (Hnodes x' Hx') as (x & Hx & _ & [->|Ht]); [apply (nadv_mono _ _ _ Hincl), Hadv, Hx|].
      apply (cmove_nadv sn g l x _ _ Hrec Hids (Hadv x Hx) Ht).
  Qed.
End Main.

(* WHO ACTS AS LEADER, in every reachable state, with and without takeSnapshot *)
Theorem leaders_faithful_all_runs : forall sn cfg g0 ls g,
  cinit_snap_ok cfg g0 -> nobody_advertised g0 -> Forall label_ok ls -> crun sn [cfg] g0 ls = Some g ->
  one_leader_per_term g /\ ae_senders_are_leaders g /\ advertised_leaders_are_leaders g /\ leaders_are_recorded g.
Proof.
  intros sn cfg g0 ls g H0 Hnb Hls Hrun.
  destruct (reach_along Ladv sn cfg g0 ls g H0) as (HVn & HZ & Hids & Hadv); [|intros HVn; apply (cstep_adv cfg _ HVn)|exact Hls|exact Hrun|].
  - split.
    + intros m Hm. destruct H0 as (((_ & Hm0 & _) & _) & _). rewrite Hm0 in Hm. destruct Hm.
    + intros n Hin. destruct (gn_run n) as [s|s] eqn:Hr; [|exact I]. left. apply (Hnb n s Hin Hr).
  - destruct (Zinvg_facts cfg _ HVn g HZ) as (H1 & H4 & Hrec).
    split; [exact H1|]. split; [|split; [|exact H4]].
    + intros m Hm. split; [apply Hrec, Hm|apply Hids, Hm].
    + intros n s Hin Hr Hne. specialize (Hadv n Hin). rewrite Hr in Hadv. destruct Hadv as [Hz|Hrec']; [contradiction|exact Hrec'].
Qed.

Print Assumptions leaders_faithful_all_runs.
