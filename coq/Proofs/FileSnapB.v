(* FileSnapB.v — the file system: how one op acts on the directories, candidates, dirtiness,
   last_sync, and what the crash does to non-temporary directories. *)
From Coq Require Import List Arith NArith Bool Lia Permutation.
From RaftModel Require Import FileSnap.
Import ListNotations.
Open Scope N_scope.

Lemma fs_run_app : forall a b f, fs_run f (a ++ b) = fs_run (fs_run f a) b.
Proof. intros. unfold fs_run. apply fold_left_app. Qed.

Lemma fs_run_snoc : forall a o f, fs_run f (a ++ [o]) = fs_apply (fs_run f a) o.
Proof. intros. rewrite fs_run_app. reflexivity. Qed.

Lemma in_firstn : forall (A : Type) n (l : list A) x, In x (firstn n l) -> In x l.
Proof.
  intros A n l x H. rewrite <- (firstn_skipn n l). apply in_or_app. left; exact H.
Qed.

Lemma in_firstn_le : forall (A : Type) j k (l : list A) x, (j <= k)%nat ->
  In x (firstn j l) -> In x (firstn k l).
Proof.
  intros A j k l x Hle H.
  replace (firstn j l) with (firstn j (firstn k l)) in H.
  - eapply in_firstn; eauto.
  - rewrite firstn_firstn. f_equal. lia.
Qed.

Lemma firstn_concat : forall (A : Type) (segs : list (list A)) j,
  firstn j (concat segs) = concat segs \/
  exists pre seg post j', segs = pre ++ seg :: post /\ firstn j (concat segs) = concat pre ++ firstn j' seg.
Proof.
  induction segs as [|seg r IH]; intros j; simpl.
  - left. destruct j; reflexivity.
  - rewrite firstn_app. destruct (le_lt_dec j (length seg)) as [Hle|Hgt].
    + right. exists [], seg, r, j. split; [reflexivity|]. simpl.
      replace (j - length seg)%nat with 0%nat by lia. simpl. apply app_nil_r.
    + rewrite (firstn_all2 seg) by lia.
      destruct (IH (j - length seg)%nat) as [E|[pre [s [post [j' [E1 E2]]]]]].
      * left. rewrite E. reflexivity.
      * right. exists (seg :: pre), s, post, j'. split; [rewrite E1; reflexivity|].
        rewrite E2. simpl. rewrite app_assoc. reflexivity.
Qed.

Definition op_sid (o : fsop) : option N :=
  match o with
  | FSyncParent => None
  | FMkdir s | FCreateMeta s | FWriteMeta s _ | FSyncMeta s | FCreateState s | FWriteState s _
  | FSyncState s | FRename s | FUnlinkMeta s | FUnlinkState s | FRmdir s => Some s
  end.

(* ops that rewrite the directory they name in place *)
Definition is_upd (o : fsop) : bool :=
  match o with FMkdir _ | FSyncParent | FRmdir _ => false | _ => true end.

Definition dstep (o : fsop) (d : dir) : dir :=
  match o with
  | FCreateMeta _ => mkDir (d_sid d) (d_tmp d)
      (Some (mkMF MEmpty (match d_meta d with Some x => mf_synced x | None => MEmpty end) true)) (d_state d)
  | FWriteMeta _ m => mkDir (d_sid d) (d_tmp d)
      (match d_meta d with Some x => Some (mkMF (MFull m) (mf_synced x) true) | None => None end) (d_state d)
  | FSyncMeta _ => mkDir (d_sid d) (d_tmp d)
      (match d_meta d with Some x => Some (mkMF (mf_c x) (mf_c x) false) | None => None end) (d_state d)
  | FCreateState _ => mkDir (d_sid d) (d_tmp d) (d_meta d)
      (Some (mkSF [] (match d_state d with Some x => sf_synced x | None => [] end) true))
  | FWriteState _ bytes => mkDir (d_sid d) (d_tmp d) (d_meta d)
      (match d_state d with Some x => Some (mkSF (sf_c x ++ bytes) (sf_synced x) true) | None => None end)
  | FSyncState _ => mkDir (d_sid d) (d_tmp d) (d_meta d)
      (match d_state d with Some x => Some (mkSF (sf_c x) (sf_c x) false) | None => None end)
  | FRename _ => mkDir (d_sid d) false (d_meta d) (d_state d)
  | FUnlinkMeta _ => mkDir (d_sid d) (d_tmp d) None (d_state d)
  | FUnlinkState _ => mkDir (d_sid d) (d_tmp d) (d_meta d) None
  | _ => d
  end.

Lemma apply_upd : forall f o sid, is_upd o = true -> op_sid o = Some sid ->
  fs_apply f o = upd f sid (dstep o).
Proof.
  intros f o sid Hu Hs. destruct o; simpl in *; try discriminate; inversion Hs; subst; reflexivity.
Qed.

Lemma dstep_sid : forall o d, d_sid (dstep o d) = d_sid d.
Proof. intros [] d; reflexivity. Qed.

Lemma dstep_tmp : forall o d, (forall s, o <> FRename s) -> d_tmp (dstep o d) = d_tmp d.
Proof. intros [] d H; try reflexivity. exfalso. eapply H; reflexivity. Qed.

Lemma upd_in : forall f sid g d', In d' (upd f sid g) <->
  exists d, In d f /\ d' = if d_sid d =? sid then g d else d.
Proof.
  intros. unfold upd. rewrite in_map_iff. split; intros [d [H1 H2]]; exists d; split; auto.
Qed.

Lemma upd_sids : forall f sid g, (forall d, d_sid (g d) = d_sid d) ->
  map d_sid (upd f sid g) = map d_sid f.
Proof.
  intros f sid g Hg. unfold upd. rewrite map_map. apply map_ext.
  intros d. destruct (d_sid d =? sid); auto.
Qed.

Lemma is_upd_sid : forall o, is_upd o = true -> exists s, op_sid o = Some s.
Proof. intros [] H; simpl in *; try discriminate; eauto. Qed.

Lemma apply_in_inv : forall f o d', (forall s, o <> FMkdir s) -> In d' (fs_apply f o) ->
  exists d, In d f /\ ((d' = d /\ op_sid o <> Some (d_sid d)) \/
                       (op_sid o = Some (d_sid d) /\ is_upd o = true /\ d' = dstep o d)).
Proof.
  intros f o d' Hm Hin. destruct (is_upd o) eqn:Hu.
  - destruct (is_upd_sid o Hu) as [s Hs]. rewrite (apply_upd f o s Hu Hs) in Hin.
    apply upd_in in Hin. destruct Hin as [d [Hd E]]. exists d. split; [exact Hd|].
    destruct (N.eqb_spec (d_sid d) s) as [Es|Es].
    + right. subst s. auto.
    + left. split; [exact E|]. rewrite Hs. congruence.
  - destruct o; simpl in Hu; try discriminate.
    + exfalso. eapply Hm; reflexivity.
    + exists d'. simpl in *. split; [exact Hin|]. left. split; [reflexivity|discriminate].
    + simpl in Hin. apply filter_In in Hin. destruct Hin as [Hin Hne]. exists d'. split; [exact Hin|].
      left. split; [reflexivity|]. simpl. intro E. inversion E; subst.
      rewrite N.eqb_refl in Hne. discriminate.
Qed.

Lemma apply_in_other : forall f o d, In d f -> op_sid o <> Some (d_sid d) -> In d (fs_apply f o).
Proof.
  intros f o d Hin Hne. destruct (is_upd o) eqn:Hu.
  - destruct (is_upd_sid o Hu) as [s Hs]. rewrite (apply_upd f o s Hu Hs).
    apply upd_in. exists d. split; [exact Hin|].
    destruct (N.eqb_spec (d_sid d) s) as [Es|Es]; [|reflexivity].
    exfalso. apply Hne. rewrite Hs, Es. reflexivity.
  - destruct o; simpl in Hu; try discriminate; simpl.
    + apply in_or_app. left; exact Hin.
    + exact Hin.
    + apply filter_In. split; [exact Hin|]. simpl in Hne.
      destruct (N.eqb_spec (d_sid d) sid) as [Es|Es]; [|reflexivity].
      exfalso. apply Hne. rewrite Es. reflexivity.
Qed.

Lemma apply_in_same : forall f o d, In d f -> op_sid o = Some (d_sid d) -> is_upd o = true ->
  In (dstep o d) (fs_apply f o).
Proof.
  intros f o d Hin Hs Hu. rewrite (apply_upd f o _ Hu Hs). apply upd_in.
  exists d. split; [exact Hin|]. rewrite N.eqb_refl. reflexivity.
Qed.

Lemma nodup_map_filter : forall (A B : Type) (g : A -> B) p (l : list A),
  NoDup (map g l) -> NoDup (map g (filter p l)).
Proof.
  induction l as [|a l IH]; simpl; intros H; [constructor|].
  inversion H as [|? ? Hn Hnd]; subst. destruct (p a); simpl; [|auto].
  constructor; [|auto]. intro Hi. apply Hn.
  apply in_map_iff in Hi. destruct Hi as [x [E Hx]]. apply filter_In in Hx.
  apply in_map_iff. exists x. tauto.
Qed.

Lemma apply_nodup : forall f o, (forall s, o <> FMkdir s) ->
  NoDup (map d_sid f) -> NoDup (map d_sid (fs_apply f o)).
Proof.
  intros f o Hm H. destruct (is_upd o) eqn:Hu.
  - destruct (is_upd_sid o Hu) as [s Hs]. rewrite (apply_upd f o s Hu Hs).
    rewrite upd_sids; [exact H|]. apply dstep_sid.
  - destruct o; simpl in Hu; try discriminate; simpl.
    + exfalso. eapply Hm; reflexivity.
    + exact H.
    + apply nodup_map_filter. exact H.
Qed.

Lemma cand_iff : forall f s m, In (s, m) (candidates f) <->
  exists d, In d f /\ d_sid d = s /\ eligible d = Some m.
Proof.
  intros. unfold candidates. rewrite in_flat_map. split.
  - intros [d [Hd Hin]]. exists d. destruct (eligible d) as [m'|]; simpl in Hin; [|contradiction].
    destruct Hin as [E|[]]. inversion E; subst. auto.
  - intros [d [Hd [Hs He]]]. exists d. split; [exact Hd|]. rewrite He, Hs. left; reflexivity.
Qed.

Lemma cand_app : forall f g, candidates (f ++ g) = candidates f ++ candidates g.
Proof. intros. unfold candidates. apply flat_map_app. Qed.

Lemma cand_sid_in : forall f s, In s (map fst (candidates f)) -> In s (map d_sid f).
Proof.
  intros f s H. apply in_map_iff in H. destruct H as [[s' m] [E H]]. simpl in E; subst s'.
  apply cand_iff in H. destruct H as [d [Hd [Hs _]]]. apply in_map_iff. exists d; auto.
Qed.

Lemma cand_nodup : forall f, NoDup (map d_sid f) -> NoDup (map fst (candidates f)).
Proof.
  induction f as [|d f IH]; simpl; intros H; [constructor|].
  inversion H as [|? ? Hn Hnd]; subst. rewrite map_app.
  destruct (eligible d) as [m|]; simpl; [|auto].
  constructor; [|auto]. intro Hi. apply Hn. apply cand_sid_in. exact Hi.
Qed.

Lemma eligible_nontmp : forall d m, eligible d = Some m -> d_tmp d = false.
Proof. intros d m H. unfold eligible in H. destruct (d_tmp d); [discriminate|reflexivity]. Qed.

Lemma cand_incl : forall f f', (forall d, In d f -> d_tmp d = false -> In d f') ->
  incl (candidates f) (candidates f').
Proof.
  intros f f' H [s m] Hc. apply cand_iff in Hc. destruct Hc as [d [Hd [Hs He]]].
  apply cand_iff. exists d. split; [|auto]. apply H; [exact Hd|]. eapply eligible_nontmp; eauto.
Qed.

Definition is_rm (o : fsop) : bool :=
  match o with FUnlinkMeta _ | FUnlinkState _ | FRmdir _ => true | _ => false end.

Lemma eligible_rm : forall o d m, is_rm o = true -> eligible (dstep o d) = Some m -> eligible d = Some m.
Proof.
  intros o d m Hr H. destruct o; simpl in Hr; try discriminate; unfold eligible in *; simpl in *.
  - destruct (d_tmp d); discriminate.
  - exact H.
  - exact H.
Qed.

Lemma dirty_app : forall a b sid st acc,
  dirty_after (a ++ b) sid st acc = dirty_after b sid st (dirty_after a sid st acc).
Proof. induction a as [|o a IH]; simpl; intros; [reflexivity|]. apply IH. Qed.

Lemma dirty_other : forall o sid st acc, op_sid o <> Some sid -> dirty_after [o] sid st acc = acc.
Proof.
  intros o sid st acc H. destruct o; simpl in *; try reflexivity;
    (destruct (N.eqb_spec sid0 sid) as [E|E]; [exfalso; apply H; rewrite E; reflexivity|reflexivity]).
Qed.

Lemma dirty_rm : forall o sid st acc, is_rm o = true -> dirty_after [o] sid st acc = acc.
Proof. intros o sid st acc H. destruct o; try discriminate H; reflexivity. Qed.

Lemma last_sync_aux_ge : forall l pos best, (best <= pos)%nat -> (best <= last_sync_aux l pos best)%nat.
Proof.
  induction l as [|o l IH]; simpl; intros pos best H; [lia|].
  destruct (is_sync o).
  - specialize (IH (S pos) (S pos)). lia.
  - specialize (IH (S pos) best). lia.
Qed.

Lemma last_sync_aux_app : forall a b pos best,
  last_sync_aux (a ++ b) pos best = last_sync_aux b (pos + length a)%nat (last_sync_aux a pos best).
Proof.
  induction a as [|o a IH]; simpl; intros b pos best.
  - rewrite Nat.add_0_r. reflexivity.
  - rewrite IH. f_equal. lia.
Qed.

Lemma last_sync_ge : forall a o b, is_sync o = true -> (S (length a) <= last_sync (a ++ o :: b))%nat.
Proof.
  intros a o b Hs. unfold last_sync. rewrite last_sync_aux_app. simpl. rewrite Hs.
  apply last_sync_aux_ge. lia.
Qed.

Definition junkify (opsk : list fsop) jm js (d : dir) : dir :=
  mkDir (d_sid d) (d_tmp d)
        (match d_meta d with
         | Some x => Some (if dirty_after opsk (d_sid d) false false
                           then mkMF (jm (d_sid d) (mf_c x) (mf_synced x)) (mf_synced x) true else x)
         | None => None end)
        (match d_state d with
         | Some y => Some (if dirty_after opsk (d_sid d) true false
                           then mkSF (js (d_sid d) (sf_c y) (sf_synced y)) (sf_synced y) true else y)
         | None => None end).

Lemma crash_tree_eq : forall ops k j jm js,
  crash_tree ops k j jm js = map (junkify (firstn k ops) jm js) (fs_run [] (firstn j ops)).
Proof. reflexivity. Qed.

Lemma junkify_clean : forall opsk jm js d,
  dirty_after opsk (d_sid d) false false = false -> dirty_after opsk (d_sid d) true false = false ->
  junkify opsk jm js d = d.
Proof.
  intros opsk jm js d H1 H2. unfold junkify. rewrite H1, H2.
  destruct d as [s t [x|] [y|]]; reflexivity.
Qed.

(* candidates and find_final do not look at temporary directories *)
Lemma junk_blind : forall opsk jm js f,
  (forall d, In d f -> d_tmp d = false -> forall b, dirty_after opsk (d_sid d) b false = false) ->
  candidates (map (junkify opsk jm js) f) = candidates f /\
  forall sid, find_final (map (junkify opsk jm js) f) sid = find_final f sid.
Proof.
  intros opsk jm js. induction f as [|d f IH]; intros Hclean; [split; reflexivity|].
  destruct IH as [IHc IHf]; [intros; apply Hclean; [right|]; assumption|].
  cbn [map candidates flat_map find_final]. fold (candidates (map (junkify opsk jm js) f)). rewrite IHc.
  destruct (d_tmp d) eqn:Et.
  - split; [unfold eligible; cbn [junkify d_tmp]; rewrite Et; reflexivity|].
    intros sid. cbn [junkify d_tmp]. rewrite Et, !andb_false_r. apply IHf.
  - rewrite junkify_clean by (apply Hclean; auto; left; reflexivity).
    split; [reflexivity|]. intros sid. rewrite IHf, Et. reflexivity.
Qed.
