(* C16: pipeline pairing and ordering; framing over an abstract prefix codec. *)
From Coq Require Import List NArith Bool Lia.
From RaftModel Require Import Base Pipeline.
Open Scope N_scope.

(* invariant: every recorded success carries the tag of its own request *)
Definition own_tags (l : list (N * option N)) : Prop :=
  forall k t, In (k, Some t) l -> t = k.

Lemma own_tags_app a b : own_tags a -> own_tags b -> own_tags (a ++ b).
Proof. intros Ha Hb k t H. apply in_app_iff in H. destruct H; [apply Ha|apply Hb]; assumption. Qed.

Lemma own_tags_errors ks : own_tags (map (fun k => (k, None)) ks).
Proof. intros k t H. apply in_map_iff in H. destruct H as (x & Hx & _). discriminate. Qed.

Lemma pipe_step_own s o : own_tags (ps_results s) -> own_tags (ps_results (pipe_step s o)).
Proof.
  intros H. destruct o as [k| | |]; simpl.
  - destruct (ps_killed s); simpl; [|exact H]. apply own_tags_app; [exact H|].
    intros k' t [E|[]]. discriminate.
  - destruct (ps_pending s) as [|h r]; [exact H|]. destruct (ps_killed s); [exact H|]. simpl.
    apply own_tags_app; [exact H|]. intros k t [E|[]]. inversion E; reflexivity.
  - apply own_tags_app; [exact H|apply own_tags_errors].
  - destruct (ps_pending s) as [|h r]; [exact H|]. destruct (ps_killed s); [exact H|]. simpl.
    apply own_tags_app; [exact H|]. intros k t [E|[]]. discriminate.
Qed.

(* Whatever the script: a future that resolves with a response resolves with the response to
   ITS OWN request - never another request's. *)
Theorem pipeline_pairing ops : own_tags (pipe_run ops).
Proof.
  unfold pipe_run, pipe_close.
  assert (G : forall s, own_tags (ps_results s) -> own_tags (ps_results (fold_left pipe_step ops s))).
  { induction ops as [|o r IH]; intros s H; simpl; [exact H|]. apply IH, pipe_step_own, H. }
  apply own_tags_app; [apply G; intros k t []|apply own_tags_errors].
Qed.

(* successes are delivered in send order: the successful tags, in resolution order, are a
   subsequence of the pending queue order, i.e. FIFO *)
Definition successes (l : list (N * option N)) : list N :=
  flat_map (fun x => match snd x with Some t => [t] | None => [] end) l.

Lemma successes_app a b : successes (a ++ b) = successes a ++ successes b.
Proof. unfold successes. apply flat_map_app. Qed.

Lemma successes_errors ks : successes (map (fun k => (k, None)) ks) = [].
Proof. induction ks; simpl; auto. Qed.

(* state invariant: results' successes followed by the pending queue is a subsequence of the
   send order *)
Fixpoint subseq (a b : list N) : Prop :=
  match a, b with
  | [], _ => True
  | _ :: _, [] => False
  | x :: a', y :: b' => (x = y /\ subseq a' b') \/ subseq a b'
  end.

Lemma subseq_refl a : subseq a a.
Proof. induction a; simpl; auto. Qed.

Lemma subseq_nil a : subseq [] a.
Proof. destruct a; exact I. Qed.

Lemma subseq_cons_r a y b : subseq a b -> subseq a (y :: b).
Proof. destruct a; simpl; auto. Qed.

Lemma subseq_trans : forall c a b, subseq a b -> subseq b c -> subseq a c.
Proof.
  induction c as [|z c IH]; intros a b Hab Hbc.
  - destruct b; [destruct a; [exact I|contradiction]|contradiction].
  - destruct a as [|x a]; [exact I|]. destruct b as [|y b]; [contradiction|]. simpl in *.
    destruct Hbc as [[<- Hbc]|Hbc].
    + destruct Hab as [[<- Hab]|Hab]; [left; split; [reflexivity|eapply IH; eauto]|right; eapply IH; eauto].
    + right. apply (IH (x :: a) (y :: b)); simpl; auto.
Qed.

Lemma subseq_app : forall b a c d, subseq a b -> subseq c d -> subseq (a ++ c) (b ++ d).
Proof.
  induction b as [|y b IH]; intros a c d H1 H2.
  - destruct a; [exact H2|contradiction].
  - destruct a as [|x a]; simpl in *.
    + apply subseq_cons_r. apply (IH [] c d (subseq_nil b) H2).
    + destruct H1 as [[E H1]|H1]; [left; split; [exact E|apply IH; assumption]|right; apply (IH (x :: a)); assumption].
Qed.

Lemma subseq_app_r a b c : subseq a b -> subseq a (b ++ c).
Proof. intros H. rewrite <- (app_nil_r a). apply subseq_app; [exact H|apply subseq_nil]. Qed.

Lemma subseq_prefix a b c : subseq (a ++ b) c -> subseq a c.
Proof. apply subseq_trans. rewrite <- (app_nil_r a) at 1. apply subseq_app; [apply subseq_refl|apply subseq_nil]. Qed.

Theorem pipeline_fifo ops : subseq (successes (pipe_run ops)) (sends_of ops).
Proof.
  unfold pipe_run, pipe_close. rewrite successes_app, successes_errors, app_nil_r.
  assert (G : forall ops s sent,
    subseq (successes (ps_results s) ++ ps_pending s) sent ->
    subseq (successes (ps_results (fold_left pipe_step ops s)) ++ ps_pending (fold_left pipe_step ops s)) (sent ++ sends_of ops)).
  { clear ops. induction ops as [|o r IH]; intros s sent H; simpl.
    - rewrite app_nil_r. exact H.
    - destruct o as [k| | |]; simpl.
      + replace (sent ++ k :: sends_of r) with ((sent ++ [k]) ++ sends_of r) by (rewrite <- app_assoc; reflexivity).
        apply IH. destruct (ps_killed s); simpl.
        * rewrite successes_app. simpl. rewrite app_nil_r. apply subseq_app_r. exact H.
        * rewrite app_assoc. apply subseq_app; [exact H|apply subseq_refl].
      + apply IH. destruct (ps_pending s) as [|h t] eqn:E; [rewrite E; exact H|].
        destruct (ps_killed s); [rewrite E; exact H|]. simpl.
        rewrite successes_app. simpl. rewrite <- app_assoc. simpl. exact H.
      + apply IH. simpl. rewrite successes_app, successes_errors, !app_nil_r.
        eapply subseq_prefix. exact H.
      + apply IH. destruct (ps_pending s) as [|h t] eqn:E; [rewrite E; exact H|].
        destruct (ps_killed s); [rewrite E; exact H|]. simpl.
        rewrite successes_app. simpl. rewrite app_nil_r. eapply subseq_trans; [|exact H].
        apply subseq_app; [apply subseq_refl|apply subseq_cons_r, subseq_refl]. }
  specialize (G ops (mkPS [] false []) [] I). simpl in G.
  eapply subseq_prefix. exact G.
Qed.

Theorem pipeline_no_success_after_kill ops1 ops2 :
  successes (pipe_run (ops1 ++ PKill :: ops2)) = successes (pipe_run (ops1 ++ [PKill])).
Proof.
  unfold pipe_run, pipe_close. rewrite !fold_left_app. simpl.
  set (s := fold_left pipe_step ops1 (mkPS [] false [])).
  assert (G : forall ops s0, ps_killed s0 = true -> ps_pending s0 = [] ->
     successes (ps_results (fold_left pipe_step ops s0)) = successes (ps_results s0) /\
     ps_pending (fold_left pipe_step ops s0) = []).
  { induction ops as [|o r IH]; intros s0 Hk Hp; simpl; [auto|].
    destruct o as [k| | |]; simpl.
    - rewrite Hk. destruct (IH (mkPS (ps_pending s0) true (ps_results s0 ++ [(k, None)])) eq_refl Hp) as [A B].
      rewrite A, B. simpl. rewrite successes_app. simpl. rewrite app_nil_r. auto.
    - rewrite Hp. apply IH; assumption.
    - rewrite Hp. simpl. destruct (IH (mkPS [] true (ps_results s0 ++ [])) eq_refl eq_refl) as [A B].
      rewrite A, B. simpl. rewrite app_nil_r. auto.
    - rewrite Hp. apply IH; assumption. }
  destruct (G ops2 (mkPS [] true (ps_results s ++ map (fun k => (k, None)) (ps_pending s))) eq_refl eq_refl) as [A B].
  rewrite !successes_app. rewrite A, B. simpl. rewrite !successes_app, !successes_errors. reflexivity.
Qed.

Section FramingProofs.
  Variable msg : Type.
  Variable enc : msg -> list N.
  Variable dec : list N -> option (msg * list N).
  (* the codec law: a decoder reads exactly one encoded message off the front of any stream *)
  Hypothesis prefix_roundtrip : forall m rest, dec (enc m ++ rest) = Some (m, rest).
  Hypothesis enc_nonempty : forall m, enc m <> [].

  (* messages written back to back on one connection are read back in the same order, each one
     whole: the k-th response decoded is the k-th response written *)
  Theorem stream_roundtrip : forall ms, decode_stream msg dec (length ms) (flat_map enc ms) = ms.
  Proof.
    induction ms as [|m r IH]; simpl; [reflexivity|].
    destruct (enc m ++ flat_map enc r) eqn:E.
    - exfalso. apply (enc_nonempty m). destruct (enc m); [reflexivity|discriminate].
    - rewrite <- E. rewrite prefix_roundtrip. rewrite IH. reflexivity.
  Qed.
End FramingProofs.
