(* ClusterCommitSnapCex.v — why the statements about runs WITH snapshots (Proofs/ClusterCommitSnapSpec.v)
   differ from those of Model/ClusterCommit.v, as compiled runs from initial states that satisfy the
   hypotheses of state_machine_safety_snapshots:

   (1) restart from a snapshot: NewRaft sets lastApplied to the snapshot index and commitIndex to 0, so
       "lastApplied <= commitIndex" (applied_within_commit) fails; lastApplied <= max(commitIndex,
       snapshot index) holds.
   (2) compaction (TrailingLogs = 0): the leader took a snapshot at a committed index and removed its
       log up to it; a follower still holds the committed entries, so leader_complete (the leader HOLDS
       every committed entry) fails; leader_complete_snap (... or the index is covered by the leader's
       snapshot) holds.
   Also: every initial state of the driver ClusterCommit.run_clustercommit satisfies cinit_snap_ok
   (non-vacuity of the theorems of Proofs/ClusterCommitSnapMain.v and ClusterCommitSnapAcks.v). *)
From Coq Require Import List NArith Bool Lia.
From stdpp Require Import gmap.
From RaftModel Require Import Base Node NodeCodec Cluster ClusterLog ClusterCommit.
From RaftProofs Require Import ClusterLogExample ClusterCommitSpec ClusterCommitInit ClusterCommitCex ClusterCommitSnapSpec
  ClusterCommitSnapBoot ClusterCommitSnapMain ClusterCommitSnapAcks.
Open Scope N_scope.

Lemma mk_node_fsm0 cfg i x s : gn_run (mk_node cfg i x) = Up s -> fst (v_fsmLast s) = 0.
Proof.
  unfold mk_node. cbn [gn_run]. set (P := mkP i false false false 100 4 (fun _ => cfg)).
  unfold boot. destruct (recover P (mk_image cfg x)) as [s0 tr| | |] eqn:ER; cbn [fst]; try discriminate.
  intros H; inversion H; subst s0. destruct (recover_snap P _ s tr eq_refl ER) as (_ & Hf & _). rewrite Hf. reflexivity.
Qed.

Theorem mk_nodes_cinit_snap n extras :
  cinit_snap_ok (mk_cfg n)
    (mkCG (mkLG (mkG (map (fun p => mk_node (mk_cfg n) (N.of_nat (fst p)) (snd p)) (combine (seq 1 n) extras)) [] [] []) []) [] [] []).
Proof.
  split; [apply mk_nodes_cinit|]. unfold cnodes. cbn [cg_l lg_g g_nodes]. intros nd s Hin Hr.
  apply in_map_iff in Hin. destruct Hin as (p & <- & _). apply (mk_node_fsm0 _ _ _ s Hr).
Qed.

Corollary state_machine_safety_snapshots_driver : forall n extras ls g,
  Forall label_ok ls ->
  crun true [mk_cfg n]
    (mkCG (mkLG (mkG (map (fun p => mk_node (mk_cfg n) (N.of_nat (fst p)) (snd p)) (combine (seq 1 n) extras)) [] [] []) []) [] [] []) ls = Some g ->
  committed_agree g /\ leader_complete_snap g /\ applied_within_snap g /\ snapshots_committed g.
Proof. intros n extras ls g. apply state_machine_safety_snapshots. apply mk_nodes_cinit_snap. Qed.

Definition applied_violation (g : cgstate) (ia : N) : bool :=
  match up_state g ia with Some sa => v_commit sa <? v_applied sa | None => false end.

Lemma applied_violation_sound g ia : applied_violation g ia = true -> ~ applied_within_commit g.
Proof.
  unfold applied_violation. intros H AW. destruct (up_state g ia) as [sa|] eqn:Ua; [|discriminate].
  apply N.ltb_lt in H. destruct (up_state_in g ia sa Ua) as (a & Ia & _ & Ra). destruct (AW a sa Ia Ra) as [Hc _]. lia.
Qed.

Definition snap_restart_labels : list clabel :=
  [ CBase (LElect (GTimeout 1)); CBase (LElect (GVoteReq 1 2 0 [])); CBase (LElect (GVoteResp 1 2));
    CBase (LSend 1 2 2 2); CBase (LDeliver 0 0 []); CAck 0; CCommit 1;
    CBase (LElect (GInput 1 NSnapshot 0 [])); CBase (LElect (GInput 1 NRestart 0 [])) ].

Theorem restart_from_snapshot_refutes_applied_within_commit : exists cfg g0 ls g,
  cinit_snap_ok cfg g0 /\ Forall label_ok ls /\ crun true [cfg] g0 ls = Some g /\
  ~ applied_within_commit g /\ applied_within_snap g.
Proof.
  destruct (opt_witness (crun true [mk_cfg 3] cex_g0 snap_restart_labels) (fun g => applied_violation g 1)) as (g & Hrun & Hv); [vm_compute; reflexivity|].
  assert (H0 : cinit_snap_ok (mk_cfg 3) cex_g0) by (apply (mk_nodes_cinit_snap 3 [0; 0; 0])).
  assert (Hl : Forall label_ok snap_restart_labels) by (repeat constructor; simpl; try discriminate; exact I).
  exists (mk_cfg 3), cex_g0, snap_restart_labels, g. split; [exact H0|]. split; [exact Hl|]. split; [exact Hrun|].
  split; [eapply applied_violation_sound; exact Hv|].
  apply (state_machine_safety_snapshots (mk_cfg 3) cex_g0 snap_restart_labels g H0 Hl Hrun).
Qed.

(* the same servers with another TrailingLogs: the initial conditions do not read it *)
Definition retrail (t : N) (n : gnode) : gnode :=
  mkGN (mkP (p_self (gn_P n)) (p_monotonic (gn_P n)) (p_track (gn_P n)) (p_rc (gn_P n)) t (p_maxappend (gn_P n)) (p_decode (gn_P n)))
       (gn_run n) (gn_sess n) (gn_next n).

Definition retrail_g (t : N) (g : cgstate) : cgstate :=
  mkCG (mkLG (mkG (map (retrail t) (cnodes g)) (g_resps (lg_g (cg_l g))) (g_leaders (lg_g (cg_l g))) (g_grants (lg_g (cg_l g)))) (lg_msgs (cg_l g)))
       (cg_lead g) (cg_hb g) (cg_ans g).

Lemma retrail_cinit t cfg g : cinit_snap_ok cfg g -> cinit_snap_ok cfg (retrail_g t g).
Proof.
  intros [(Hlin & Hlead & Hhb & Hans & HV & Hcn) Hf].
  assert (Hin' : forall n', In n' (cnodes (retrail_g t g)) -> exists n, In n (cnodes g) /\ n' = retrail t n).
  { intros n' H. unfold retrail_g, cnodes in H. cbn [cg_l lg_g g_nodes] in H. apply in_map_iff in H. destruct H as (n & <- & Hn). exists n. auto. }
  split; [|intros n' s H Hr; destruct (Hin' n' H) as (n & Hn & ->); apply (Hf n s Hn Hr)].
  split; [|split; [exact Hlead|split; [exact Hhb|split; [exact Hans|split; [exact HV|]]]]].
  - destruct Hlin as ((Hnd & Hn0 & Hr0 & Hl0 & Hg0) & Hm0 & base & Hh & Hni).
    split; [|split; [exact Hm0|exists base; split; [exact Hh|]]].
    + split; [|split; [|split; [exact Hr0|split; [exact Hl0|exact Hg0]]]].
      * unfold retrail_g. cbn [cg_l lg_g g_nodes]. rewrite map_map. unfold cnodes.
        rewrite (map_ext (fun x => gn_id (retrail t x)) gn_id); [exact Hnd|reflexivity].
      * intros n' H. destruct (Hin' n' H) as (n & Hn & ->). apply (Hn0 n Hn).
    + intros n' H. destruct (Hin' n' H) as (n & Hn & ->). apply (Hni n Hn).
  - intros n' H. destruct (Hin' n' H) as (n & Hn & ->). destruct (Hcn n Hn) as (C1 & C2 & C3 & C4).
    split; [exact C1|]. split; [exact C2|]. split; [|exact C4].
    intros i e He Hty n'' H''. destruct (Hin' n'' H'') as (n0 & Hn0 & ->). apply (C3 i e He Hty n0 Hn0).
Qed.

(* non-vacuity for every TrailingLogs: the driver's servers with TrailingLogs = t *)
Corollary state_machine_safety_snapshots_trailing : forall t n extras ls g,
  Forall label_ok ls ->
  crun true [mk_cfg n]
    (retrail_g t (mkCG (mkLG (mkG (map (fun p => mk_node (mk_cfg n) (N.of_nat (fst p)) (snd p)) (combine (seq 1 n) extras)) [] [] []) []) [] [] [])) ls = Some g ->
  committed_agree g /\ leader_complete_snap g /\ applied_within_snap g /\ snapshots_committed g.
Proof. intros t n extras ls g. apply state_machine_safety_snapshots. apply retrail_cinit, mk_nodes_cinit_snap. Qed.

Corollary acknowledged_entries_are_permanent_snapshots_trailing : forall t n extras ls g,
  Forall label_ok ls ->
  let g0 := retrail_g t (mkCG (mkLG (mkG (map (fun p => mk_node (mk_cfg n) (N.of_nat (fst p)) (snd p)) (combine (seq 1 n) extras)) [] [] []) []) [] [] []) in
  crun true [mk_cfg n] g0 ls = Some g -> acks_permanent_snap (run_acks true [mk_cfg n] g0 ls) g.
Proof. intros t n extras ls g Hl g0. apply acknowledged_entries_are_permanent_snapshots; [apply retrail_cinit, mk_nodes_cinit_snap|exact Hl]. Qed.

Definition compact_g0 : cgstate := retrail_g 0 cex_g0.

(* server 1 is elected, its no-op and one command are replicated to server 2 and committed, server 2
   learns the commit index 2; then server 1 takes a snapshot at index 3 and, with TrailingLogs = 0,
   removes its whole log *)
Definition compact_labels : list clabel :=
  [ CBase (LElect (GTimeout 1)); CBase (LElect (GVoteReq 1 2 0 [])); CBase (LElect (GVoteResp 1 2));
    CBase (LSend 1 2 2 2); CBase (LDeliver 0 0 []); CAck 0; CCommit 1;
    CBase (LSend 1 2 3 2); CBase (LDeliver 1 0 []); CAck 1;
    CBase (LPropose 1 LogCommand 7 []); CBase (LSend 1 2 3 3); CBase (LDeliver 2 0 []); CAck 2; CCommit 1;
    CBase (LElect (GInput 1 NSnapshot 0 [])) ].

Definition log_size (g : cgstate) (i : N) : nat := match up_state g i with Some s => length (keys_of (d_log s)) | None => 99 end.
Definition snap_idx (g : cgstate) (i : N) : N := match up_state g i with Some s => v_lastSnapIdx s | None => 0 end.

Theorem compaction_refutes_leader_complete : exists cfg g0 ls g,
  cinit_snap_ok cfg g0 /\ Forall label_ok ls /\ crun true [cfg] g0 ls = Some g /\
  ~ leader_complete g /\ leader_complete_snap g /\ log_size g 1 = 0%nat /\ snap_idx g 1 = 3.
Proof.
  destruct (opt_witness (crun true [mk_cfg 3] compact_g0 compact_labels)
              (fun g => complete_violation g 2 1 2 && Nat.eqb (log_size g 1) 0 && (snap_idx g 1 =? 3))) as (g & Hrun & Hv); [vm_compute; reflexivity|].
  assert (H0 : cinit_snap_ok (mk_cfg 3) compact_g0) by (apply retrail_cinit, (mk_nodes_cinit_snap 3 [0; 0; 0])).
  assert (Hl : Forall label_ok compact_labels) by (repeat constructor; simpl; try discriminate; exact I).
  apply andb_prop in Hv. destruct Hv as [Hv H3]. apply andb_prop in Hv. destruct Hv as [H1 H2].
  exists (mk_cfg 3), compact_g0, compact_labels, g. split; [exact H0|]. split; [exact Hl|]. split; [exact Hrun|].
  split; [eapply complete_violation_sound; exact H1|]. split; [apply (state_machine_safety_snapshots (mk_cfg 3) compact_g0 compact_labels g H0 Hl Hrun)|].
  split; [apply Nat.eqb_eq, H2|apply N.eqb_eq, H3].
Qed.

Print Assumptions restart_from_snapshot_refutes_applied_within_commit.
Print Assumptions compaction_refutes_leader_complete.
