(* ClusterLogSnapState.v — the node invariant (durable image / running server) of the Log Matching proof, for lstep
   with and without takeSnapshot.

   The log part is the shape of Proofs/ClusterCommitSnapLog.v (zup / zimgS: stored entries, cached last entry,
   snapshot boundary and stored snapshots on ONE branch of the ghost history, no hole between boundary and last
   entry), the same invariant under which the commit proof works: one invariant for the log, maintained by one walk
   through the handlers (Proofs/ClusterCommitSnapNode3.v, for any parameters), and beside it what each system adds.
   Log Matching itself needs less than the shape says (Proofs/ClusterLogSteps.v reads it off "created, under their
   own indices, on one branch"); the shape is what is inductive once logs are truncated, compacted and restarted
   from a snapshot, and it gives nlog (Proofs/ClusterLogNode.v) where there are no snapshots.

   What lstep adds (sxi / sxu, with takeSnapshot): no commit machinery is modelled there, so the commit indices are
   honest by assumption (at most c0) and everything that is applied or snapshotted is a key of the common history
   `base` up to c0, which lies on every branch (bkey_on_branch): that replaces Leader Completeness in the branch
   hypotheses of the handler lemmas.  Without takeSnapshot: there are no snapshots.  The ghost-history condition
   cb_ok says that the history contains base and nothing else up to c0. *)
From Coq Require Import List NArith Bool Lia.
From stdpp Require Import gmap.
From RaftModel Require Import Base Node NodeCodec.
From RaftProofs Require Import ClusterLogLeader AppendProofs ClusterLogSpec ClusterLogChain ClusterLogNode ClusterLogSnapSpec
  ClusterCommitChain ClusterCommitInv ClusterCommitSnapLog.
From RaftProofs Require Export ClusterLogCut NodeStep.
Open Scope N_scope.

Section History.
  Variable base : list entry.
  Variable c0 : N.
  Hypothesis Hh : hist_ok (0, 0) base.

  Record cb_ok (C : chain) : Prop := {
    cb_chain : chain_ok C;
    cb_closed : pclosed C;
    cb_incl : incl (base_chain (0, 0) base) C;
    cb_low : forall x p, In (x, p) C -> e_idx x <= c0 -> In (x, p) (base_chain (0, 0) base);
  }.

  Lemma base_elem_nth x p : In (x, p) (base_chain (0, 0) base) -> nth_error base (N.to_nat (e_idx x - 1)) = Some x.
  Proof.
    intros H. destruct (base_chain_nth _ _ x p H) as [k Hk].
    pose proof (hist_idx _ _ Hh k x Hk) as Hi. simpl in Hi.
    replace (N.to_nat (e_idx x - 1)) with k by lia. exact Hk.
  Qed.

  Lemma low_bkey C x p : cb_ok C -> In (x, p) C -> e_idx x <= c0 -> bkey base c0 (key x).
  Proof.
    intros HC Hin Hle. pose proof (cb_low C HC x p Hin Hle) as Hb.
    destruct (co_idx C (cb_chain C HC) x p Hin) as [Hi _].
    split; [unfold key; simpl; lia|]. exists x. split; [apply (base_elem_nth x p Hb)|reflexivity].
  Qed.

  Lemma created_low_bkey C k : cb_ok C -> created C k -> fst k <= c0 -> bkey base c0 k.
  Proof. intros HC (e & p & Hin & <-) Hle. apply (low_bkey C e p HC Hin). exact Hle. Qed.

  Lemma bkey_anc C a b : cb_ok C -> bkey base c0 a -> bkey base c0 b -> fst a <= fst b -> anc C a b.
  Proof.
    intros HC (Ha & ea & Na & <-) (Hb & eb & Nb & <-) Hle.
    apply (base_chain_anc C (0, 0) base (cb_incl C HC) _ eb Nb) with (k' := N.to_nat (fst (key ea) - 1)); [lia|exact Na].
  Qed.

  Lemma bkey_created C b : cb_ok C -> bkey base c0 b -> created C b.
  Proof.
    intros HC (Hb & eb & Nb & <-).
    destruct (base_chain_anc C (0, 0) base (cb_incl C HC) _ eb Nb) as (_ & (p & Hp) & _).
    exists eb, p. auto.
  Qed.

  Lemma bkey_term b : bkey base c0 b -> exists e, In e base /\ e_term e = snd b.
  Proof. intros (_ & e & Ne & <-). exists e. split; [eapply nth_error_In; eauto|reflexivity]. Qed.

  Lemma bkey_order a b : bkey base c0 a -> bkey base c0 b ->
    (snd a < snd b \/ (snd a = snd b /\ fst a <= fst b)) -> fst a <= fst b.
  Proof.
    intros Ka Kb Hlex. destruct (N.le_gt_cases (fst a) (fst b)) as [H|H]; [exact H|].
    destruct Hlex as [Hlt|[_ Hle]]; [|exact Hle]. exfalso.
    pose proof Ka as (Ha & ea & Na & Ea). pose proof Kb as (Hb & eb & Nb & Eb).
    assert (Hanc : anc (base_chain (0, 0) base) b a).
    { rewrite <- Ea, <- Eb.
      apply (base_chain_anc _ (0, 0) base (incl_refl _) _ ea Na) with (k' := N.to_nat (fst b - 1)); [lia|exact Nb]. }
    pose proof (anc_le _ _ _ (base_chain_ok base Hh) Hanc). lia.
  Qed.

  (* a key of the common history lies on every branch that reaches its index *)
  Lemma bkey_on_branch C b x : cb_ok C -> bkey base c0 b -> rootc C x -> fst b <= fst x -> anc C b x.
  Proof.
    intros HCB Hb Hx Hle. pose proof (cb_chain C HCB) as HC. pose proof Hb as ((H1 & H2) & eb & Nb & Eb).
    pose proof (anc_root_all C HC (cb_closed C HCB) x Hx) as Hroot.
    destruct (anc_at C (0, 0) x (fst b) HC Hroot) as (e & p & Hin & Hi & Ha); [simpl; lia|].
    pose proof (cb_low C HCB e p Hin ltac:(lia)) as Hbase.
    pose proof (base_elem_nth e p Hbase) as Ne. rewrite Hi, Nb in Ne. inversion Ne; subst e. rewrite Eb in Ha. exact Ha.
  Qed.

  (* a key that every key of every branch is comparable with: the root, and the keys of the common history *)
  Definition universal (C : chain) (b : N * N) : Prop :=
    forall x, rootc C x -> (fst b <= fst x -> anc C b x) /\ (fst x < fst b -> anc C x b).

  Lemma root_universal C : cb_ok C -> universal C (0, 0).
  Proof.
    intros HCB x Hx. split; [intros _; apply (anc_root_all C (cb_chain C HCB) (cb_closed C HCB) x Hx)|simpl; lia].
  Qed.

  Lemma bkey_universal C b : cb_ok C -> bkey base c0 b -> universal C b.
  Proof.
    intros HCB Hb x Hx. split; [apply (bkey_on_branch C b x HCB Hb Hx)|]. intros Hlt.
    destruct Hx as [->|Hc]; [apply (anc_root_all C (cb_chain C HCB) (cb_closed C HCB)); right; apply (bkey_created C b HCB Hb)|].
    apply (bkey_anc C x b HCB); [|exact Hb|lia]. apply (created_low_bkey C x HCB Hc). destruct Hb as ((_ & Hb) & _). lia.
  Qed.

  (* the branch hypothesis of the handler lemmas for the shape, at a universal boundary *)
  Lemma universal_cmp C b L k : cb_ok C -> universal C b -> rootc C L -> anc C k L ->
    (fst k <= fst b -> anc C k b) /\ (fst b <= fst k -> anc C b k).
  Proof.
    intros HCB U HL Hk. destruct (U k (anc_rootc C L k (cb_closed C HCB) HL Hk)) as [U1 U2]. split; [|exact U1].
    intros Hle. destruct (N.eq_dec (fst k) (fst b)) as [E|Hne]; [|apply U2; lia].
    rewrite (anc_idx_eq C b k (cb_chain C HCB) (U1 ltac:(lia)) (eq_sym E)). apply anc_refl.
  Qed.
  (* the history grows by an entry above c0, appended after a key that was created *)
  Lemma cb_ok_cons C e p : cb_ok C ->
    (forall x q, In (x, q) C -> key x <> key e) ->
    e_idx e = fst p + 1 -> snd p <= e_term e -> rootc C p -> c0 < e_idx e ->
    cb_ok ((e, p) :: C).
  Proof.
    intros [HC Hp Hi Hl] Hnew H1 H2 H3 H5. constructor.
    - apply chain_ok_cons; try assumption. intros E. apply (rootc_zero C p HC H3 E).
    - intros x q [E|Hx].
      + inversion E; subst x q. destruct H3 as [->|K]; [left; reflexivity|right; apply (created_mono C _ _ (incl_tl _ (incl_refl C)) K)].
      + destruct (Hp x q Hx) as [->|K]; [left; reflexivity|right; apply (created_mono C _ _ (incl_tl _ (incl_refl C)) K)].
    - intros x Hx. right. apply Hi, Hx.
    - intros x q [E|Hx] Hle; [inversion E; subst; lia|apply (Hl x q Hx Hle)].
  Qed.
End History.

Arguments cb_chain {base c0 C}.
Arguments cb_closed {base c0 C}.
Arguments cb_incl {base c0 C}.
Arguments cb_low {base c0 C}.

Section SnapState.
  Variable base : list entry.
  Variable c0 : N.

  Definition snaps_ok (l : list snapshot) : Prop :=
    forall sn, In sn l -> sn_ok sn = true /\ bkey base c0 (sn_idx sn, sn_term sn).

  (* the history up to c0 is still there: in the log store or under a snapshot *)
  Definition has_c0 (m : gmap N entry) (l : list snapshot) : Prop :=
    c0 = 0 \/ (exists e, m !! c0 = Some e) \/ (exists sn, In sn l /\ sn_idx sn = c0).

  (* the durable fields of a server when takeSnapshot is enabled *)
  Record simg (C : chain) (s : nstate) : Prop := {
    si_snaps : snaps_ok (d_snaps s);
    si_login : log_in C (d_log s) (d_term s);
    si_top : exists top, log_below C (d_log s) top;
    si_pcommit : d_pcommit s <= c0;
    si_staged : d_staged s <= c0;
    si_c0 : has_c0 (d_log s) (d_snaps s);
    si_tb : forall e, In e base -> e_term e <= d_term s;
  }.

  Lemma simg_sub C s s' : simg C s -> log_sub (d_log s') (d_log s) -> d_snaps s' = d_snaps s ->
    d_pcommit s' <= c0 -> d_staged s' <= c0 -> has_c0 (d_log s') (d_snaps s') -> d_term s <= d_term s' -> simg C s'.
  Proof.
    intros H Hs Hn Hp Hg Hc Ht. constructor; auto.
    - rewrite Hn. apply H.
    - eapply log_in_sub; [exact Hs|exact Ht|apply H].
    - destruct (si_top C s H) as [top Hb]. exists top. eapply log_below_sub; eauto.
    - intros e He. pose proof (si_tb C s H e He). lia.
  Qed.

  (* the snapshot covers what the compaction removes *)
  Lemma has_c0_compact m l sn lo hi : has_c0 m l -> hi <= sn_idx sn -> sn_idx sn <= c0 ->
    has_c0 (log_delete m lo hi) (l ++ [sn]).
  Proof.
    intros [E0|[(e & He)|(z & Hz & Ez)]] Hhi Hsn.
    - left. exact E0.
    - destruct ((lo <=? c0) && (c0 <=? hi)) eqn:Ed.
      + right. right. exists sn. split; [apply in_app_iff; right; left; reflexivity|].
        apply andb_prop in Ed. destruct Ed as [_ Ed]. apply N.leb_le in Ed. lia.
      + right. left. exists e. rewrite log_delete_lookup, Ed. exact He.
    - right. right. exists z. split; [apply in_app_iff; left; exact Hz|exact Ez].
  Qed.

  Lemma has_c0_snap m l sn : has_c0 m l -> has_c0 m (l ++ [sn]).
  Proof.
    intros [E0|[He|(z & Hz & Ez)]]; [left; exact E0|right; left; exact He|].
    right. right. exists z. split; [apply in_app_iff; left; exact Hz|exact Ez].
  Qed.

  Lemma has_c0_store m l news : has_c0 m l -> has_c0 (log_store m news) l.
  Proof.
    intros [E0|[(e & He)|Hs]]; [left; exact E0| |right; right; exact Hs].
    right. left. rewrite log_store_lookup. destruct (find_last c0 news) as [y|]; eauto.
  Qed.

  Lemma has_c0_delete_above m l c hi : has_c0 m l -> c0 < c -> has_c0 (log_delete m c hi) l.
  Proof.
    intros [E0|[(e & He)|Hs]] Hc; [left; exact E0| |right; right; exact Hs].
    right. left. exists e. rewrite log_delete_lookup. destruct (N.leb_spec c c0); [lia|]. exact He.
  Qed.
End SnapState.

Section NodeInv.
  Variable h : bool.
  Variable base : list entry.
  Variable c0 : N.

  (* with takeSnapshot, what survives a crash: the stored snapshots are of the committed prefix, the persisted commit
     indices are honest, the history up to c0 is still there (in the log or under a snapshot), the term is not
     below the common history's *)
  Record sxi (d : dimg) : Prop := {
    xi_snaps : snaps_ok base c0 (di_snaps d);
    xi_pcommit : di_pcommit d <= c0;
    xi_staged : di_staged d <= c0;
    xi_c0 : has_c0 c0 (di_log d) (di_snaps d);
    xi_tb : forall e, In e base -> e_term e <= di_term d;
  }.

  (* and of a running server: xu_u says the index getLastEntry answers reaches c0 (the cached last log index does,
     or the snapshot boundary is c0), the volatile form of xi_c0; xu_w1..3 order the boundary, the index the FSM
     reports and lastApplied, so that takeSnapshot finds the FSM at or above the boundary (or having applied
     nothing) *)
  Record sxu (s : nstate) : Prop := {
    xu_img : sxi (dpr s);
    xu_snapkey : v_lastSnapIdx s = 0 \/ bkey base c0 (v_lastSnapIdx s, v_lastSnapTerm s);
    xu_u : c0 <= v_lastLogIdx s \/ v_lastSnapIdx s = c0;
    xu_commit : v_commit s <= c0;
    xu_fsm : fsm_ok base c0 (v_fsmLast s);
    xu_w1 : v_lastSnapIdx s <= v_applied s;
    xu_w2 : fst (v_fsmLast s) <= v_applied s;
    xu_w3 : fst (v_fsmLast s) = 0 \/ v_lastSnapIdx s <= fst (v_fsmLast s);
  }.

  (* h is the flag of lstep: is takeSnapshot enabled? *)
  Definition xd (d : dimg) : Prop := (h = true -> sxi d) /\ (h = false -> di_snaps d = []).
  Definition xu (s : nstate) : Prop := (h = true -> sxu s) /\ (h = false -> d_snaps s = [] /\ v_lastSnapIdx s = 0).

  Definition good_d5 (C : chain) (d : dimg) : Prop := zimgS C (di_term d) (di_log d) (di_snaps d) /\ xd d.
  Definition sup (C : chain) (s : nstate) : Prop := zup C s /\ xu s.

  Definition snlog (C : chain) (r : nrun) : Prop :=
    match r with Up s => sup C s | Down s => good_d5 C (dpr s) end.

  Lemma xu_xd s : xu s -> xd (dpr s).
  Proof. intros [A B]. split; [intros Et; apply (xu_img s (A Et))|intros Ef; apply (B Ef)]. Qed.

  Lemma sup_img C s : chain_ok C -> sup C s -> good_d5 C (dpr s).
  Proof. intros HC [A B]. split; [apply (zup_img C s HC A)|apply xu_xd, B]. Qed.

  Lemma snlog_image C r : chain_ok C -> snlog C r -> good_d5 C (dpr (image r)).
  Proof. intros HC. destruct r as [s|s]; simpl; [apply sup_img, HC|auto]. Qed.

  Lemma snlog_mono C C' r : incl C C' -> snlog C r -> snlog C' r.
  Proof.
    intros Hi. destruct r as [s|s]; intros [A B]; (split; [|exact B]).
    - eapply zshape_mono; [exact Hi|apply N.le_refl|exact A].
    - eapply zimgS_mono; [exact Hi|apply N.le_refl|exact A].
  Qed.

  Lemma sxi_term d t : sxi d -> di_term d <= t -> sxi (with_term d t).
  Proof. intros [A B D E F] Ht. constructor; simpl; auto. intros e He. specialize (F e He). lia. Qed.

  Lemma good_d5_term C d t : good_d5 C d -> di_term d <= t -> good_d5 C (with_term d t).
  Proof.
    intros [A [B D]] Ht. split; [simpl; eapply zimgS_mono; [apply incl_refl|exact Ht|exact A]|].
    split; [intros Et; apply sxi_term; auto|exact D].
  Qed.

  (* neither part reads a field that the vote-type events move, but the term *)
  Lemma xu_keep s s' : xu s -> rest s' = rest s -> d_term s <= d_term s' -> xu s'.
  Proof.
    intros [A B] K Ht. destruct (rest_fields _ _ K) as ((K1 & K5 & _ & _ & K10 & K9) & (_ & K2 & _ & K6 & K7) & K8 & K11 & K4 & K3 & _). split.
    - intros Et. destruct (A Et) as [[X1 X2 X3 X4 X5] X6 X7 X8 X9 X10 X11 X12]. simpl in *.
      constructor; [constructor; simpl|..]; rewrite ?K1, ?K2, ?K3, ?K4, ?K5, ?K6, ?K7, ?K8, ?K9, ?K10, ?K11; auto.
      intros e He. specialize (X5 e He). lia.
    - intros Ef. rewrite K2, K7. apply (B Ef).
  Qed.
End NodeInv.
