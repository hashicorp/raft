(* FileSnapH.v — Close of an open sink: write-out, rename, reap. *)
From Coq Require Import List Arith NArith Bool Lia Permutation.
From RaftModel Require Import FileSnap FileSnapSpec.
From RaftProofs Require Import FileSnapA FileSnapB FileSnapC FileSnapD FileSnapE FileSnapF FileSnapG.
Import ListNotations.
Open Scope N_scope.

Definition close_meta (k : sink) : metaval := mkMV 1 (k_term k) (k_index k) (Some (k_buf k)).

Definition close_pre (k : sink) : list fsop :=
  flush_ops k ++ [FCreateMeta (k_sid k); FWriteMeta (k_sid k) (close_meta k); FSyncMeta (k_sid k)].

Definition close_ops1 (k : sink) : list fsop := close_pre k ++ [FRename (k_sid k); FSyncParent].

Lemma exec_close : forall sfirst st sid k, find_sink (st_sinks st) sid = Some k -> k_done k = false ->
  exec_op sfirst st (SClose sid) =
  (mkStore (st_retain st)
           (fs_run (st_fs st) (close_ops1 k ++ reap_ops sfirst (st_retain st) (fs_run (st_fs st) (close_ops1 k))))
           (upd_sink (st_sinks st) sid set_done),
   close_ops1 k ++ reap_ops sfirst (st_retain st) (fs_run (st_fs st) (close_ops1 k))).
Proof.
  intros sfirst st sid k Hf Hd. unfold exec_op. rewrite Hf, Hd.
  assert (Hks := find_sink_sid _ _ _ Hf).
  assert (E : flush_ops k ++ [FCreateMeta sid; FWriteMeta sid (mkMV 1 (k_term k) (k_index k) (Some (k_buf k)));
                              FSyncMeta sid; FRename sid; FSyncParent] = close_ops1 k).
  { unfold close_ops1, close_pre, close_meta. rewrite Hks, <- app_assoc. reflexivity. }
  rewrite E, fs_run_app. reflexivity.
Qed.

Lemma close_pre_tmp : forall k o, In o (close_pre k) -> tmp_op (k_sid k) o /\ is_upd o = true.
Proof.
  intros k o H. unfold close_pre in H. apply in_app_or in H. destruct H as [H|H].
  - apply flush_tmp. exact H.
  - simpl in H. repeat (destruct H as [H|H]; [subst o; repeat split; intros; discriminate|]). contradiction.
Qed.

Lemma close_pre_dirty : forall k b acc, dirty_after (close_pre k) (k_sid k) b acc = false.
Proof.
  intros k b acc. unfold close_pre, flush_ops. destruct (k_buf k), b; simpl; rewrite ?N.eqb_refl; simpl; reflexivity.
Qed.

Lemma close_pre_dir : forall k d0 y, d_tmp d0 = true -> d_state d0 = Some y -> sf_c y = [] ->
  let d1 := fold_left (fun d o => dstep o d) (close_pre k) d0 in
  d_sid d1 = d_sid d0 /\ d_tmp d1 = true /\
  (exists x, d_meta d1 = Some x /\ mf_c x = MFull (close_meta k)) /\
  (exists y', d_state d1 = Some y' /\ sf_c y' = k_buf k).
Proof.
  intros k [s0 t0 me sta] [c sy dy] Ht Hs Hc. simpl in *. subst.
  unfold close_pre, flush_ops. destruct (k_buf k) eqn:Eb; simpl; repeat split; eauto.
Qed.

Lemma reap_ops_in : forall b retain f1 o, In o (reap_ops b retain f1) ->
  is_rm o = true /\ exists x, In x (skipn (N.to_nat retain) (get_snapshots f1)) /\ op_sid o = Some (fst x).
Proof.
  intros b retain f1 o H. unfold reap_ops in H. apply in_flat_map in H. destruct H as [x [Hx Ho]].
  apply remove_all_ops in Ho. destruct Ho as [H1 H2]. split; [exact H1|]. exists x. auto.
Qed.

Lemma snaps_nodup : forall f1, NoDup (map d_sid f1) -> NoDup (map fst (get_snapshots f1)).
Proof. intros f1 H. unfold get_snapshots. apply sort_nodup_fst. apply cand_nodup. exact H. Qed.

Lemma snaps_sorted : forall f1, NoDup (map d_sid f1) -> sorted_desc (get_snapshots f1).
Proof. intros f1 H. unfold get_snapshots. apply sort_sorted. apply cand_nodup. exact H. Qed.

Lemma reap_del_notK : forall f1 n x, NoDup (map d_sid f1) -> In x (skipn n (get_snapshots f1)) ->
  ~ In (fst x) (map fst (firstn n (get_snapshots f1))).
Proof.
  intros f1 n x Hnd Hx Hin. assert (H := snaps_nodup f1 Hnd).
  rewrite <- (firstn_skipn n (get_snapshots f1)), map_app in H.
  apply NoDup_app_inv in H. apply (proj2 H _ Hin). apply in_map. exact Hx.
Qed.

Lemma reap_RK : forall f1 n, NoDup (map d_sid f1) -> (n <= length (get_snapshots f1))%nat ->
  RK n (firstn n (get_snapshots f1)) f1.
Proof.
  intros f1 n Hnd Hlt. assert (Hs := snaps_sorted f1 Hnd). split; [|split; [|split]].
  - apply sorted_nodup. apply sorted_firstn. exact Hs.
  - rewrite firstn_length. lia.
  - intros x Hx. apply in_firstn in Hx. unfold get_snapshots in Hx. apply (proj1 (sort_in _ _)) in Hx. exact Hx.
  - intros c Hc. assert (Hc' : In c (get_snapshots f1)) by (apply (proj2 (sort_in (candidates f1) c)); exact Hc).
    rewrite <- (firstn_skipn n (get_snapshots f1)) in Hc', Hs.
    apply in_app_or in Hc'. destruct Hc' as [Hc'|Hc']; [left; exact Hc'|right].
    intros y Hy. eapply sorted_app; eauto.
Qed.

(* what is outside the r newest is below every listed snapshot, and the list is full *)
Lemma Outr_top : forall r f x, NoDup (map d_sid f) -> Outr r f x ->
  length (firstn r (get_snapshots f)) = r /\ forall y, In y (firstn r (get_snapshots f)) -> key_lt x y = true.
Proof.
  intros r f x Hnd Ho. assert (Ho' := Ho). destruct Ho' as [G [HndG [HlenG [HincG _]]]].
  assert (Hle : (r <= length (get_snapshots f))%nat).
  { unfold get_snapshots. rewrite sort_length, <- HlenG. apply NoDup_incl_length; assumption. }
  split; [rewrite firstn_length; lia|]. apply (Outr_RK r _ f); [apply reap_RK; assumption|exact Ho].
Qed.

Lemma QP_reap : forall b retain s h1 f1, Q (N.to_nat retain) s h1 f1 ->
  QP (N.to_nat retain) s h1 f1 (reap_ops b retain f1).
Proof.
  intros b retain s h1 f1 HQ. set (n := N.to_nat retain).
  assert (Hnd := q_nodup _ _ _ _ HQ).
  destruct (le_lt_dec (length (get_snapshots f1)) n) as [Hle|Hlt].
  - unfold reap_ops. fold n. rewrite skipn_all2 by exact Hle. simpl. apply QP_nil. exact HQ.
  - apply (QP_rm n s (firstn n (get_snapshots f1))); [exact HQ|apply reap_RK; [exact Hnd|apply Nat.lt_le_incl, Hlt]|].
    intros o Ho. apply reap_ops_in in Ho. destruct Ho as [Hrm [x [Hx Hs]]].
    split; [exact Hrm|]. exists (fst x). split; [exact Hs|]. apply reap_del_notK; assumption.
Qed.

Section CloseOpen.
  Variables (sfirst : bool) (retain : N) (s : list sop) (st : store) (h : list fsop) (sid : N) (k : sink).
  Hypothesis HI : Inv retain s st h.
  Hypothesis Hfk : find_sink (st_sinks st) sid = Some k.
  Hypothesis Hnd : k_done k = false.
  Hypothesis Hin : In sid (created s).
  Let r := N.to_nat retain.
  Let s' := s ++ [SClose sid].
  Let f := st_fs st.

  Lemma close_QP_pre : QP r s' h f (close_pre k) /\ ~ In (FRename sid) (h ++ close_pre k).
  Proof.
    destruct (open_sink_facts _ _ _ _ _ _ HI Hfk Hnd) as [Hks [_ [_ [_ [Hnr _]]]]]. apply QP_tmp.
    - apply Q_mono, (i_q _ _ _ _ HI).
    - exact Hnr.
    - intros o Ho. rewrite <- Hks. apply close_pre_tmp. exact Ho.
  Qed.

  (* the directory just before the rename *)
  Lemma close_d1 : exists d1, In d1 (fs_run f (close_pre k)) /\ d_sid d1 = sid /\
    Complete s' (dstep (FRename sid) d1).
  Proof.
    destruct (open_sink_facts _ _ _ _ _ _ HI Hfk Hnd) as [Hks [Hca [He [Hb [_ [d0 [Hd0 [Hs0 [Ht0 [y [Hy Hc]]]]]]]]]]].
    destruct (close_pre_dir k d0 y Ht0 Hy Hc) as [H1 [H2 [[x [Hx Hm]] [y' [Hy' Hcy]]]]].
    eexists. split; [|split].
    - apply run_same; [exact Hd0|]. intros o Ho. destruct (close_pre_tmp k o Ho) as [[Hs _] Hu].
      split; [congruence|exact Hu].
    - congruence.
    - split; [reflexivity|]. rewrite dstep_sid, H1, Hs0. exists (k_term k), (k_index k). unfold s'.
      rewrite (created_as_app_some _ _ _ _ Hca), ended_app, written_app, He. simpl.
      rewrite N.eqb_refl, <- Hb. repeat split; eauto.
  Qed.
  Lemma close_Q_ren : Q r s' ((h ++ close_pre k) ++ [FRename sid]) (fs_apply (fs_run f (close_pre k)) (FRename sid)).
  Proof.
    assert (Hks := find_sink_sid _ _ _ Hfk). destruct close_QP_pre as [HQP Hnr].
    destruct close_d1 as [d1 [Hd1 [Hs1 HC]]].
    apply Q_keep_step; [apply QP_end; exact HQP| |discriminate|].
    - intros x E. inversion E; subst x. exact Hnr.
    - intros x E. inversion E; subst x. split; [|exists d1; auto].
      intros b. rewrite dirty_app. rewrite <- Hks. apply close_pre_dirty.
  Qed.

  Lemma close_QP1 : QP r s' h f (close_ops1 k).
  Proof.
    assert (Hks := find_sink_sid _ _ _ Hfk). destruct close_QP_pre as [HQP Hnr].
    unfold close_ops1. apply QP_app; [exact HQP|]. rewrite Hks.
    apply QP_cons; [apply QP_end; exact HQP|].
    apply QP_cons; [apply close_Q_ren|]. apply QP_nil.
    apply Q_keep_step; [apply close_Q_ren|discriminate..].
  Qed.

  Lemma close_ops1_sid : forall o, In o (close_ops1 k) -> (op_sid o = Some sid \/ op_sid o = None) /\
    (forall x, o <> FMkdir x) /\ (forall x, o = FRename x -> x = sid).
  Proof.
    assert (Hks := find_sink_sid _ _ _ Hfk). intros o Ho. unfold close_ops1 in Ho. apply in_app_or in Ho.
    destruct Ho as [Ho|Ho].
    - destruct (close_pre_tmp k o Ho) as [[Hs [Hr Hm]] _]. rewrite Hks in Hs.
      split; [left; exact Hs|split; [exact Hm|]]. intros x E. exfalso. eapply Hr; eauto.
    - simpl in Ho. destruct Ho as [Ho|[Ho|[]]]; subst o; simpl.
      + split; [left; congruence|split; [intros; discriminate|]]. intros x E. inversion E. congruence.
      + split; [right; reflexivity|split; intros; discriminate].
  Qed.

  Lemma close_back1 : forall d, In d (fs_run f (close_ops1 k)) ->
    In d f \/ (d_sid d = sid /\ (d_tmp d = false -> Complete s' d)).
  Proof.
    assert (Hks := find_sink_sid _ _ _ Hfk). destruct close_QP_pre as [HQP Hnr].
    destruct close_d1 as [d1 [Hd1 [Hs1 HC]]].
    intros d Hd. destruct (N.eq_dec (d_sid d) sid) as [E|E].
    - right. split; [exact E|]. intros Ht.
      unfold close_ops1 in Hd. rewrite fs_run_app, Hks in Hd. simpl in Hd.
      change (upd (fs_run f (close_pre k)) sid (fun d0 => mkDir (d_sid d0) false (d_meta d0) (d_state d0)))
        with (fs_apply (fs_run f (close_pre k)) (FRename sid)) in Hd.
      destruct (apply_in_inv _ (FRename sid) d ltac:(intros; discriminate) Hd) as [d' [Hin' [[E1 E2]|[Hs [Hu E1]]]]].
      + exfalso. apply E2. simpl. subst d'. congruence.
      + simpl in Hs. inversion Hs as [Hs'].
        assert (d' = d1).
        { apply (nodup_sid_eq (fs_run f (close_pre k))); auto; [|congruence].
          apply (q_nodup _ _ _ _ (QP_end _ _ _ _ _ HQP)). }
        subst d' d. exact HC.
    - left. apply (run_back (close_ops1 k)); [|exact Hd|].
      + intros o Ho. apply (close_ops1_sid o Ho).
      + intros o Ho Eo. destruct (close_ops1_sid o Ho) as [[H|H] _]; rewrite H in Eo; [|discriminate].
        inversion Eo. congruence.
  Qed.

  Let f1 := fs_run f (close_ops1 k).
  Let ops2 := reap_ops sfirst retain f1.

  Lemma close_Q1 : Q r s' (h ++ close_ops1 k) f1.
  Proof. apply QP_end. apply close_QP1. Qed.

  Lemma close_QP : QP r s' h f (close_ops1 k ++ ops2).
  Proof. apply QP_app; [apply close_QP1|]. apply QP_reap. apply close_Q1. Qed.

  Lemma reap_op_dir : forall o, In o ops2 ->
    is_rm o = true /\ exists d, In d f1 /\ op_sid o = Some (d_sid d) /\ d_tmp d = false /\ In (FRmdir (d_sid d)) ops2.
  Proof.
    intros o Ho. apply reap_ops_in in Ho. destruct Ho as [Hrm [[sx m] [Hx Hs]]]. split; [exact Hrm|].
    assert (Hc : In (sx, m) (candidates f1)).
    { apply sort_in. fold (get_snapshots f1). rewrite <- (firstn_skipn (N.to_nat retain)).
      apply in_or_app. right; exact Hx. }
    apply cand_iff in Hc. destruct Hc as [d [Hd [Hsd He]]]. exists d.
    split; [exact Hd|split; [simpl in Hs; congruence|split; [eapply eligible_nontmp; eauto|]]].
    destruct (find_dir_in f1 d Hd) as [d' Hf]. unfold ops2, reap_ops. apply in_flat_map.
    exists (sx, m). split; [exact Hx|]. simpl. rewrite Hsd in *. eapply remove_all_rmdir; eauto.
  Qed.

  Lemma reap_nomk : forall o, In o ops2 -> forall x, o <> FMkdir x.
  Proof. intros o Ho x E. destruct (reap_op_dir o Ho) as [Hrm _]. subst o. discriminate. Qed.

  Lemma reap_gone : forall d, In d (fs_run f1 ops2) -> forall o, In o ops2 -> op_sid o <> Some (d_sid d).
  Proof.
    intros d Hd o Ho E. destruct (reap_op_dir o Ho) as [_ [d' [Hd' [Hs [_ Hrd]]]]].
    rewrite E in Hs. inversion Hs as [Hs'].
    apply (rmdir_gone ops2 f1 (d_sid d') reap_nomk Hrd d Hd). exact Hs'.
  Qed.

  Lemma close_seg_rename : forall y, In (FRename y) (close_ops1 k ++ ops2) -> y = sid.
  Proof.
    intros y Hi. apply in_app_or in Hi. destruct Hi as [Hi|Hi].
    - apply (close_ops1_sid _ Hi). reflexivity.
    - destruct (reap_op_dir _ Hi) as [Hrm _]. discriminate.
  Qed.

  Lemma close_open_keep : forall x, x <> sid -> OpenDir f x -> OpenDir (fs_run f (close_ops1 k ++ ops2)) x.
  Proof.
    intros x Hx [d [Hd [Hs [Ht Hrest]]]]. exists d. split; [|auto].
    assert (Hd1 : In d f1).
    { apply run_keep; [exact Hd|]. intros o Ho E.
      destruct (close_ops1_sid o Ho) as [[H|H] _]; rewrite H in E; [|discriminate]. inversion E. congruence. }
    rewrite fs_run_app. apply run_keep; [exact Hd1|]. intros o Ho E.
    destruct (reap_op_dir o Ho) as [_ [d' [Hd' [Hs' [Ht' _]]]]]. rewrite E in Hs'. inversion Hs' as [Hs''].
    assert (d = d') by (apply (nodup_sid_eq f1); auto; apply (q_nodup _ _ _ _ close_Q1)).
    subst d'. congruence.
  Qed.

  Lemma Inv_close_open :
    Inv retain s' (mkStore (st_retain st) (fs_run f (close_ops1 k ++ ops2)) (upd_sink (st_sinks st) sid set_done))
        (h ++ close_ops1 k ++ ops2).
  Proof.
    destruct (i_sinks _ _ _ _ HI _ Hin) as [k' [Hfk' Hok]]. rewrite Hfk in Hfk'. inversion Hfk'; subst k'.
    apply (Inv_step retain s st h (SClose sid)); cbn [sop_sid]; auto.
    - apply close_QP.
    - intros d Hd. rewrite fs_run_app in Hd. apply close_back1.
      apply (run_back ops2); [apply reap_nomk|exact Hd|apply reap_gone; exact Hd].
    - apply close_open_keep.
    - apply close_seg_rename.
    - intros y Hne. apply find_sink_upd_other; [reflexivity|exact Hne].
    - exists (set_done k). split; [apply find_sink_upd_same; [reflexivity|exact Hfk]|].
      eapply SinkOK_end; simpl; eauto. symmetry. apply (find_sink_sid _ _ _ Hfk).
  Qed.

End CloseOpen.
