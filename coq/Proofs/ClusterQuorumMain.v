(* ClusterQuorumMain.v — the statements of Proofs/ClusterQuorumSpec.v over ALL RUNS of Model/ClusterCommit.v.

   PROVED AS STATED (side conditions: cinit_ok / cinit_snap_ok, label_ok, as for State Machine Safety):
     commit_backed_all_runs, commit_backed_all_runs_snapshots,
     own_term_rule_all_runs, own_term_rule_all_runs_snapshots.
     zinvg (Proofs/ClusterCommitSnapInv2.v) implies commit_backed_snap and own_term_rule_snap; where no server
     holds a snapshot, "stored or covered by a snapshot" is "stored", which gives the statements without snapshots.
   REFUTED: commit_monotone_step at every step of every run (commit_monotone_all_runs_is_false, from
     commit_monotone_all_runs_refuted, Proofs/ClusterQuorumMonoCex.v): the
     model also restarts a server, in ONE step, when the process dies inside an RPC handler (crash cut of
     LDeliver / GVoteReq / GInput, or a panic): NewRaft starts with commitIndex 0 and the label is not
     GInput w NRestart.
   PROVED INSTEAD: commit_monotone_crash_all_runs - the same statement with exactly one more exception,
     dies_in_handler g l w (Proofs/ClusterQuorumMonoSpec.v): the handler the step runs at w ends with
     observation OLost.  So: a step never lowers the commit index of a server that runs before and after
     it, except a step that restarts that very server - by label or by a crash inside its handler.
     commit_monotone_all_runs_no_crash: the statement as given, for steps in which no handler dies. *)
From Coq Require Import List NArith Bool Lia.
From stdpp Require Import gmap.
From RaftModel Require Import Base Config Commitment Node Cluster NodeCodec ClusterCommit.
From RaftProofs Require Import ConfigProofs ClusterLogSpec ClusterLogChain ClusterLogNode ClusterCommitSpec
  ClusterCommitLog ClusterCommitGhost ClusterCommitInv ClusterCommitSnapSpec ClusterCommitSnapLog
  ClusterCommitSnapLinv ClusterCommitSnapInv ClusterCommitSnapInv2 ClusterCommitSnapMain ClusterCommitUpd
  ClusterQuorumSpec ClusterQuorumMonoSpec ClusterQuorumMono ClusterQuorumMonoCex.
Open Scope N_scope.

Lemma stores_plain g w i e : no_snaps g -> stores_or_snap g w i e -> stores g w i e.
Proof.
  intros Hns (n & Hn & Hid & [H|(sn & Hsn & _)]); [exists n; auto|].
  unfold snaps_of in Hsn. rewrite (proj1 (Hns n Hn)) in Hsn. destruct Hsn.
Qed.

Theorem commit_backed_plain cfg g : no_snaps g -> commit_backed_snap cfg g -> commit_backed cfg g.
Proof.
  intros Hns H a sa Ha Ra i e Hi He. destruct (H a sa Ha Ra i e Hi He) as (W & HW & HS).
  exists W. split; [exact HW|]. intros w Hw. apply (stores_plain g w i e Hns (HS w Hw)).
Qed.

Theorem own_term_rule_plain cfg g : no_snaps g -> own_term_rule_snap cfg g -> own_term_rule cfg g.
Proof.
  intros Hns H l sl ld Hl Rl Hrole Hfl. destruct (H l sl ld Hl Rl Hrole Hfl) as [Hlt|(W & HW & HS)]; [left; exact Hlt|right].
  exists W. split; [exact HW|]. intros w Hw. destruct (HS w Hw) as (e & Et & He).
  exists e. split; [exact Et|apply (stores_plain g w _ e Hns He)].
Qed.

Section Backed.
  Variable cfg : config.
  Variable Ps : list params.
  Variable fsm : bool.
  Hypothesis HV : NoDup (voters cfg).

  Variable g : cgstate.
  Variable C : chain.
  Variable LL : LLt.
  Variable A : At.
  Variable V : Vt.
  Hypothesis HI : zinvg cfg Ps fsm g C LL A V.

  Let Hci := zg_ci HI.
  Let Hvi := zg_vi HI.

  (* a key on the branch of T at or below a majority-accepted index is held, or covered by a snapshot,
     at every member of that majority *)
  Lemma zQA_held q T k0 : QA cfg A q T -> tchain C LL T k0 -> fst k0 <= q -> 1 <= fst k0 ->
    exists W, majority (voters cfg) W /\
      forall w, In w W -> exists n, In n (cnodes g) /\ gn_id n = w /\ covers C (image (gn_run n)) k0.
  Proof.
    intros HQ Htc Hq Hpos. pose proof HQ as (W & HW & HA).
    exists W. split; [exact HW|]. intros w Hw. destruct (HA w Hw) as (v & Hv & Hacc).
    destruct (zg_a1 HI w (v, T) Hacc) as (n & Hn & Hid & _).
    exists n. split; [exact Hn|]. split; [exact Hid|].
    destruct (vi_ac Hvi w (v, T) Hacc) as [Hcv (cT & tlT & HlT)]. simpl in HlT.
    assert (Hanc : anc C k0 (v, T)).
    { apply (tchain_linear C LL Hci T); [exact Htc|eapply tchain_created; eauto|simpl; lia]. }
    destruct (zg_av HI w (v, T) n k0 Hacc Hn Hid Hanc Hpos) as [Hh|(T2 & c2 & tl2 & Hl2 & Hlt & _ & Hna)]; [exact Hh|].
    exfalso. apply Hna. simpl in Hlt.
    apply (lc_core cfg C LL A V HV Hci Hvi q T k0 HQ Htc Hq T2 c2 tl2 Hl2 Hlt).
  Qed.

  Lemma znode_img_in n : In n (cnodes g) -> log_in C (logn n) (d_term (image (gn_run n))).
  Proof.
    intros Hin. pose proof (zg_l HI) as Hl.
    destruct (zl_nodes [cfg] (cg_l g) C Hl n Hin) as [Hn _].
    apply (znlog_image C _ (ci_ok Hci)) in Hn. apply (zi_in _ _ _ _ Hn).
  Qed.

  Lemma covers_stores n w i e p : In n (cnodes g) -> gn_id n = w -> In (e, p) C -> e_idx e = i ->
    covers C (image (gn_run n)) (key e) -> stores_or_snap g w i e.
  Proof.
    intros Hn Hid Pe Ie Hc. exists n. split; [exact Hn|]. split; [exact Hid|].
    pose proof (ci_ok Hci) as HC.
    destruct Hc as [(y & Hy & Ey)|(sn & Hsn & Ha)].
    - left. unfold key in Hy at 1. simpl in Hy. rewrite Ie in Hy.
      destruct (znode_img_in n Hn i y Hy) as (_ & (py & Py) & _).
      rewrite Hy. f_equal. apply (co_fun C HC y py e p Py Pe Ey).
    - right. exists sn. split; [exact Hsn|]. destruct (anc_le C _ _ HC Ha) as [Hle _].
      unfold key, sk in Hle. simpl in Hle. lia.
  Qed.

  (* beside known_leader_holds and known_agree (Proofs/ClusterCommitSnapInv2.v): such an entry is held, or covered by a
     snapshot, at a majority *)
  Lemma known_backed T e : known_committed cfg C LL A (T, e) ->
    exists W, majority (voters cfg) W /\ forall w, In w W -> stores_or_snap g w (e_idx e) e.
  Proof.
    intros [(p & Pe) (T' & q & _ & Q & Htc & Hq)]. cbn [fst snd] in *.
    destruct (co_idx C (ci_ok Hci) e p Pe) as [Hei _].
    destruct (zQA_held q T' (key e) Q Htc Hq) as (W & HW & HH); [unfold key; simpl; lia|].
    exists W. split; [exact HW|]. intros w Hw. destruct (HH w Hw) as (n & Hn & Hid & Hh).
    apply (covers_stores n w (e_idx e) e p Hn Hid Pe eq_refl Hh).
  Qed.

  Theorem zinv_commit_backed_snap : commit_backed_snap cfg g.
  Proof.
    intros a sa Ha Ra i e Hi He. destruct (log_known cfg Ps fsm g C LL A V HI a sa i e Ha Ra He Hi) as [<- Hk].
    apply (known_backed _ e Hk).
  Qed.

  (* a Leader whose commit index has reached its no-op: the no-op is known to be committed *)
  Theorem zinv_own_term_rule_snap : own_term_rule_snap cfg g.
  Proof.
    intros l sl ld Hl Rl Hrole Hfl.
    destruct (zlead_inv_at (zg_lead HI l sl Hl Rl Hrole) Hfl) as (tl & L & _). pose proof (li_rec L) as Hll. pose proof (li_next0 L) as Hn0.
    destruct (N.lt_ge_cases (v_commit sl) (ld_next0 ld)) as [Hlt|Hge]; [left; exact Hlt|right].
    assert (Hq0 : cm_commit (ld_cm ld) <> 0) by (pose proof (li_vc L); lia).
    destruct (li_QA L Hq0) as [Hcm _].
    destruct (ci_noop Hci _ _ _ Hll) as (x & Hx & Ext).
    destruct (co_idx C (ci_ok Hci) x tl Hx) as [Hxi _].
    assert (Hi : e_idx x = ld_next0 ld) by lia.
    destruct (known_backed (v_term sl) x) as (W & HW & HH).
    { split; [exists tl; exact Hx|]. apply (lead_CK L _ _ Hq0 (N.le_refl _)); [|unfold key; simpl; lia].
      apply (tchain_created C LL (v_term sl) (gn_id l) tl); [exact Hll|exists x, tl; auto|exact Ext]. }
    exists W. split; [exact HW|]. intros w Hw. exists x. split; [exact Ext|]. rewrite <- Hi. apply (HH w Hw).
  Qed.
End Backed.

Theorem commit_backed_all_runs : forall cfg g0 ls g,
  cinit_ok cfg g0 -> Forall label_ok ls -> crun false [cfg] g0 ls = Some g -> commit_backed cfg g.
Proof.
  intros cfg g0 ls g H0 Hls Hrun. destruct (reach_zinv_plain cfg g0 ls g H0 Hls Hrun) as (HVn & (C & LL & A & V & HI) & Hns).
  apply (commit_backed_plain cfg g Hns).
  apply (zinv_commit_backed_snap cfg _ false HVn g C LL A V HI).
Qed.

Theorem commit_backed_all_runs_snapshots : forall cfg g0 ls g,
  cinit_snap_ok cfg g0 -> Forall label_ok ls -> crun true [cfg] g0 ls = Some g -> commit_backed_snap cfg g.
Proof.
  intros cfg g0 ls g H0 Hls Hrun. destruct (reach_zinv_snap true cfg g0 ls g H0 Hls Hrun) as [HVn (C & LL & A & V & HI)].
  apply (zinv_commit_backed_snap cfg _ true HVn g C LL A V HI).
Qed.

Theorem own_term_rule_all_runs : forall cfg g0 ls g,
  cinit_ok cfg g0 -> Forall label_ok ls -> crun false [cfg] g0 ls = Some g -> own_term_rule cfg g.
Proof.
  intros cfg g0 ls g H0 Hls Hrun. destruct (reach_zinv_plain cfg g0 ls g H0 Hls Hrun) as (HVn & (C & LL & A & V & HI) & Hns).
  apply (own_term_rule_plain cfg g Hns).
  apply (zinv_own_term_rule_snap cfg _ false HVn g C LL A V HI).
Qed.

Theorem own_term_rule_all_runs_snapshots : forall cfg g0 ls g,
  cinit_snap_ok cfg g0 -> Forall label_ok ls -> crun true [cfg] g0 ls = Some g -> own_term_rule_snap cfg g.
Proof.
  intros cfg g0 ls g H0 Hls Hrun. destruct (reach_zinv_snap true cfg g0 ls g H0 Hls Hrun) as [HVn (C & LL & A & V & HI)].
  apply (zinv_own_term_rule_snap cfg _ true HVn g C LL A V HI).
Qed.

Theorem commit_monotone_all_runs_is_false :
  ~ (forall sn cfg g0 ls g l g',
       cinit_snap_ok cfg g0 -> Forall label_ok ls -> crun sn [cfg] g0 ls = Some g ->
       label_ok l -> cstep sn [cfg] g l = Some g' -> commit_monotone_step g l g').
Proof.
  intros H. destruct commit_monotone_all_runs_refuted as (sn & cfg & g0 & ls & g & l & g' & H0 & Hls & Hrun & Hl & Hstep & Hn).
  apply Hn. apply (H sn cfg g0 ls g l g' H0 Hls Hrun Hl Hstep).
Qed.

(* the variant that holds: one more exception, the crash inside the handler the step runs at that server *)
Theorem commit_monotone_crash_all_runs : forall sn cfg g0 ls g l g',
  cinit_snap_ok cfg g0 -> Forall label_ok ls -> crun sn [cfg] g0 ls = Some g ->
  label_ok l -> cstep sn [cfg] g l = Some g' -> commit_monotone_step_crash g l g'.
Proof.
  intros sn cfg g0 ls g l g' H0 Hls Hrun _ Hstep. destruct (reach_zinv_snap sn cfg g0 ls g H0 Hls Hrun) as [_ (C & LL & A & V & HI)].
  apply (cstep_mono cfg _ true g C LL A V HI sn l g' Hstep).
Qed.

(* the statement as given, for the steps in which no process dies inside a handler *)
Corollary commit_monotone_all_runs_no_crash : forall sn cfg g0 ls g l g',
  cinit_snap_ok cfg g0 -> Forall label_ok ls -> crun sn [cfg] g0 ls = Some g ->
  label_ok l -> cstep sn [cfg] g l = Some g' -> (forall w, ~ dies_in_handler g l w) -> commit_monotone_step g l g'.
Proof.
  intros sn cfg g0 ls g l g' H0 Hls Hrun Hl Hstep Hnd n n' s s' Hn Hn' Hid Hr Hr'.
  destruct (commit_monotone_crash_all_runs sn cfg g0 ls g l g' H0 Hls Hrun Hl Hstep n n' s s' Hn Hn' Hid Hr Hr') as [H|[H|H]];
    [left; exact H|right; exact H|destruct (Hnd _ H)].
Qed.

Print Assumptions commit_backed_all_runs.
Print Assumptions commit_backed_all_runs_snapshots.
Print Assumptions own_term_rule_all_runs.
Print Assumptions own_term_rule_all_runs_snapshots.
Print Assumptions commit_monotone_all_runs_refuted.
Print Assumptions commit_monotone_all_runs_is_false.
Print Assumptions commit_monotone_crash_all_runs.
Print Assumptions commit_monotone_all_runs_no_crash.
