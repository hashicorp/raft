(* ClusterCommitSnapAcks.v — DURABLE ACKNOWLEDGEMENTS with takeSnapshot and compaction (crun true): an entry
   whose future a leader of term T answered without error is, at every later point of the run, held at
   its index by every Leader of a term >= T — or lies at or below the index of the snapshot that leader
   runs on — and is what every running server that knows that index to be committed (and still holds
   an entry there) holds.
   Both halves are facts about any entry known to be committed (known_leader_holds, known_agree:
   Proofs/ClusterCommitSnapInv2.v), which is what an acknowledged entry is (zinv_step_ack).  run_ext / acks_ext carry
   the invariant and the acknowledgements along a run with the ghost state at the end EXTENDING the one at the
   start: that is what the order argument (Proofs/ClusterOrderCore.v) compares. *)
From Coq Require Import List NArith Bool Lia.
From stdpp Require Import gmap.
From RaftModel Require Import Base Config Node NodeCodec Leader Cluster ClusterLog ClusterCommit.
From RaftProofs Require Import VoteProofs RecoverProofs ClusterProofs ClusterLogSpec ClusterLogChain ClusterLogInv
  ClusterCommitSpec ClusterCommitLog ClusterCommitGhost ClusterCommitInv ClusterCommitUpd ClusterCommitSnapLeader2
  ClusterCommitSnapSpec ClusterCommitSnapLog ClusterCommitSnapInv2 ClusterCommitSnapStepA
  ClusterCommitSnapStepLeader ClusterCommitSnapMain.
Open Scope N_scope.

Lemma step_acks_some sn cfgs g l te : In te (step_acks g l) -> exists g', cstep sn cfgs g l = Some g'.
Proof.
  destruct l as [bl|k|i j|i]; simpl; try contradiction.
  destruct (find_node _ i) as [n|]; [|contradiction]. destruct (find_lead _ i) as [ld|]; [|contradiction].
  destruct (gn_run n) as [s|s]; [|contradiction].
  destruct ((v_role s =? Leader) && ld_notified ld); [|contradiction].
  destruct (leader_commit _) as [[[ls2 tr] res]|]; [|contradiction]. intros _. eauto.
Qed.

Section Acks.
  Variable cfg : config.
  Variable Ps : list params.
  Variable fsm : bool.
  Hypothesis HVn : NoDup (voters cfg).

  Definition ZAckInv (g : cgstate) (acks : list (N * entry)) : Prop :=
    exists C LL A V, zinvg cfg Ps fsm g C LL A V /\ Forall (known_committed cfg C LL A) acks.

  Lemma zack_step_facts sn g C LL A V i g' T e : zinvg cfg Ps fsm g C LL A V -> cstep sn [cfg] g (CCommit i) = Some g' ->
    In (T, e) (step_acks g (CCommit i)) ->
    zinvg cfg Ps fsm g' C LL A V /\
    exists n' s', find_node (cnodes g') i = Some n' /\ gn_run n' = Up s' /\ v_role s' = Leader /\ v_term s' = T /\ d_term s' = T /\
      e_idx e <= v_commit s' /\ d_log s' !! e_idx e = Some e.
  Proof.
    intros HI Hstep Hin. pose proof (zinv_commit cfg Ps fsm HVn sn g C LL A V i g' HI Hstep) as HI'. split; [exact HI'|].
    destruct (step_acks_commit _ _ _ _ _ _ _ Hstep Hin) as (n & ld & s & ls2 & tr & res & r & Hf & Hfl & Hr & Hrole & Hlc & Hr' & He & -> & Eg).
    destruct (find_node_in _ _ _ Hf) as [Hinn Hid].
    destruct (znode_zup_wfu HI n s Hinn Hr) as [Hz [_ Hvt]]. pose proof (zs_in Hz) as Li.
    pose proof (leader_commit_ckeep _ _ _ _ Hlc) as (K & Kc & _). cbn [l_node l_cm] in K, Kc.
    pose proof (ckeep_fields K) as F. pose proof (ck_log F) as K2.
    assert (Hk : keys_ok (d_log s)) by (intros j x Hx; apply (Li j x Hx)).
    pose proof (leader_commit_res (mkLS s (ld_cm ld) (ld_infl ld)) _ _ _ Hlc r Hr') as Hle. cbn [l_cm] in Hle.
    rewrite K2 in He. assert (Hei : e_idx e = fr_index r) by (apply (Hk _ _ He)).
    set (n' := mkGN (gn_P n) (Up (l_node ls2)) (keep_sess (Up (l_node ls2)) (gn_sess n)) (gn_next n)).
    exists n', (l_node ls2). split.
    { subst g'. unfold cnodes. cbn [cg_l lg_g set_node_run g_nodes]. fold (cnodes g).
      assert (Hin' : In n' (upd_node (cnodes g) i n')) by (apply in_upd_node with (n := n); assumption).
      pose proof (zinvg_nodup HI) as Hnd.
      assert (Hnd' : NoDup (map gn_id (upd_node (cnodes g) i n'))) by (rewrite upd_node_ids; [exact Hnd|exact Hid]).
      pose proof (find_node_self _ n' Hnd' Hin') as Hfn. change (gn_id n') with (gn_id n) in Hfn. rewrite Hid in Hfn. exact Hfn. }
    split; [reflexivity|]. split; [rewrite (ck_role F); exact Hrole|]. split; [exact (ck_term F)|]. split; [rewrite (proj1 (dproj_eq _ _ (ck_dproj F))); congruence|].
    split; [rewrite Kc, Hei; exact Hle|]. rewrite K2, Hei. exact He.
  Qed.

  Lemma zinv_step_ack sn g l g' C LL A V te : zinvg cfg Ps fsm g C LL A V -> cstep sn [cfg] g l = Some g' ->
    In te (step_acks g l) -> known_committed cfg C LL A te.
  Proof.
    intros HI Hstep Hin. destruct te as [T e]. destruct (step_acks_other g l T e Hin) as [i ->].
    destruct (zack_step_facts sn g C LL A V i g' T e HI Hstep Hin) as (HI2 & n' & s' & Hf' & Hr' & _ & _ & Hdt & Hc & He).
    rewrite <- Hdt. apply (log_known cfg Ps fsm g' C LL A V HI2 n' s' _ e (proj1 (find_node_in _ _ _ Hf')) Hr' He Hc).
  Qed.

  Section Run.
    Variable sn : bool.
    Hypothesis Hsf : sn = true -> fsm = true.

    (* along a run: the invariant, with a ghost state that extends the one at the start; the acknowledgements so far *)
    Lemma run_ext ls : forall g g' C LL A V acks, zinvg cfg Ps fsm g C LL A V -> Forall (known_committed cfg C LL A) acks ->
      Forall label_ok ls -> crun sn [cfg] g ls = Some g' ->
      exists Cn LLn An V', zinvg cfg Ps fsm g' (Cn ++ C) (LLn ++ LL) (An ++ A) V' /\
        Forall (known_committed cfg (Cn ++ C) (LLn ++ LL) (An ++ A)) (acks ++ run_acks sn [cfg] g ls).
    Proof.
      induction ls as [|l r IH]; intros g g' C LL A V acks HI Hacks Hls Hrun; simpl in Hrun |- *.
      - inversion Hrun; subst. exists [], [], [], V. rewrite app_nil_r. split; [exact HI|exact Hacks].
      - destruct (cstep sn [cfg] g l) as [g1|] eqn:E; [|discriminate]. inversion Hls as [|? ? Hl Hr]; subst.
        destruct (cstep_zinv_ext cfg Ps fsm HVn sn g l g1 C LL A V Hsf HI Hl E) as (Cn & LLn & An & V1 & HI1).
        assert (Hacks1 : Forall (known_committed cfg (Cn ++ C) (LLn ++ LL) (An ++ A)) (acks ++ step_acks g l)).
        { apply Forall_app. split.
          - eapply Forall_impl; [|exact Hacks]. intros te. apply known_committed_mono.
          - apply Forall_forall. intros te Hin. apply known_committed_mono. apply (zinv_step_ack sn g l g1 C LL A V te HI E Hin). }
        destruct (IH g1 g' _ _ _ V1 _ HI1 Hacks1 Hr Hrun) as (Cn2 & LLn2 & An2 & V2 & HI2 & Hacks2).
        exists (Cn2 ++ Cn), (LLn2 ++ LLn), (An2 ++ An), V2. rewrite <- !app_assoc. split; [exact HI2|].
        rewrite <- app_assoc in Hacks2. exact Hacks2.
    Qed.

    (* what a run acknowledges, whether or not the whole label list can be taken *)
    Lemma acks_ext ls : forall g C LL A V, zinvg cfg Ps fsm g C LL A V -> Forall label_ok ls ->
      forall te, In te (run_acks sn [cfg] g ls) ->
      exists g' Cn LLn An V', zinvg cfg Ps fsm g' (Cn ++ C) (LLn ++ LL) (An ++ A) V' /\
        known_committed cfg (Cn ++ C) (LLn ++ LL) (An ++ A) te.
    Proof.
      induction ls as [|l r IH]; intros g C LL A V HI Hls te Hin; simpl in Hin; [contradiction|].
      inversion Hls as [|? ? Hl Hr]; subst. apply in_app_iff in Hin. destruct Hin as [Hin|Hin].
      - destruct (step_acks_some sn [cfg] g l te Hin) as [g1 E].
        destruct (cstep_zinv_ext cfg Ps fsm HVn sn g l g1 C LL A V Hsf HI Hl E) as (Cn & LLn & An & V1 & HI1).
        exists g1, Cn, LLn, An, V1. split; [exact HI1|]. apply known_committed_mono. apply (zinv_step_ack sn g l g1 C LL A V te HI E Hin).
      - destruct (cstep sn [cfg] g l) as [g1|] eqn:E; [|contradiction].
        destruct (cstep_zinv_ext cfg Ps fsm HVn sn g l g1 C LL A V Hsf HI Hl E) as (Cn & LLn & An & V1 & HI1).
        destruct (IH g1 _ _ _ V1 HI1 Hr te Hin) as (g' & Cn2 & LLn2 & An2 & V2 & HI2 & Hok).
        exists g', (Cn2 ++ Cn), (LLn2 ++ LLn), (An2 ++ An), V2. rewrite <- !app_assoc. split; [exact HI2|exact Hok].
    Qed.

    Theorem crun_zackinv ls g acks g' : ZAckInv g acks -> Forall label_ok ls -> crun sn [cfg] g ls = Some g' ->
      ZAckInv g' (acks ++ run_acks sn [cfg] g ls).
    Proof.
      intros (C & LL & A & V & HI & Hacks) Hls Hrun.
      destruct (run_ext ls g g' C LL A V acks HI Hacks Hls Hrun) as (Cn & LLn & An & V' & H). exists (Cn ++ C), (LLn ++ LL), (An ++ A), V'. exact H.
    Qed.
  End Run.

  Theorem zackinv_permanent g acks : ZAckInv g acks -> acks_permanent_snap acks g.
  Proof.
    intros (C & LL & A & V & HI & Hacks) T e Hin. rewrite Forall_forall in Hacks. specialize (Hacks _ Hin).
    split; [apply (known_leader_holds cfg Ps fsm HVn g C LL A V HI T e Hacks)|apply (known_agree cfg Ps fsm HVn g C LL A V HI T e Hacks)].
  Qed.
End Acks.

(* sn: whether takeSnapshot may run; fsm: whether the FSM clauses are kept (reach_zinvg) *)
Theorem reach_zackinv fsm sn cfg g0 ls g : cinit_ok cfg g0 ->
  (fsm = true -> forall n s, In n (cnodes g0) -> gn_run n = Up s -> fst (v_fsmLast s) = 0) -> (sn = true -> fsm = true) ->
  Forall label_ok ls -> crun sn [cfg] g0 ls = Some g ->
  NoDup (voters cfg) /\ ZAckInv cfg (map gn_P (cnodes g0)) fsm g (run_acks sn [cfg] g0 ls).
Proof.
  intros H0 Hf Hsf Hls Hrun. pose proof H0 as (_ & _ & _ & _ & HVn & _). split; [exact HVn|].
  destruct (cinit_zinvg cfg g0 fsm H0 Hf) as (C0 & LL0 & A0 & V0 & HI0).
  apply (crun_zackinv cfg (map gn_P (cnodes g0)) fsm HVn sn Hsf ls g0 [] g); [|exact Hls|exact Hrun].
  exists C0, LL0, A0, V0. split; [exact HI0|constructor].
Qed.

Theorem acks_committed_reach fsm sn cfg g0 ls g l g' T e : cinit_ok cfg g0 ->
  (fsm = true -> forall n s, In n (cnodes g0) -> gn_run n = Up s -> fst (v_fsmLast s) = 0) -> (sn = true -> fsm = true) ->
  Forall label_ok ls -> crun sn [cfg] g0 ls = Some g ->
  cstep sn [cfg] g l = Some g' -> In (T, e) (step_acks g l) ->
  exists i n' s', l = CCommit i /\ find_node (cnodes g') i = Some n' /\ gn_run n' = Up s' /\ v_role s' = Leader /\
    v_term s' = T /\ e_idx e <= v_commit s' /\ d_log s' !! e_idx e = Some e.
Proof.
  intros H0 Hf Hsf Hls Hrun Hstep Hin.
  destruct (reach_zinvg fsm sn cfg g0 ls g H0 Hf Hsf Hls Hrun) as [HVn (C & LL & A & V & HI)].
  destruct (step_acks_other g l T e Hin) as [i ->].
  destruct (zack_step_facts cfg _ fsm HVn sn g C LL A V i g' T e HI Hstep Hin) as (_ & n' & s' & H1 & H2 & H3 & H4 & _ & H6 & H7).
  exists i, n', s'. auto 10.
Qed.

Theorem acknowledged_entries_are_permanent_snapshots : forall cfg g0 ls g,
  cinit_snap_ok cfg g0 -> Forall label_ok ls -> crun true [cfg] g0 ls = Some g ->
  acks_permanent_snap (run_acks true [cfg] g0 ls) g.
Proof.
  intros cfg g0 ls g [H0 Hf] Hls Hrun.
  destruct (reach_zackinv true true cfg g0 ls g H0 (fun _ => Hf) (fun _ => eq_refl) Hls Hrun) as [HVn HZ].
  apply (zackinv_permanent cfg _ true HVn g _ HZ).
Qed.

Theorem acks_are_committed_when_answered_snapshots : forall cfg g0 ls g l g' T e,
  cinit_snap_ok cfg g0 -> Forall label_ok ls -> crun true [cfg] g0 ls = Some g ->
  cstep true [cfg] g l = Some g' -> In (T, e) (step_acks g l) ->
  exists i n' s', l = CCommit i /\ find_node (cnodes g') i = Some n' /\ gn_run n' = Up s' /\ v_role s' = Leader /\
    v_term s' = T /\ e_idx e <= v_commit s' /\ d_log s' !! e_idx e = Some e.
Proof.
  intros cfg g0 ls g l g' T e [H0 Hf]. apply (acks_committed_reach true true cfg g0 ls g l g' T e H0); [intros _; exact Hf|reflexivity].
Qed.

Print Assumptions acknowledged_entries_are_permanent_snapshots.
Print Assumptions acks_are_committed_when_answered_snapshots.
