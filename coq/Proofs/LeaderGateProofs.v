(* LeaderGateProofs.v — proofs (and refutations) of the statements of LeaderGateSpec.v. *)
From Coq Require Import List NArith Bool Lia ZifyBool ZifyN.
From stdpp Require Import gmap.
From RaftModel Require Import Base Config Node Leader LeaderCodec.
From RaftProofs Require Import ConfigProofs LeaderGateSpec LeaderGateA.
Open Scope N_scope.

Definition ex_cfg : config := [mkSrv Voter 1 1; mkSrv Voter 2 2; mkSrv Voter 3 3].
Definition ex_P : params := mkP 1 false false false 10 64 (fun _ => ex_cfg).
Definition ex_log : gmap N entry :=
  <[ 3 := mkE 3 1 LogCommand 8 ]> (<[ 2 := mkE 2 1 LogCommand 7 ]> (<[ 1 := mkE 1 1 LogConfiguration 0 ]> ∅)).
(* term 2, three voters, log: configuration at 1, commands at 2 and 3, all committed and applied *)
Definition ex_s0 : nstate :=
  mkNS 2 2 (Some 1) ex_log 0 0 [] Leader 2 3 3 3 1 0 0 ex_cfg 1 ex_cfg 1 1 1 false [7; 8] (3, 1).

Lemma ex_s0_start : leader_start_ok ex_s0.
Proof. unfold leader_start_ok. vm_compute. repeat split; discriminate. Qed.

Definition ex_ops : list lop :=
  [ LDispatch [(LogNoop, 0, 1)] [];            (* the no-op runLeader dispatches first: index 4 *)
    LMatch 2 4;
    LCommit;                                   (* commit index 4: an entry of the own term is committed *)
    LGate;
    LConfig (mkReq 1 4 4 0) 2 [];              (* AddNonvoter s4: index 5 *)
    LMatch 2 5;
    LMatch 3 5;
    LCommit;                                   (* the change is committed: the gate opens again *)
    LConfig (mkReq 0 4 4 5) 3 [];              (* AddVoter s4 (prevIndex 5): index 6 *)
    LVerify ].

(* A run that is only evaluated reaches a state with the property Q, without the state being written out: given
   as a witness, the normal form of a leader state is type-checked by the kernel without the VM (its gmaps carry
   well-formedness proofs), which costs a hundred times the evaluation of the run. *)
Lemma run_reaches {A} (o : option A) (Q : A -> Prop) :
  match o with Some x => Q x | None => False end -> exists x, o = Some x /\ Q x.
Proof. destruct o as [x|]; [eauto|contradiction]. Qed.

Example gate_nonvacuous :
  exists ls vf,
    leader_start_ok ex_s0 /\
    (8 <= length ex_ops)%nat /\
    leader_run ex_P [] (leader_setup ex_s0) None ex_ops = Some (ls, vf) /\
    v_commit (l_node ls) = 5 /\ v_committedIdx (l_node ls) = 5 /\ v_latestIdx (l_node ls) = 6 /\
    v_latest (l_node ls) = ex_cfg ++ [mkSrv Voter 4 4] /\
    map e_idx (pending_configs (last_index ex_s0) (l_node ls)) = [6] /\
    config_gate_open ls = false.
Proof.
  destruct (run_reaches (leader_run ex_P [] (leader_setup ex_s0) None ex_ops) (fun x =>
      v_commit (l_node (fst x)) = 5 /\ v_committedIdx (l_node (fst x)) = 5 /\ v_latestIdx (l_node (fst x)) = 6 /\
      v_latest (l_node (fst x)) = ex_cfg ++ [mkSrv Voter 4 4] /\
      map e_idx (pending_configs (last_index ex_s0) (l_node (fst x))) = [6] /\
      config_gate_open (fst x) = false)) as ([ls vf] & E & H); [vm_compute; repeat split|].
  exists ls, vf. split; [exact ex_s0_start|]. split; [simpl; lia|]. split; [exact E|exact H].
Qed.

(* why the statements are FALSE as written, (1) to (3): *)
(* (1) op_enabled lets LDispatch carry requests of type LogConfiguration: dispatchLogs then stores
       configuration entries that never went through the gate (the real callers of dispatchLogs only
       pass LogCommand / LogBarrier / LogNoop; configuration entries come from appendConfigurationEntry). *)
Definition cex_s0 : nstate :=
  mkNS 1 0 None ∅ 0 0 [] Leader 1 0 0 0 0 0 0 ex_cfg 0 ex_cfg 0 0 0 false [] (0, 0).
Definition cex_ops : list lop := [LDispatch [(LogConfiguration, 0, 1); (LogConfiguration, 0, 2)] []].
Definition cex_final : lstate * vstate :=
  match leader_run ex_P [] (leader_setup cex_s0) None cex_ops with Some x => x | None => (leader_setup cex_s0, None) end.

Lemma cex_s0_start : leader_start_ok cex_s0.
Proof. unfold leader_start_ok. vm_compute. repeat split; discriminate. Qed.

Example gate_serialises_is_false : ~ gate_serialises.
Proof.
  intros H.
  specialize (H ex_P [] cex_s0 cex_ops (fst cex_final) (snd cex_final) cex_s0_start).
  destruct H as (_ & H & _); [vm_compute; reflexivity|].
  vm_compute in H. lia.
Qed.

(* (2) leader_start_ok says nothing about the log of s0: a configuration entry whose index field is above
       last_index s0 is "pending" from the start (empty run). *)
Definition cex2_s0 : nstate :=
  mkNS 1 0 None (<[ 1 := mkE 9 1 LogConfiguration 0 ]> ∅) 0 0 [] Leader 1 0 0 0 0 0 0 ex_cfg 0 ex_cfg 0 0 0 false [] (0, 0).

Example gate_serialises_is_false_empty_run :
  exists P tab s0 e, leader_start_ok s0 /\ leader_run P tab (leader_setup s0) None [] = Some (leader_setup s0, None) /\
    In e (pending_configs (last_index s0) (l_node (leader_setup s0))) /\ e_idx e <> v_latestIdx (l_node (leader_setup s0)).
Proof.
  exists ex_P, [], cex2_s0, (mkE 9 1 LogConfiguration 0).
  split; [unfold leader_start_ok; vm_compute; repeat split; discriminate|].
  split; [reflexivity|]. split; [vm_compute; left; reflexivity|vm_compute; discriminate].
Qed.

(* (3) own_term_entries: the store of s0 may hold keys above last_index s0 (empty run) *)
Definition cex3_s0 : nstate :=
  mkNS 1 0 None (<[ 5 := mkE 5 0 LogCommand 0 ]> ∅) 0 0 [] Leader 1 0 0 0 0 0 0 ex_cfg 0 ex_cfg 0 0 0 false [] (0, 0).

Example own_term_entries_is_false : ~ own_term_entries.
Proof.
  intros H.
  specialize (H ex_P [] cex3_s0 [] (leader_setup cex3_s0) None).
  destruct H as (_ & H); [unfold leader_start_ok; vm_compute; repeat split; discriminate|reflexivity|].
  specialize (H 5 (mkE 5 0 LogCommand 0)).
  destruct H as [H _]; [vm_compute; reflexivity|vm_compute; reflexivity|].
  vm_compute in H. discriminate.
Qed.

Theorem gate_is_necessary_holds : gate_is_necessary.
Proof.
  unfold gate_is_necessary.
  exists ex_P, [], ex_s0, [LConfig (mkReq 1 4 4 0) 1 []; LConfig (mkReq 1 5 5 0) 2 []].
  destruct (run_reaches (ungated_run ex_P [] (leader_setup ex_s0) None [LConfig (mkReq 1 4 4 0) 1 []; LConfig (mkReq 1 5 5 0) 2 []])
    (fun x => (2 <= length (pending_configs (last_index ex_s0) (l_node (fst x))))%nat)) as ([ls vf] & E & H); [vm_compute; lia|].
  exists ls, vf. split; [exact ex_s0_start|]. split; [exact E|exact H].
Qed.

(* G3 is true as stated *)
Theorem changes_one_at_a_time_holds : changes_one_at_a_time.
Proof.
  unfold changes_one_at_a_time.
  intros P tab s0 ops ls vf q fid fs ls' vf' out Hs Hr En Hstep.
  pose proof (run_core _ _ P tab ops _ _ _ _ (core_inv_setup s0 Hs) Hr) as I.
  unfold step_lop in Hstep.
  destruct (append_config P (encode_cfg tab) ls fs q fid) as [[[ls1 res] tr] fs1] eqn:E. injection Hstep as <- _ _.
  apply config_effect in E. destruct E as [->|(cfg & Hn & E1 & E2 & E3 & E4 & E5 & _)]; [left; reflexivity|].
  right. unfold op_enabled in En. apply andb_true_iff in En. destruct En as [_ G].
  pose proof (gate_open_committed _ _ ls I G) as [G1 _].
  rewrite E4. split; [eapply next_config_checked; exact Hn|]. split; [exact G1|]. split; [exact E5|].
  intros x Hx. eapply next_config_one_voter; eassumption.
Qed.

(* G1 alone is also true as stated (no assumption on the log of s0, none on the requests dispatched) *)
Theorem gate_open_means_committed :
  forall P tab s0 ops ls vf,
  leader_start_ok s0 ->
  leader_run P tab (leader_setup s0) None ops = Some (ls, vf) ->
  config_gate_open ls = true ->
  v_latestIdx (l_node ls) <= v_commit (l_node ls) /\ last_index s0 + 1 <= v_commit (l_node ls).
Proof.
  intros P tab s0 ops ls vf Hs Hr G.
  pose proof (run_core _ _ P tab ops _ _ _ _ (core_inv_setup s0 Hs) Hr) as I.
  eapply gate_open_committed; eassumption.
Qed.

(* the missing hypothesis: the log store of s0 holds nothing above last_index s0 *)
Definition own_term_entries_corrected : Prop :=
  forall P tab s0 ops ls vf,
  leader_start_ok s0 ->
  (forall i e, d_log s0 !! i = Some e -> i <= last_index s0) ->
  leader_run P tab (leader_setup s0) None ops = Some (ls, vf) ->
  v_term (l_node ls) = v_term s0 /\
  forall i e, last_index s0 < i -> d_log (l_node ls) !! i = Some e -> e_term e = v_term s0 /\ e_idx e = i.

Theorem own_term_entries_corrected_holds : own_term_entries_corrected.
Proof.
  intros P tab s0 ops ls vf Hs Hlog Hr.
  assert (T0 : term_inv (last_index s0) (v_term s0) (leader_setup s0)).
  { intros i e Hi Hk. simpl in Hk. apply Hlog in Hk. lia. }
  pose proof (run_term _ _ P tab ops _ _ _ _ (core_inv_setup s0 Hs) T0 Hr) as [I T].
  split; [apply I|exact T].
Qed.

(* the first half needs no extra hypothesis *)
Theorem leadership_term_constant :
  forall P tab s0 ops ls vf,
  leader_start_ok s0 -> leader_run P tab (leader_setup s0) None ops = Some (ls, vf) -> v_term (l_node ls) = v_term s0.
Proof.
  intros P tab s0 ops ls vf Hs Hr.
  pose proof (run_core _ _ P tab ops _ _ _ _ (core_inv_setup s0 Hs) Hr) as I. apply I.
Qed.

Lemma filter_snd_nil (f : entry -> bool) (l : list (N * entry)) :
  (forall k e, In (k, e) l -> f e = true -> False) -> List.filter f (map snd l) = [].
Proof.
  induction l as [|[k e] r IH]; intros H; simpl; [reflexivity|].
  destruct (f e) eqn:F; [exfalso; apply (H k e); [left; reflexivity|exact F]|].
  apply IH. intros k' e' Hin. apply (H k' e'). right. exact Hin.
Qed.

Lemma filter_snd_le1 (f : entry -> bool) (c : N) (l : list (N * entry)) :
  List.NoDup (map fst l) -> (forall k e, In (k, e) l -> f e = true -> k = c) ->
  (length (List.filter f (map snd l)) <= 1)%nat.
Proof.
  induction l as [|[k e] r IH]; intros Hnd H; simpl; [lia|].
  simpl in Hnd. inversion Hnd as [|x l' Hnotin Hnd']; subst.
  destruct (f e) eqn:F.
  - assert (k = c) by (apply (H k e); [left; reflexivity|exact F]). subst k.
    rewrite filter_snd_nil; [simpl; lia|].
    intros k' e' Hin Hf. assert (k' = c) by (apply (H k' e'); [right; exact Hin|exact Hf]). subst k'.
    apply Hnotin. apply in_map_iff. exists (c, e'). split; [reflexivity|exact Hin].
  - apply IH; [exact Hnd'|]. intros k' e' Hin. apply (H k' e'). right. exact Hin.
Qed.

Lemma pending_in last0 s e :
  In e (pending_configs last0 s) ->
  exists k, d_log s !! k = Some e /\ e_ty e = LogConfiguration /\ last0 < e_idx e /\ v_commit s < e_idx e.
Proof.
  unfold pending_configs. intros H. apply filter_In in H. destruct H as [Hin Hf].
  apply in_map_iff in Hin. destruct Hin as ([k e'] & He & Hin). simpl in He. subst e'.
  apply elem_of_list_In in Hin. apply elem_of_map_to_list in Hin.
  exists k. split; [exact Hin|]. lia.
Qed.

(* the two missing hypotheses: (a) the log store of s0 holds no configuration entry whose index is above
   last_index s0; (b) the requests handed to dispatchLogs are not of type LogConfiguration (configuration
   entries are created by appendConfigurationEntry only) *)
Definition gate_serialises_corrected : Prop :=
  forall P tab s0 ops ls vf,
  leader_start_ok s0 ->
  (forall i e, d_log s0 !! i = Some e -> e_ty e = LogConfiguration -> e_idx e <= last_index s0) ->
  forallb no_config_req ops = true ->
  leader_run P tab (leader_setup s0) None ops = Some (ls, vf) ->
  (config_gate_open ls = true ->
     v_latestIdx (l_node ls) <= v_commit (l_node ls) /\ last_index s0 + 1 <= v_commit (l_node ls)) /\
  (length (pending_configs (last_index s0) (l_node ls)) <= 1)%nat /\
  (forall e, In e (pending_configs (last_index s0) (l_node ls)) ->
     e_idx e = v_latestIdx (l_node ls) /\ config_gate_open ls = false).

Theorem gate_serialises_corrected_holds : gate_serialises_corrected.
Proof.
  intros P tab s0 ops ls vf Hs Hlog Hnc Hr.
  assert (B0 : cfg_inv (last_index s0) (leader_setup s0)).
  { intros k e Hk Ht Hi. simpl in Hk. specialize (Hlog k e Hk Ht). lia. }
  pose proof (run_cfg _ _ P tab ops _ _ _ _ Hnc (core_inv_setup s0 Hs) B0 Hr) as [I B].
  assert (Hpend : forall k e, d_log (l_node ls) !! k = Some e -> e_ty e = LogConfiguration ->
                    last_index s0 < e_idx e -> v_commit (l_node ls) < e_idx e ->
                    k = v_latestIdx (l_node ls) /\ e_idx e = v_latestIdx (l_node ls) /\ config_gate_open ls = false).
  { intros k e Hk Ht Hi Hc. destruct (B k e Hk Ht Hi) as [Bk [Bc|Bl]]; [lia|].
    split; [congruence|]. split; [exact Bl|].
    destruct (config_gate_open ls) eqn:G; [|reflexivity].
    pose proof (gate_open_committed _ _ ls I G) as [G1 _]. lia. }
  split; [intros G; eapply gate_open_committed; eassumption|]. split.
  - unfold pending_configs. apply (filter_snd_le1 _ (v_latestIdx (l_node ls))).
    + apply NoDup_ListNoDup. apply (NoDup_fst_map_to_list (d_log (l_node ls))).
    + intros k e Hin Hf. apply elem_of_list_In in Hin. apply elem_of_map_to_list in Hin.
      apply (Hpend k e Hin); lia.
  - intros e Hin. apply pending_in in Hin. destruct Hin as (k & Hk & Ht & Hi & Hc).
    destruct (Hpend k e Hk Ht Hi Hc) as (_ & H1 & H2). split; assumption.
Qed.

(* the natural reading of (a): every entry of the store of s0 is at or below last_index s0 *)
Corollary gate_serialises_bounded_log :
  forall P tab s0 ops ls vf,
  leader_start_ok s0 ->
  (forall i e, d_log s0 !! i = Some e -> e_idx e <= last_index s0) ->
  forallb no_config_req ops = true ->
  leader_run P tab (leader_setup s0) None ops = Some (ls, vf) ->
  (config_gate_open ls = true ->
     v_latestIdx (l_node ls) <= v_commit (l_node ls) /\ last_index s0 + 1 <= v_commit (l_node ls)) /\
  (length (pending_configs (last_index s0) (l_node ls)) <= 1)%nat /\
  (forall e, In e (pending_configs (last_index s0) (l_node ls)) ->
     e_idx e = v_latestIdx (l_node ls) /\ config_gate_open ls = false).
Proof.
  intros P tab s0 ops ls vf Hs Hlog Hnc Hr.
  apply (gate_serialises_corrected_holds P tab s0 ops ls vf Hs); [|exact Hnc|exact Hr].
  intros i e Hk _. exact (Hlog i e Hk).
Qed.

(* the non-vacuity run satisfies the added hypotheses too *)
Example gate_nonvacuous_corrected_hyps :
  (forall i e, d_log ex_s0 !! i = Some e -> e_idx e <= last_index ex_s0 /\ i <= last_index ex_s0) /\
  forallb no_config_req ex_ops = true.
Proof.
  split; [|reflexivity].
  intros i e H. change (d_log ex_s0) with ex_log in H. unfold ex_log in H.
  change (last_index ex_s0) with 3.
  destruct (N.eq_dec i 3) as [->|N3]; [rewrite lookup_insert in H; injection H as <-; simpl; lia|].
  rewrite lookup_insert_ne in H by congruence.
  destruct (N.eq_dec i 2) as [->|N2]; [rewrite lookup_insert in H; injection H as <-; simpl; lia|].
  rewrite lookup_insert_ne in H by congruence.
  destruct (N.eq_dec i 1) as [->|N1]; [rewrite lookup_insert in H; injection H as <-; simpl; lia|].
  rewrite lookup_insert_ne in H by congruence. rewrite lookup_empty in H. discriminate.
Qed.

Print Assumptions gate_is_necessary_holds.
Print Assumptions changes_one_at_a_time_holds.
Print Assumptions gate_open_means_committed.
Print Assumptions own_term_entries_corrected_holds.
Print Assumptions leadership_term_constant.
Print Assumptions gate_serialises_corrected_holds.
Print Assumptions gate_serialises_bounded_log.
Print Assumptions gate_serialises_is_false.
Print Assumptions gate_serialises_is_false_empty_run.
Print Assumptions own_term_entries_is_false.
Print Assumptions gate_nonvacuous.
Print Assumptions gate_nonvacuous_corrected_hyps.
