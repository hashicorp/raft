(* ClusterCommitSnapLog.v — the per-server part of the Log Matching invariant for servers that take
   snapshots and compact their logs (the analogue of nlog_up / nlog_img of Proofs/ClusterLogNode.v,
   which ask for an empty snapshot store).  The names in z... (zup, znlog, zlinv, zinvg) are
   those of the invariant of Model/ClusterCommit.v with takeSnapshot, here and in ClusterCommitSnap*.v.

   A running server caches two keys: tk = (lastLogIdx, lastLogTerm) and b = (lastSnapshotIndex,
   lastSnapshotTerm).  Both are the root or created keys of ONE branch of the ghost history; every
   stored entry is an ancestor of tk; every stored snapshot is an ancestor of b; the log has no hole
   between b and tk.  Below b the log may hold anything from nothing to everything (TrailingLogs). *)
From Coq Require Import List NArith Bool Lia.
From stdpp Require Import gmap.
From RaftModel Require Import Base Node NodeCodec.
From RaftProofs Require Import ClusterLogSpec ClusterLogChain ClusterLogNode ClusterLogVote ClusterCommitChain ClusterCommitInv.
Open Scope N_scope.

Definition pclosed (C : chain) : Prop := forall e p, In (e, p) C -> p = (0, 0) \/ created C p.
Definition rootc (C : chain) (k : N * N) : Prop := k = (0, 0) \/ created C k.

(* the ancestors of a created key (or the root) are created keys (or the root) *)
Lemma anc_rootc C x k : pclosed C -> rootc C x -> anc C k x -> rootc C k.
Proof. intros Hp Hx H. induction H as [|e p y Hin Hk Hap IH]; [exact Hx|]. apply IH, (Hp e p Hin). Qed.

Lemma rootc_mono C C' k : incl C C' -> rootc C k -> rootc C' k.
Proof. intros Hi [->|H]; [left; reflexivity|right; eapply created_mono; eauto]. Qed.

Lemma rootc_zero C k : chain_ok C -> rootc C k -> fst k = 0 -> k = (0, 0).
Proof. intros HC [->|H] E; [reflexivity|]. pose proof (created_pos C k HC H). lia. Qed.

Lemma rootc_pos C k : chain_ok C -> rootc C k -> 1 <= fst k -> created C k.
Proof. intros HC [->|H] E; [simpl in E; lia|exact H]. Qed.

Lemma anc_root_all C : chain_ok C -> pclosed C -> forall k, rootc C k -> anc C (0, 0) k.
Proof.
  intros HC Hp k. remember (fst k) as i eqn:Ei. revert k Ei.
  induction i as [i IH] using (well_founded_induction N.lt_wf_0). intros k Ei [->|(x & p & Hx & Ex)]; [apply anc_refl|].
  destruct (co_idx C HC x p Hx) as [Hi _].
  eapply anc_up; [exact Hx|exact Ex|]. apply (IH (fst p)); [|reflexivity|apply Hp with x; exact Hx].
  subst i. rewrite <- Ex. unfold key. simpl. lia.
Qed.

(* the snapshot boundary; lastSnapshotTerm is meaningless while lastSnapshotIndex is 0 *)
Definition bk (s : nstate) : N * N := (v_lastSnapIdx s, if v_lastSnapIdx s =? 0 then 0 else v_lastSnapTerm s).

Lemma bk_fst s : fst (bk s) = v_lastSnapIdx s.
Proof. reflexivity. Qed.

Lemma bk_pos s : v_lastSnapIdx s <> 0 -> bk s = (v_lastSnapIdx s, v_lastSnapTerm s).
Proof. intros H. unfold bk. destruct (N.eqb_spec (v_lastSnapIdx s) 0); [contradiction|reflexivity]. Qed.

Lemma bk_zero s : v_lastSnapIdx s = 0 -> bk s = (0, 0).
Proof. intros H. unfold bk. rewrite H. reflexivity. Qed.

Lemma bk_ext s s' : v_lastSnapIdx s' = v_lastSnapIdx s -> v_lastSnapTerm s' = v_lastSnapTerm s -> bk s' = bk s.
Proof. intros H1 H2. unfold bk. rewrite H1, H2. reflexivity. Qed.

(* What the one walk through the handlers for the shape (Proofs/ClusterCommitSnapNode3.v) asks of whoever uses it, beyond the
   shape itself.  takeSnapshot: what the FSM goroutine reports is a created key of the server's branch at or above the
   boundary.  A delivered request: it lies on one branch with the boundary.  The commit proof has both from Leader
   Completeness (committed keys), the Log Matching proof from the common history (Proofs/ClusterLogSnapNode.v s_fsm, s_cmp). *)
Definition fsm_on_branch (C : chain) (s : nstate) : Prop := fst (v_fsmLast s) <> 0 ->
  created C (v_fsmLast s) /\ snd (v_fsmLast s) <= d_term s /\ anc C (v_fsmLast s) (last_entry s) /\
  v_lastSnapIdx s <= fst (v_fsmLast s).
Definition on_bk_branch (C : chain) (s : nstate) (a : areq) : Prop := forall k, anc C k (key (last_of (aq_entries a))) ->
  (fst k <= v_lastSnapIdx s -> anc C k (bk s)) /\ (v_lastSnapIdx s <= fst k -> anc C (bk s) k).

Definition sk (sn : snapshot) : N * N := (sn_idx sn, sn_term sn).
(* getLastEntry *)
Definition lk (tk b : N * N) : N * N := if fst b <=? fst tk then tk else b.

Lemma last_entry_lk s : last_entry s = lk (topk s) (bk s).
Proof.
  unfold last_entry, lk, topk. simpl. destruct (N.leb_spec (v_lastSnapIdx s) (v_lastLogIdx s)); [reflexivity|].
  rewrite bk_pos by lia. reflexivity.
Qed.

Lemma last_index_lk s : last_index s = fst (lk (topk s) (bk s)).
Proof. unfold last_index, lk, topk. simpl. destruct (N.leb_spec (v_lastSnapIdx s) (v_lastLogIdx s)); simpl; lia. Qed.

Record zshape (C : chain) (T : N) (m : gmap N entry) (sns : list snapshot) (tk b : N * N) : Prop := {
  zs_in : log_in C m T;
  zs_below : log_below C m tk;
  zs_tk : rootc C tk;
  zs_tkt : snd tk <= T;
  zs_b : rootc C b;
  zs_bt : snd b <= T;
  zs_le : fst b <= fst tk -> anc C b tk;
  zs_gt : fst tk < fst b -> anc C tk b;
  zs_seg : forall i, fst b < i -> i <= fst tk -> is_Some (m !! i);
  zs_sn : forall sn, In sn sns -> sn_ok sn = true /\ created C (sk sn) /\ sn_term sn <= T /\ anc C (sk sn) b;
  zs_has : fst b = 0 \/ exists sn, In sn sns /\ sk sn = b;
}.
Arguments zs_in {C T m sns tk b}.
Arguments zs_below {C T m sns tk b}.
Arguments zs_tk {C T m sns tk b}.
Arguments zs_tkt {C T m sns tk b}.
Arguments zs_b {C T m sns tk b}.
Arguments zs_bt {C T m sns tk b}.
Arguments zs_le {C T m sns tk b}.
Arguments zs_gt {C T m sns tk b}.
Arguments zs_seg {C T m sns tk b}.
Arguments zs_sn {C T m sns tk b}.
Arguments zs_has {C T m sns tk b}.

Record zimgS (C : chain) (T : N) (m : gmap N entry) (sns : list snapshot) : Prop := {
  zi_in : log_in C m T;
  zi_top : exists top, log_below C m top /\ forall sn, In sn sns -> anc C (sk sn) top;
  zi_sn : forall sn, In sn sns -> sn_ok sn = true /\ created C (sk sn) /\ sn_term sn <= T;
  zi_seg : forall i, 1 <= i -> (forall sn, In sn sns -> sn_idx sn < i) -> i <= log_last m -> is_Some (m !! i);
}.

Definition zup (C : chain) (s : nstate) : Prop := zshape C (d_term s) (d_log s) (d_snaps s) (topk s) (bk s).
Definition zimg (C : chain) (s : nstate) : Prop := zimgS C (d_term s) (d_log s) (d_snaps s).
Definition znlog (C : chain) (r : nrun) : Prop := match r with Up s => zup C s | Down s => zimg C s end.

Lemma zshape_mono C C' T T' m sns tk b : incl C C' -> T <= T' -> zshape C T m sns tk b -> zshape C' T' m sns tk b.
Proof.
  intros Hi Ht [A B D E F G H I J K L]. constructor.
  - eapply log_in_mono; [exact Hi|]. eapply log_in_sub; [apply log_sub_refl|exact Ht|exact A].
  - eapply log_below_mono; eauto.
  - eapply rootc_mono; eauto.
  - lia.
  - eapply rootc_mono; eauto.
  - lia.
  - intros X. eapply anc_mono; eauto.
  - intros X. eapply anc_mono; eauto.
  - exact J.
  - intros sn Hsn. destruct (K sn Hsn) as (K1 & K2 & K3 & K4). split; [exact K1|]. split; [eapply created_mono; eauto|].
    split; [lia|eapply anc_mono; eauto].
  - exact L.
Qed.

Lemma zimgS_mono C C' T T' m sns : incl C C' -> T <= T' -> zimgS C T m sns -> zimgS C' T' m sns.
Proof.
  intros Hi Ht [A (top & B1 & B2) D E]. constructor.
  - eapply log_in_mono; [exact Hi|]. eapply log_in_sub; [apply log_sub_refl|exact Ht|exact A].
  - exists top. split; [eapply log_below_mono; eauto|]. intros sn Hsn. eapply anc_mono; eauto.
  - intros sn Hsn. destruct (D sn Hsn) as (D1 & D2 & D3). split; [exact D1|]. split; [eapply created_mono; eauto|lia].
  - exact E.
Qed.

Lemma znlog_mono C C' r : incl C C' -> znlog C r -> znlog C' r.
Proof. intros Hi. destruct r as [s|s]; simpl; [apply zshape_mono|apply zimgS_mono]; auto; lia. Qed.

Section Shape.
  Variable C : chain.
  Hypothesis HC : chain_ok C.
  Variables (T : N) (m : gmap N entry) (sns : list snapshot) (tk b : N * N).
  Hypothesis HS : zshape C T m sns tk b.

  Lemma zshape_bound i x : m !! i = Some x -> i <= fst tk.
  Proof.
    intros Hx. destruct (zs_in HS i x Hx) as (Hi & _).
    destruct (anc_le C _ _ HC (zs_below HS i x Hx)) as [H _]. unfold key in H. simpl in H. lia.
  Qed.

  Lemma zshape_cache i : fst tk < i -> m !! i = None.
  Proof. intros Hi. destruct (m !! i) as [x|] eqn:E; [|reflexivity]. pose proof (zshape_bound i x E). lia. Qed.

  Lemma zshape_tk_lk : anc C tk (lk tk b).
  Proof. unfold lk. destruct (N.leb_spec (fst b) (fst tk)); [apply anc_refl|apply (zs_gt HS); assumption]. Qed.

  Lemma zshape_b_lk : anc C b (lk tk b).
  Proof. unfold lk. destruct (N.leb_spec (fst b) (fst tk)); [apply (zs_le HS); assumption|apply anc_refl]. Qed.

  Lemma zshape_log_lk i x : m !! i = Some x -> anc C (key x) (lk tk b).
  Proof. intros Hx. eapply anc_trans; [apply (zs_below HS i x Hx)|apply zshape_tk_lk]. Qed.

  Lemma zshape_sn_lk sn : In sn sns -> anc C (sk sn) (lk tk b).
  Proof. intros Hsn. destruct (zs_sn HS sn Hsn) as (_ & _ & _ & H). eapply anc_trans; [exact H|apply zshape_b_lk]. Qed.

  Lemma zshape_lk_root : rootc C (lk tk b).
  Proof. unfold lk. destruct (fst b <=? fst tk); [apply (zs_tk HS)|apply (zs_b HS)]. Qed.

  Lemma zshape_log_b i x : m !! i = Some x -> (i <= fst b -> anc C (key x) b) /\ (fst b <= i -> anc C b (key x)).
  Proof.
    intros Hx. destruct (zs_in HS i x Hx) as (Hi & _).
    split; intros Hle.
    - apply (anc_linear C (key x) b (lk tk b) HC (zshape_log_lk i x Hx) zshape_b_lk). unfold key. simpl. lia.
    - apply (anc_linear C b (key x) (lk tk b) HC zshape_b_lk (zshape_log_lk i x Hx)). unfold key. simpl. lia.
  Qed.

  Lemma zshape_holds k : anc C k tk -> fst b < fst k -> holds m k.
  Proof.
    intros Ha Hlt. destruct (anc_le C k tk HC Ha) as [Hle _].
    destruct (zs_seg HS (fst k) Hlt Hle) as [x Hx]. exists x. split; [exact Hx|].
    destruct (zs_in HS _ x Hx) as (Hi & _).
    apply (anc_unique C (key x) k tk HC (zs_below HS _ x Hx) Ha). unfold key. simpl. exact Hi.
  Qed.

  Lemma zshape_img : zimgS C T m sns.
  Proof.
    constructor.
    - apply (zs_in HS).
    - exists (lk tk b). split; [intros i x Hx; apply (zshape_log_lk i x Hx)|apply zshape_sn_lk].
    - intros sn Hsn. destruct (zs_sn HS sn Hsn) as (A & B & D & _). auto.
    - intros i Hi Hall Hl. apply (zs_seg HS).
      + destruct (zs_has HS) as [E|(sn & Hsn & E)]; [lia|]. rewrite <- E. apply (Hall sn Hsn).
      + destruct (log_last_in m) as [E0|(e & He)]; [lia|]. apply (zshape_bound _ e) in He. lia.
  Qed.
End Shape.

(* the shape reads the term, the two stores, the cached last entry and the boundary *)
Lemma zup_lkeep C s s' : zup C s -> lkeep s' s -> v_lastSnapTerm s' = v_lastSnapTerm s -> d_term s <= d_term s' -> zup C s'.
Proof.
  intros H (K1 & K2 & K3 & K4 & K5) K6 Ht. unfold zup, topk in *. rewrite K1, K2, K3, K4, (bk_ext s s' K5 K6).
  eapply zshape_mono; [apply incl_refl|exact Ht|exact H].
Qed.

Lemma zup_img C s : chain_ok C -> zup C s -> zimg C s.
Proof. intros HC H. apply (zshape_img C HC _ _ _ _ _ H). Qed.

Lemma znlog_image C r : chain_ok C -> znlog C r -> zimg C (image r).
Proof. intros HC. destruct r as [s|s]; simpl; [apply zup_img, HC|auto]. Qed.

Lemma zup_cache_ok C s : chain_ok C -> zup C s -> AppendProofs.cache_ok s.
Proof. intros HC H i Hi. apply (zshape_cache C HC _ _ _ _ _ H i Hi). Qed.
