(* ClusterCommitSnapCut.v — a crash image taken without snapshot info satisfies the durable node invariant if
   every prefix of the handler's (term, log) writes leaves one that does. *)
From Coq Require Import List NArith Bool Lia.
From stdpp Require Import gmap.
From RaftModel Require Import Node NodeCodec.
From RaftProofs Require Import ClusterLogCut ClusterLogVote ClusterCommitSnapLog.
Open Scope N_scope.

(* without snapshot info: the image is a prefix of the (term, log) operations, the snapshot store is untouched *)
Lemma cut_none_zimg C P s tr k :
  (forall j, let d := fold_left tl_apply (firstn j (tlf tr)) (tlp s) in zimgS C (fst d) (snd d) (d_snaps s)) ->
  zimg C (cut_image P None s tr k).
Proof.
  intros H. destruct (cut_image_d P None tr s k) as (j & Hj).
  destruct (image_tl P s tr j) as (Es & j' & Ej). cbv zeta in Es, Ej. rewrite <- Hj in Es, Ej.
  specialize (H j'). cbv zeta in H. rewrite <- Ej in H. unfold zimg.
  change (d_snaps (cut_image P None s tr k)) with (di_snaps (dpr (cut_image P None s tr k))). rewrite Es. exact H.
Qed.
