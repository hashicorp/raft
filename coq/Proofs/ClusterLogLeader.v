(* ClusterLogLeader.v — the leader side at node level: dispatchLogs of one entry (also the no-op of
   a new leader) in one statement for every proof above (dispatch_one_cases: the server stepped down, quit_leader, or
   stored the entry, appended; dispatch_one_ls: commitment and in-flight list), the ghost history extended by the new
   entry, and the entries a request is built from. *)
From Coq Require Import List NArith Bool Lia.
From stdpp Require Import gmap.
From RaftModel Require Import Base Commitment Node Leader Replicate Cluster.
From RaftProofs Require Import NodeFrame VoteProofs LeaderProofs ClusterLogSpec ClusterLogChain ClusterLogNode ClusterLogVote.
Open Scope N_scope.

Definition new_entry (s : nstate) (ty data : N) : entry := mkE (last_index s + 1) (v_term s) ty data.

(* StoreLogs failed: the server has stepped down; the staged commit index may already be written (st) *)
Definition quit_leader (s : nstate) (st : N) : nstate := set_state (set_log s (d_log s) st (d_pcommit s)) Follower.

Lemma quit_leader_lkeep s st : lkeep (quit_leader s st) s.
Proof. repeat split. Qed.

(* StoreLogs stored the entry e after the last entry *)
Section Appended.
  Context {P : params} {s s' : nstate} {e : entry}.
  Record appended : Prop := {
    ap_dproj : dproj s' = dproj s;
    ap_term : v_term s' = v_term s;
    ap_snaps : d_snaps s' = d_snaps s;
    ap_snapIdx : v_lastSnapIdx s' = v_lastSnapIdx s;
    ap_log : d_log s' = log_store (d_log s) [e];
    ap_lastIdx : v_lastLogIdx s' = last_index s + 1;
    ap_lastTerm : v_lastLogTerm s' = v_term s;
    ap_fsmLast : v_fsmLast s' = v_fsmLast s;
    ap_commit : v_commit s' = v_commit s;
    ap_applied : v_applied s' = v_applied s;
    ap_latest : v_latest s' = v_latest s;
    ap_committed : v_committed s' = v_committed s;
    ap_snapTerm : v_lastSnapTerm s' = v_lastSnapTerm s;
    ap_pcommit : d_pcommit s' = (if p_track P then v_commit s else d_pcommit s);
    ap_staged : d_staged s' = (if p_track P then v_commit s else d_staged s);
    ap_role : v_role s' = v_role s
  }.
End Appended.
Arguments appended : clear implicits.

Lemma ap_dterm {P s s' e} : appended P s s' e -> d_term s' = d_term s.
Proof. intros H. apply (dproj_eq _ _ (ap_dproj H)). Qed.

Lemma dispatch_one_cases P s fs ty data fid :
  let s' := l_node (fst (fst (fst (dispatch P (leader_setup s) fs [(ty, data, fid)])))) in
  if fst (next_fail fs) then s' = quit_leader s (if p_track P then v_commit s else d_staged s)
  else appended P s s' (new_entry s ty data).
Proof.
  cbv zeta. unfold quit_leader. rewrite dispatch_spec. cbv zeta.
  cbn [l_node leader_setup number_logs map fst]. fold (new_entry s ty data).
  unfold do_stage. destruct (fst (next_fail fs)); [|constructor]; destruct (p_track P); reflexivity.
Qed.

(* whatever the commitment and the in-flight list, the server afterwards is that one; the leader counts itself in the
   commitment if the entry was stored *)
Lemma dispatch_one_ls P s cm infl fs ty data fid :
  fst (fst (fst (dispatch P (mkLS s cm infl) fs [(ty, data, fid)]))) =
    mkLS (l_node (fst (fst (fst (dispatch P (leader_setup s) fs [(ty, data, fid)])))))
         (if fst (next_fail fs) then cm else cm_step cm (CMatch (p_self P) (last_index s + 1))) (infl ++ [(new_entry s ty data, fid)]).
Proof.
  rewrite !dispatch_spec. cbv zeta. cbn [l_node l_cm l_inflight leader_setup number_logs map fst]. fold (new_entry s ty data).
  destruct (fst (next_fail fs)); reflexivity.
Qed.

(* runLeader's no-op is this without a failure *)
Lemma become_leader_appended P s : appended P s (become_leader P s) (new_entry s LogNoop 0).
Proof. apply (dispatch_one_cases P s [] LogNoop 0 0). Qed.

Lemma log_store_one m e i : log_store m [e] !! i = if e_idx e =? i then Some e else m !! i.
Proof.
  unfold log_store. simpl. destruct (N.eqb_spec (e_idx e) i) as [->|Hne].
  - apply lookup_insert.
  - apply lookup_insert_ne. exact Hne.
Qed.

Lemma chain_ok_cons C e p : chain_ok C ->
  (forall x q, In (x, q) C -> key x <> key e) ->
  e_idx e = fst p + 1 -> snd p <= e_term e -> (fst p = 0 -> p = (0, 0)) ->
  chain_ok ((e, p) :: C).
Proof.
  intros [Hf Hi Hz] Hnew H1 H2 H3. constructor.
  - intros a pa b pb [Ea|Ha] [Eb|Hb] Hk.
    + inversion Ea; inversion Eb; subst. auto.
    + inversion Ea; subst. exfalso. apply (Hnew b pb Hb). symmetry. exact Hk.
    + inversion Eb; subst. exfalso. apply (Hnew a pa Ha). exact Hk.
    + apply (Hf a pa b pb Ha Hb Hk).
  - intros a pa [Ea|Ha]; [inversion Ea; subst; auto|apply (Hi a pa Ha)].
  - intros a pa [Ea|Ha]; [inversion Ea; subst; auto|apply (Hz a pa Ha)].
Qed.

(* the entry a leader creates after getLastEntry is new when its own entries lie at or below its cached last index *)
Lemma new_entry_chain C s ty data : chain_ok C ->
  (forall x p, In (x, p) C -> e_term x = v_term s -> e_idx x <= v_lastLogIdx s) ->
  fst (last_entry s) = last_index s -> snd (last_entry s) <= v_term s -> (fst (last_entry s) = 0 -> last_entry s = (0, 0)) ->
  chain_ok ((new_entry s ty data, last_entry s) :: C).
Proof.
  intros HC Hown H1 H2 H3. apply chain_ok_cons; auto.
  - intros x q Hx Hkey. unfold key in Hkey. inversion Hkey as [[K1 K2]].
    pose proof (Hown x q Hx K2). unfold last_index in K1. lia.
  - rewrite H1. reflexivity.
Qed.

(* consecutive stored entries of one branch are consecutive elements of the history, after p: the root, or a key of
   the branch just before them *)
Lemma get_range_mchainS C m dt top : chain_ok C -> log_in C m dt -> log_below C m top ->
  forall n from es p, get_range m from n = Some es ->
  ((p = (0, 0) /\ from = 1) \/ (anc C p top /\ fst p + 1 = from)) ->
  mchain C p es /\ forall e, In e es -> e_term e <= dt.
Proof.
  intros HC Hin Hbel. induction n as [|n IH]; intros from es p Hg Hp; simpl in Hg.
  - inversion Hg; subst. split; [exact I|intros e []].
  - destruct (m !! from) as [e|] eqn:Ee; [|discriminate].
    destruct (get_range m (from + 1) n) as [r|] eqn:Er; [|discriminate]. inversion Hg; subst es. clear Hg.
    destruct (Hin from e Ee) as (Hk & (p0 & Hp0) & Ht).
    destruct (co_idx C HC e p0 Hp0) as [Hi0 _].
    assert (p0 = p).
    { destruct Hp as [[-> ->]|[Ha Hf]].
      - apply (co_zero C HC e p0 Hp0). lia.
      - symmetry. apply (anc_pred C p e p0 HC Hp0); [|lia].
        apply (anc_linear C p (key e) top HC Ha (Hbel _ e Ee)). unfold key. simpl. lia. }
    subst p0.
    destruct (IH (from + 1) r (key e) Er) as [I1 I2].
    { right. split; [apply (Hbel _ e Ee)|unfold key; simpl; lia]. }
    split; [simpl; auto|]. intros x [<-|Hx]; [exact Ht|apply I2, Hx].
Qed.

Lemma get_range_in (m : gmap N entry) n : forall from es e, get_range m from n = Some es -> In e es -> exists i, m !! i = Some e.
Proof.
  induction n as [|n IH]; intros from es e H He; simpl in H; [inversion H; subst; contradiction|].
  destruct (m !! from) as [x|] eqn:Ex; [|discriminate]. destruct (get_range m (from + 1) n) as [r|] eqn:Er; [|discriminate].
  inversion H; subst es. destruct He as [<-|He]; [eauto|apply (IH _ _ e Er He)].
Qed.
