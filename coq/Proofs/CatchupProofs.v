(* Catch-up makes progress (C12, follower side), read off NodeFrame.is_body_spec: a follower that has installed the
   leader's snapshot passes the previous-entry check of the AppendEntries that follows it, whatever stale, divergent
   or compacted log it held before. *)
From Coq Require Import List NArith Bool Lia.
From stdpp Require Import gmap.
From RaftModel Require Import Base Compaction Node.
From RaftProofs Require Import NodeFrame.
Open Scope N_scope.

Definition cache_consistent (s : nstate) : Prop :=
  0 < v_lastLogIdx s -> exists e, d_log s !! v_lastLogIdx s = Some e /\ e_term e = v_lastLogTerm s.

(* state right after a successful InstallSnapshot with no store failure *)
Lemma is_body_post P s2 rt tr1 q s' r tr fs' :
  cache_consistent s2 -> 0 < iq_lastIdx q ->
  is_body P s2 rt tr1 [] q = Done s' r tr fs' -> snd (fst r) = true ->
  v_lastSnapIdx s' = iq_lastIdx q /\ v_lastSnapTerm s' = iq_lastTerm q /\
  (v_lastLogIdx s' = iq_lastIdx q -> v_lastLogTerm s' = iq_lastTerm q).
Proof.
  intros Hcc Hpos Hb Hsucc. destruct (is_body_spec P s2 rt tr1 [] q) as (s1 & r1 & t1 & f1 & E & _ & Hs).
  rewrite Hb in E. injection E as <- <- _ _.
  destruct Hs as [[_ ->]|(_ & m' & [(-> & _ & [[]|[_ Hst]])|[-> _]])]; [discriminate| |].
  - (* cached last entry kept: the log follows the snapshot at its index *)
    split; [reflexivity|]. split; [reflexivity|]. cbn. intros E. unfold stale_tail in Hst. rewrite <- E in Hst at 1.
    rewrite N.leb_refl in Hst. destruct (Hcc ltac:(lia)) as (e & He & Hte). rewrite <- E, He in Hst.
    apply negb_false_iff, N.eqb_eq in Hst. congruence.
  - split; [reflexivity|]. split; [reflexivity|]. cbn. lia.
Qed.

(* ... hence the AppendEntries that follows the snapshot passes the previous-entry check *)
Theorem snapshot_then_append_accepted P s2 rt tr1 q s' r tr fs' a :
  cache_consistent s2 ->
  is_body P s2 rt tr1 [] q = Done s' r tr fs' -> snd (fst r) = true ->
  aq_prevIdx a = iq_lastIdx q -> aq_prevTerm a = iq_lastTerm q ->
  forall s'', last_entry s'' = last_entry s' -> v_lastSnapIdx s'' = v_lastSnapIdx s' ->
              v_lastSnapTerm s'' = v_lastSnapTerm s' ->
  prev_check s'' a = Some true.
Proof.
  intros Hcc Hb Hsucc Hpi Hpt s'' Hle Hsi Hst.
  unfold prev_check. destruct (N.ltb_spec 0 (aq_prevIdx a)) as [Hpos|]; [|reflexivity].
  destruct (is_body_post P s2 rt tr1 q s' r tr fs' Hcc ltac:(lia) Hb Hsucc) as (A & B & C).
  rewrite Hle. unfold last_entry.
  destruct (v_lastSnapIdx s' <=? v_lastLogIdx s') eqn:G.
  - destruct (N.eqb_spec (aq_prevIdx a) (v_lastLogIdx s')) as [Eq|Ne].
    + rewrite Hpt, C by congruence. rewrite N.eqb_refl. reflexivity.
    + rewrite Hsi, A, Hpi, N.eqb_refl, Hst, B, Hpt, N.eqb_refl. reflexivity.
  - rewrite A, Hpi, N.eqb_refl, B, Hpt, N.eqb_refl. reflexivity.
Qed.
