(* ClusterLogExample.v — non-vacuity of linit_ok and linit_snap_ok: every initial state the correspondence driver
   (ClusterLog.run_clusterlog) builds from Cluster.mk_node satisfies linit_snap_ok for every c0 up to the shortest log,
   also after a per-server change that keeps node_init_snap (mk_nodes_linit_snap); linit_ok is the case c0 = 0; in
   particular the state for 3 servers with 0, 1 and 2 extra entries. *)
From Coq Require Import List NArith Bool Lia FinFun.
From stdpp Require Import gmap.
From RaftModel Require Import Base Config Node NodeCodec Cluster ClusterLog.
From RaftProofs Require Import VoteProofs AppendProofs RecoverProofs ClusterLogSpec ClusterLogNode ClusterLogSnapSpec
  ClusterLogSnapBoot.
Open Scope N_scope.

Lemma firstn_seq_le a : forall s b, (a <= b)%nat -> firstn a (seq s b) = seq s a.
Proof.
  induction a as [|a IH]; intros s b H; [reflexivity|]. destruct b as [|b]; [lia|].
  simpl. f_equal. apply IH. lia.
Qed.

Lemma nth_error_firstn_lt {A} (l : list A) : forall k i, (i < k)%nat -> nth_error (firstn k l) i = nth_error l i.
Proof.
  induction l as [|x r IH]; intros k i H; destruct k as [|k]; try lia; [destruct i; reflexivity|].
  destruct i as [|i]; [reflexivity|]. simpl. apply IH. lia.
Qed.

(* the checker idiom of the counterexample files: a boolean test computed on the result of a run *)
Lemma opt_witness {A} (o : option A) (chk : A -> bool) :
  match o with Some x => chk x | None => false end = true -> exists x, o = Some x /\ chk x = true.
Proof. destruct o as [x|]; [|discriminate]. intros H. exists x. auto. Qed.

Lemma hist_ok_firstn es : forall prev k, hist_ok prev es -> hist_ok prev (firstn k es).
Proof.
  induction es as [|e r IH]; intros prev k H; destruct k; simpl in *; auto.
  destruct H as (A & B & D). auto.
Qed.

Lemma hist_contig es : forall prev, hist_ok prev es -> contig (fst prev) es.
Proof.
  induction es as [|e r IH]; intros prev H; simpl in *; [exact I|].
  destruct H as (A & _ & D). split; [exact A|]. specialize (IH _ D). unfold key in IH. simpl in IH.
  rewrite A in IH. exact IH.
Qed.

Lemma log_store_hist es : hist_ok (0, 0) es -> forall i,
  log_store ∅ es !! i = if (1 <=? i) && (i <=? N.of_nat (length es)) then nth_error es (N.to_nat (i - 1)) else None.
Proof.
  intros Hh i. rewrite log_store_lookup.
  destruct (find_last i es) as [e|] eqn:F.
  - apply find_last_In in F. destruct F as [F1 F2].
    apply In_nth_error in F1. destruct F1 as [k Hk].
    pose proof (hist_idx _ _ Hh k e Hk) as Hi. simpl in Hi.
    assert (k < length es)%nat by (apply nth_error_Some; congruence).
    destruct (N.leb_spec 1 i); [|lia]. destruct (N.leb_spec i (N.of_nat (length es))); [|lia]. simpl.
    replace (N.to_nat (i - 1)) with k by lia. symmetry. exact Hk.
  - rewrite lookup_empty.
    destruct (N.leb_spec 1 i); [|reflexivity]. destruct (N.leb_spec i (N.of_nat (length es))); [|reflexivity]. simpl.
    destruct (nth_error es (N.to_nat (i - 1))) as [e|] eqn:E; [|reflexivity]. exfalso.
    pose proof (hist_idx _ _ Hh _ e E) as Hi. simpl in Hi.
    apply (find_last_None i es F e); [eapply nth_error_In; eauto|lia].
Qed.

Lemma log_prefix_store base k : hist_ok (0, 0) base -> (k <= length base)%nat ->
  log_prefix base k (log_store ∅ (firstn k base)).
Proof.
  intros Hh Hk. split; [exact Hk|]. intros i.
  rewrite (log_store_hist _ (hist_ok_firstn base (0, 0) k Hh)). rewrite firstn_length_le by exact Hk.
  destruct (N.leb_spec 1 i); [|reflexivity]. destruct (N.leb_spec i (N.of_nat k)); [|reflexivity]. simpl.
  apply nth_error_firstn_lt. lia.
Qed.

Lemma prefix_keys_ok base k m : hist_ok (0, 0) base -> log_prefix base k m -> keys_ok m.
Proof.
  intros Hh Hp i e Hl. destruct (prefix_lookup base k m i e Hp Hl) as [Hi Hn].
  rewrite (hist_idx _ _ Hh _ e Hn). simpl. lia.
Qed.

Lemma prefix_log_last base k m : log_prefix base k m -> log_last m = N.of_nat k.
Proof.
  intros Hp. assert (Hle : log_last m <= N.of_nat k).
  { destruct (log_last_in m) as [E|(e & He)]; [lia|]. apply (prefix_lookup base k m _ e Hp He). }
  destruct k as [|k']; [lia|]. destruct (prefix_some base (S k') m (N.of_nat (S k')) Hp ltac:(lia)) as [eL Hl].
  pose proof (log_last_ge m _ eL Hl). lia.
Qed.

Lemma boot_node_init base k P img : hist_ok (0, 0) base -> (k <= length base)%nat ->
  d_log img = log_store ∅ (firstn k base) -> d_snaps img = [] -> wfd img ->
  (forall e, In e base -> e_term e <= d_term img) ->
  wfr (fst (boot P img)) /\ node_init base (mkGN P (fst (boot P img)) None 0).
Proof.
  intros Hh Hk Hlog Hsn Hwd Hterm.
  pose proof (log_prefix_store base k Hh Hk) as Hp. rewrite <- Hlog in Hp.
  destruct (boot P img) as [r out] eqn:EB. simpl fst.
  destruct (boot_spec P img r out Hwd EB) as [Hw Hd]. split; [exact Hw|].
  destruct (boot_cases _ _ _ _ EB) as [(s & tr & ER & ->)| ->]; clear EB;
    [|split; [exact Hsn|]; split; [exact Hterm|]; exists k; split; [exact Hp|exact I]].
  apply recover_ok in ER; [|eapply prefix_keys_ok; eauto].
  destruct ER as ((Dt & _ & _ & Dl & _ & _ & Ds) & _ & Hrole & Hli & Hlt & Hsnap & _).
  rewrite Hsn in Hsnap. change (find sn_ok (list_snaps [])) with (@None snapshot) in Hsnap. destruct Hsnap as [Hsi _].
  unfold node_init. cbn [gn_run image]. rewrite Ds, Dt, Dl.
  split; [exact Hsn|]. split; [exact Hterm|]. exists k. split; [exact Hp|].
  split; [rewrite Hrole; discriminate|]. split; [exact Hsi|].
  rewrite (prefix_log_last base k _ Hp) in Hli, Hlt.
  destruct k as [|k'].
  - simpl in Hlt. simpl. rewrite Hli, Hlt. reflexivity.
  - destruct (N.ltb_spec 0 (N.of_nat (S k'))) as [_|Hc]; [|lia].
    destruct Hlt as (e & He & Hlt). destruct (prefix_lookup base (S k') _ _ e Hp He) as [_ Hn].
    replace (N.to_nat (N.of_nat (S k') - 1)) with k' in Hn by lia.
    unfold last_key. rewrite Hn. unfold key. rewrite Hli, Hlt.
    rewrite (hist_idx _ _ Hh _ e Hn). simpl. f_equal. lia.
Qed.

Lemma voters_mk_cfg n : voters (mk_cfg n) = map N.of_nat (seq 1 n).
Proof.
  unfold voters, mk_cfg. generalize 1%nat. induction n as [|n IH]; intros a; simpl; [reflexivity|].
  f_equal. apply IH.
Qed.

Lemma nodup_voters_mk_cfg n : NoDup (voters (mk_cfg n)).
Proof. rewrite voters_mk_cfg. apply Injective_map_NoDup; [intros a b; apply Nat2N.inj|apply seq_NoDup]. Qed.

Definition mk_entries (a : nat) : list entry :=
  mkE 1 1 LogConfiguration 1 :: map (fun k => mkE (N.of_nat k) 1 LogCommand (100 + N.of_nat k)) (seq 2 a).

Lemma hist_ok_cmds a : forall s,
  hist_ok (N.of_nat s, 1) (map (fun k => mkE (N.of_nat k) 1 LogCommand (100 + N.of_nat k)) (seq (S s) a)).
Proof.
  induction a as [|a IH]; intros s; [exact I|].
  change (seq (S s) (S a)) with (S s :: seq (S (S s)) a). cbn [map hist_ok e_idx e_term fst snd].
  split; [lia|]. split; [lia|]. apply (IH (S s)).
Qed.

Lemma mk_entries_hist a : hist_ok (0, 0) (mk_entries a).
Proof.
  unfold mk_entries. cbn [hist_ok e_idx e_term fst snd]. split; [reflexivity|]. split; [lia|].
  apply (hist_ok_cmds a 1).
Qed.

Lemma mk_entries_firstn a b : (a <= b)%nat -> firstn (S a) (mk_entries b) = mk_entries a.
Proof.
  intros H. unfold mk_entries. cbn [firstn]. f_equal. rewrite firstn_map, firstn_seq_le by exact H. reflexivity.
Qed.

Lemma mk_entries_length a : length (mk_entries a) = S a.
Proof. unfold mk_entries. cbn [length]. rewrite map_length, seq_length. reflexivity. Qed.

Lemma mk_entries_term a e : In e (mk_entries a) -> e_term e = 1.
Proof.
  unfold mk_entries. intros [<-|H]; [reflexivity|]. apply in_map_iff in H. destruct H as (k & <- & _). reflexivity.
Qed.

Lemma nodup_fst_combine {A B} (l : list A) : forall (l' : list B), NoDup l -> NoDup (map fst (combine l l')).
Proof.
  induction l as [|a r IH]; intros l' H; [constructor|]. destruct l' as [|b r']; [constructor|].
  inversion H as [|? ? Ha Hr]; subst. simpl. constructor; [|apply IH, Hr].
  intros Hin. apply Ha. apply in_map_iff in Hin. destruct Hin as ([a' b'] & E & Hin). simpl in E. subst a'.
  apply in_combine_l in Hin. exact Hin.
Qed.

Lemma max_ge l : forall x, In x l -> (x <= fold_right Nat.max 0%nat l)%nat.
Proof.
  induction l as [|y r IH]; intros x Hx; [contradiction|]. destruct Hx as [<-|H]; simpl; [lia|].
  specialize (IH x H). lia.
Qed.

Lemma boot_node_init_snap base k c0 P img : hist_ok (0, 0) base -> (k <= length base)%nat ->
  d_log img = log_store ∅ (firstn k base) -> d_snaps img = [] -> wfd img ->
  (forall e, In e base -> e_term e <= d_term img) ->
  d_pcommit img = 0 -> d_staged img = 0 -> c0 <= N.of_nat k ->
  wfr (fst (boot P img)) /\ node_init_snap base c0 (mkGN P (fst (boot P img)) None 0).
Proof.
  intros Hh Hk Hlog Hsn Hwd Hterm Hpc Hst Hc0.
  destruct (boot_node_init base k P img Hh Hk Hlog Hsn Hwd Hterm) as [Hw Hni]. split; [exact Hw|].
  split; [exact Hni|].
  pose proof (log_prefix_store base k Hh Hk) as Hp. rewrite <- Hlog in Hp.
  assert (Hent : c0 = 0 \/ exists e, d_log img !! c0 = Some e).
  { destruct (N.eq_dec c0 0) as [E|Hne]; [left; exact E|right]. apply (prefix_some base k _ c0 Hp). lia. }
  cbn [gn_run]. unfold boot. destruct (recover P img) as [s tr| | |] eqn:ER; cbn [fst image];
    try (split; [exact Hent|]; split; [lia|]; split; [lia|exact I]).
  pose proof (recover_apply P img s tr ER) as Happ. cbv zeta in Happ.
  apply recover_ok in ER; [|eapply prefix_keys_ok; eauto].
  destruct ER as ((_ & _ & _ & Dl & Dstg & Dpc & Ds) & _).
  rewrite Dl, Dpc, Dstg. split; [exact Hent|]. split; [lia|]. split; [lia|].
  destruct Happ as [(A1 & A2 & A3)|(s3 & s4 & tr4 & L3 & A3 & F3 & C3 & EP & C4 & A4 & F4)].
  - rewrite A1, A3. simpl. split; [lia|]. split; [left; reflexivity|lia].
  - rewrite Hpc in C3, EP. rewrite N.min_0_l in C3, EP.
    unfold process_logs in EP. destruct (N.leb_spec 0 (v_applied s3)) as [_|Hc]; [|lia].
    inversion EP; subst s4 tr4. rewrite C4, F4, C3, F3. simpl. split; [lia|]. split; [left; reflexivity|lia].
Qed.

Lemma mk_node_init_snap cfg i x M c0 : (N.to_nat x <= M)%nat -> c0 <= x + 1 ->
  wfr (gn_run (mk_node cfg i x)) /\ node_init_snap (mk_entries M) c0 (mk_node cfg i x).
Proof.
  intros Hx Hc. unfold mk_node. cbn [gn_run].
  apply (boot_node_init_snap (mk_entries M) (S (N.to_nat x))).
  - apply mk_entries_hist.
  - rewrite mk_entries_length. lia.
  - rewrite (mk_entries_firstn _ _ Hx). reflexivity.
  - reflexivity.
  - unfold wfd. simpl. lia.
  - intros e He. rewrite (mk_entries_term _ _ He). simpl. lia.
  - reflexivity.
  - reflexivity.
  - lia.
Qed.

(* the driver's initial states, with c0 up to the shortest log *)
Theorem mk_nodes_linit_snap n extras c0 : (forall x, In x extras -> c0 <= x + 1) ->
  forall f, (forall nd, gn_id (f nd) = gn_id nd /\ gn_sess (f nd) = gn_sess nd) ->
  (forall nd base, wfr (gn_run nd) /\ node_init_snap base c0 nd -> wfr (gn_run (f nd)) /\ node_init_snap base c0 (f nd)) ->
  linit_snap_ok (mkLG (mkG (map f (map (fun p => mk_node (mk_cfg n) (N.of_nat (fst p)) (snd p)) (combine (seq 1 n) extras))) [] [] []) []).
Proof.
  intros Hc0 f Hf Hfi.
  set (M := fold_right Nat.max 0%nat (map N.to_nat extras)).
  assert (HM : forall p, In p (combine (seq 1 n) extras) -> (N.to_nat (snd p) <= M)%nat /\ c0 <= snd p + 1).
  { intros [a x] Hp. apply in_combine_r in Hp. split; [apply max_ge, in_map, Hp|apply Hc0, Hp]. }
  split; [|split; [reflexivity|]].
  - split; [|split; [|auto]]; cbn [lg_g g_nodes].
    + rewrite !map_map. rewrite (map_ext _ (fun x : nat * N => N.of_nat (fst x))); [|intros a; apply Hf].
      rewrite <- (map_map fst N.of_nat). apply Injective_map_NoDup; [intros a b; apply Nat2N.inj|].
      apply nodup_fst_combine, seq_NoDup.
    + intros nd Hin. apply in_map_iff in Hin. destruct Hin as (n0 & <- & Hin).
      apply in_map_iff in Hin. destruct Hin as (p & <- & Hp). destruct (HM p Hp) as [H1 H2].
      split; [apply (Hfi _ (mk_entries M)), (mk_node_init_snap _ _ _ M c0 H1 H2)|].
      destruct (Hf (mk_node (mk_cfg n) (N.of_nat (fst p)) (snd p))) as [_ ->]. reflexivity.
  - exists (mk_entries M), c0. split; [apply mk_entries_hist|]. cbn [lg_g g_nodes].
    intros nd Hin. apply in_map_iff in Hin. destruct Hin as (n0 & <- & Hin).
    apply in_map_iff in Hin. destruct Hin as (p & <- & Hp). destruct (HM p Hp) as [H1 H2].
    apply (Hfi _ (mk_entries M)), (mk_node_init_snap _ _ _ M c0 H1 H2).
Qed.

(* every initial state built by ClusterLog.run_clusterlog: c0 = 0, no server touched *)
Theorem mk_nodes_linit n extras :
  linit_ok (mkLG (mkG (map (fun p => mk_node (mk_cfg n) (N.of_nat (fst p)) (snd p)) (combine (seq 1 n) extras)) [] [] []) []).
Proof.
  apply linit_snap_linit. rewrite <- (map_id (map _ _)).
  apply (mk_nodes_linit_snap n extras 0); [intros; lia|intros; split; reflexivity|intros nd base H; exact H].
Qed.

(* the initial state of run_clusterlog for 3 servers with 0, 1 and 2 extra entries *)
Example init_3_servers :
  linit_ok (mkLG (mkG (map (fun p => mk_node (mk_cfg 3) (N.of_nat (fst p)) (snd p)) (combine (seq 1 3) [0; 1; 2])) [] [] []) []).
Proof. apply mk_nodes_linit. Qed.

(* it is the state run_clusterlog starts from *)
Example init_3_servers_is_the_drivers :
  run_clusterlog [3; 0; 1; 2] = run_llabels (mk_cfg 3) 0
    (mkLG (mkG (map (fun p => mk_node (mk_cfg 3) (N.of_nat (fst p)) (snd p)) (combine (seq 1 3) [0; 1; 2])) [] [] []) []) [].
Proof. reflexivity. Qed.
