(* ClusterCommitAE2.v — the last index of a log store (top_of), and lookups in a store after a contiguous
   list of entries was written to it. *)
From Coq Require Import List NArith Bool Lia.
From stdpp Require Import gmap.
From RaftModel Require Import Base Node.
From RaftProofs Require Import AppendProofs ConvergeFollower.
Open Scope N_scope.

Definition top_of (m : gmap N entry) (t : N) : Prop :=
  (forall i, t < i -> m !! i = None) /\ (0 < t -> is_Some (m !! t)).

Lemma store_contig_lookup q news m i : contig q news ->
  (q < i <= q + N.of_nat (length news) -> exists e, In e news /\ e_idx e = i /\ log_store m news !! i = Some e) /\
  (~ (q < i <= q + N.of_nat (length news)) -> log_store m news !! i = m !! i).
Proof.
  intros Hc. rewrite log_store_lookup. split.
  - intros Hi. destruct (contig_nth q news Hc i Hi) as (e & He & Hei). exists e. split; [exact He|]. split; [exact Hei|].
    rewrite <- Hei. rewrite (contig_find_last q news e Hc He). reflexivity.
  - intros Hi. destruct (find_last i news) as [e|] eqn:F; [|reflexivity]. exfalso. apply Hi.
    apply find_last_In in F. destruct F as [F1 F2]. pose proof (contig_idx _ _ Hc e F1).
    destruct (contig_app q news [] ltac:(rewrite app_nil_r; exact Hc)) as (_ & _ & Hb). specialize (Hb e F1). lia.
Qed.

Lemma store_src_idx m news i x : log_store m news !! i = Some x -> (In x news /\ e_idx x = i) \/ m !! i = Some x.
Proof.
  rewrite log_store_lookup. destruct (find_last i news) as [e|] eqn:F; [|auto].
  intros H; inversion H; subst. left. apply (find_last_In _ _ _ F).
Qed.
