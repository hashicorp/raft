(* ClusterSnapLMMain.v — LOG MATCHING AND TERM MONOTONICITY ABOVE EVERY SNAPSHOT OF THE CLUSTER, for the system with
   snapshot transfer (Model/ClusterSnap.v: elections, replication, commitment, takeSnapshot + compaction, InstallSnapshot
   requests sent, delivered any number of times in any order, acknowledged, with crash cuts and store failures everywhere).

   Log Matching above BOTH servers' own snapshot index (log_matching_above_snapshots) is false
   on this code, as are its variant measured by the servers' own snapshot stores and terms_monotone
   (Proofs/ClusterSnapLMCex.v).  What holds in every reachable state: above the largest index of any snapshot stored
   anywhere in the cluster, two logs that hold an entry of the same term at an index agree at every retained index up to it,
   and within one log terms do not decrease; everywhere an entry is stored under its own index.

   The cluster-level invariant is the shell of Proofs/ClusterLogShell.v with the per-server part of
   Proofs/ClusterSnapLMNode2.v and requests that are chains only above a bound, together with the InstallSnapshot
   requests; the bound is the largest snapshot index of the state.  It never falls, because no snapshot store shrinks, and
   what holds above a bound holds above a larger one: a step re-establishes the shell at some bound between the old one
   and the new largest snapshot index (ylinv_upd).  Every step of the replication system (lstep) keeps the invariant by
   the theorem of that file, and, with a condition on the leadership records of the commit layer, so does every step of
   Model/ClusterSnap.v sstep. *)
From Coq Require Import List NArith Bool Lia.
From stdpp Require Import gmap.
From RaftModel Require Import Base Config Node NodeCodec Candidate Leader Replicate Cluster ClusterLog ClusterCommit
  ClusterSnap.
From RaftProofs Require Import VoteProofs AppendProofs ClusterProofs ClusterLogSpec ClusterLogChain ClusterLogNode
  ClusterLogVote ClusterLogInv ClusterLogSteps ClusterLogSnapState ClusterLogShell ClusterCommitLog ClusterCommitInv ClusterCommitUpd
  ClusterSnapLMSpec ClusterSnapLMNode2
  ClusterStepInv ClusterLogLeader ClusterCommitSnapStepL ClusterCommitSnapTake ClusterLogSnapBoot
  ClusterCommitSnapLeader2 ClusterCommitInit2.
Open Scope N_scope.

Lemma max_list_le (l : list N) b : (forall x, In x l -> x <= b) -> fold_right N.max 0 l <= b.
Proof.
  induction l as [|y r IH]; intros H; simpl; [lia|].
  assert (y <= b) by (apply H; left; reflexivity). assert (fold_right N.max 0 r <= b) by (apply IH; intros x Hx; apply H; right; exact Hx). lia.
Qed.

Lemma max_snap_of_incl s s' : incl (d_snaps s) (d_snaps s') -> max_snap_of s <= max_snap_of s'.
Proof.
  intros Hi. apply max_list_le. intros x Hx. apply in_map_iff in Hx. destruct Hx as (sn & <- & Hsn). apply max_snap_of_ge, Hi, Hsn.
Qed.

Lemma max_snap_idx_ge g n : In n (g_nodes (lg_g g)) -> max_snap_of (image (gn_run n)) <= max_snap_idx g.
Proof. intros H. apply max_list_ge. apply in_map_iff. exists n. auto. Qed.

Lemma max_snap_idx_upd g g' j n n' : NoDup (map gn_id (g_nodes (lg_g g))) ->
  find_node (g_nodes (lg_g g)) j = Some n -> g_nodes (lg_g g') = upd_node (g_nodes (lg_g g)) j n' ->
  incl (d_snaps (image (gn_run n))) (d_snaps (image (gn_run n'))) ->
  max_snap_idx g <= max_snap_idx g' /\ max_snap_of (image (gn_run n')) <= max_snap_idx g'.
Proof.
  intros Hnd Hfind Hn' Hi. destruct (find_node_in _ _ _ Hfind) as [Hin Hidn].
  assert (Hin' : In n' (g_nodes (lg_g g'))) by (rewrite Hn'; eapply in_upd_node; eauto).
  split; [|apply max_snap_idx_ge, Hin'].
  apply max_list_le. intros x Hx. apply in_map_iff in Hx. destruct Hx as (y & <- & Hy).
  destruct (N.eq_dec (gn_id y) j) as [E|Hne].
  - assert (y = n) by (apply (nodup_id_eq _ y n Hnd Hy Hin); congruence). subst y.
    etransitivity; [apply max_snap_of_incl, Hi|apply max_snap_idx_ge, Hin'].
  - apply max_snap_idx_ge. rewrite Hn'. unfold upd_node. apply in_map_iff. exists y.
    destruct (N.eqb_spec (gn_id y) j); [contradiction|auto].
Qed.

Definition ysmsg_ok (g : gstate) (B : N) (m : smsg) : Prop :=
  sm_from m <> sm_to m /\ In (iq_term (sm_req m), sm_from m) (g_leaders g) /\
  iq_lastIdx (sm_req m) <= B /\ iq_lastTerm (sm_req m) <= iq_term (sm_req m).

Definition ynp (B : N) (C : chain) (P : params) (r : nrun) : Prop := ynlog C B r /\ p_rc P = false.

(* the shell of Proofs/ClusterLogShell.v over requests that are chains only above the bound, and the InstallSnapshot
   requests; the bound is the largest snapshot index of the state: no snapshot lies above it (ys_sns), and what the
   per-server part says above a bound it says above every larger one (ynlog_mono, yrq_mono) *)
Record ylinv (cfgs : list config) (g : lgstate) (sm : list smsg) (C : chain) : Prop := {
  yl_sh : shell cfgs chain_ok (ynp (max_snap_idx g)) (yrq (max_snap_idx g)) g C;
  yl_smsgs : forall m, In m sm -> ysmsg_ok (lg_g g) (max_snap_idx g) m;
}.

Arguments yl_sh {cfgs g sm C}.
Arguments yl_smsgs {cfgs g sm C}.

Lemma ynp_mono B B' : B <= B' -> forall C C' P r, incl C C' -> ynp B C P r -> ynp B' C' P r.
Proof. intros HB C C' P r Hc [A D]. split; [eapply ynlog_mono; eauto|exact D]. Qed.

Lemma ysmsg_ok_mono g g' B B' m : incl (g_leaders g) (g_leaders g') -> B <= B' -> ysmsg_ok g B m -> ysmsg_ok g' B' m.
Proof. intros Hl HB (A1 & A2 & A3 & A4). split; [exact A1|]. split; [apply Hl, A2|]. split; [lia|exact A4]. Qed.

Lemma yshell_mono cfgs B B' g C : B <= B' ->
  shell cfgs chain_ok (ynp B) (yrq B) g C -> shell cfgs chain_ok (ynp B') (yrq B') g C.
Proof.
  intros HB. apply shell_weaken; [auto|intros n _; apply ynp_mono; [exact HB|apply incl_refl]|].
  intros m _. apply yrq_mono; [exact HB|apply incl_refl].
Qed.

Lemma ynode_up {cfgs g sm C n s} : ylinv cfgs g sm C -> In n (g_nodes (lg_g g)) -> gn_run n = Up s ->
  yup C (max_snap_idx g) s /\ v_term s = d_term s.
Proof.
  intros Hinv Hin Hr. destruct (sh_nodes (yl_sh Hinv) n Hin) as ((Hnl & _) & _). pose proof (ginv_wfr (sh_g (yl_sh Hinv)) Hin) as Hw.
  rewrite Hr in Hnl, Hw. split; [exact Hnl|apply Hw].
Qed.

Section Update.
  Variable cfgs : list config.
  Hypothesis HQ : quorums_intersect cfgs.

  (* one server was replaced and its snapshot store did not shrink, and the shell holds at a bound B' that a snapshot
     of the state attests: it holds at the new largest snapshot index, which is not below the old one *)
  Lemma ylinv_upd B' g g' sm C C' j n n' :
    ylinv cfgs g sm C -> shell cfgs chain_ok (ynp B') (yrq B') g' C' ->
    B' <= N.max (max_snap_idx g) (max_snap_of (image (gn_run n'))) ->
    find_node (g_nodes (lg_g g)) j = Some n -> g_nodes (lg_g g') = upd_node (g_nodes (lg_g g)) j n' ->
    incl (g_leaders (lg_g g)) (g_leaders (lg_g g')) ->
    incl (d_snaps (image (gn_run n))) (d_snaps (image (gn_run n'))) ->
    ylinv cfgs g' sm C'.
  Proof.
    intros [Hsh Hsms] Hsh' HB Hfind Hn' Hlinc Hgrow.
    destruct (max_snap_idx_upd g g' j n n' (gi_ids cfgs _ (sh_g Hsh)) Hfind Hn' Hgrow) as [M1 M2]. constructor.
    - revert Hsh'. apply yshell_mono. lia.
    - intros m Hm. eapply ysmsg_ok_mono; [exact Hlinc|exact M1|apply Hsms, Hm].
  Qed.

  Let y_mono B := ynp_mono B B (N.le_refl B).
  Let ym_mono B := yrq_mono B B (N.le_refl B).

  (* a handler ran at j and left the server good above B': the ghost history, the leaders and the requests in flight are
     unchanged *)
  Lemma yhandler_linv B' g sm C j nj e cut fs r' ob out g1 :
    ylinv cfgs g sm C -> find_node (g_nodes (lg_g g)) j = Some nj ->
    step_full (gn_P nj) (gn_run nj) e cut fs = (r', ob, out) ->
    ginv cfgs g1 -> max_snap_idx g <= B' -> B' <= N.max (max_snap_idx g) (max_snap_of (image r')) ->
    g_nodes g1 = upd_node (g_nodes (lg_g g)) j (mkGN (gn_P nj) r' (keep_sess r' (gn_sess nj)) (gn_next nj)) ->
    g_leaders g1 = g_leaders (lg_g g) ->
    ypost C B' (gn_run nj) r' -> role_kept (gn_run nj) r' ->
    ylinv cfgs (mkLG g1 (lg_msgs g)) sm C.
  Proof.
    intros Hinv Hfind Hstep Hg1 HB HB' Hn1 Hl1 (Hnl & Hgrow) Hrole.
    destruct (find_node_in _ _ _ Hfind) as [Hin Hid].
    apply (ylinv_upd B' g _ sm C C j nj (mkGN (gn_P nj) r' (keep_sess r' (gn_sess nj)) (gn_next nj)) Hinv); [|exact HB'|exact Hfind|exact Hn1|simpl; rewrite Hl1; apply incl_refl|exact Hgrow].
    apply (shell_handler cfgs HQ _ _ _ (y_mono B') (ym_mono B') g C j nj e cut fs r' ob out g1); auto.
    - apply (yshell_mono cfgs _ B' g C HB (yl_sh Hinv)).
    - split; [exact Hnl|apply (sh_nodes (yl_sh Hinv) nj Hin)].
  Qed.

  (* an InstallSnapshot request is added *)
  Lemma ssend_ylinv g sm C i n s m :
    ylinv cfgs g sm C -> find_node (g_nodes (lg_g g)) i = Some n -> gn_run n = Up s -> v_role s = Leader ->
    sm_from m = i -> sm_from m <> sm_to m -> iq_term (sm_req m) = v_term s ->
    iq_lastIdx (sm_req m) <= max_snap_idx g -> iq_lastTerm (sm_req m) <= v_term s ->
    ylinv cfgs g (sm ++ [m]) C.
  Proof.
    intros [Hsh Hsms] Hfind Hrun Hrole Hfrom Hne Hterm Hi Ht. constructor; [exact Hsh|].
    intros m' Hm'. apply in_app_iff in Hm'. destruct Hm' as [Hm'|[<-|[]]]; [apply Hsms, Hm'|].
    split; [exact Hne|]. split; [rewrite Hterm, Hfrom; eapply shell_leader; eauto|]. split; [exact Hi|rewrite Hterm; exact Ht].
  Qed.

  (* the state of a Leader changes in its volatile part only (the FSM position may move to a key of a term not above
     its own) *)
  Lemma ylinv_volatile g sm C i n s s' :
    ylinv cfgs g sm C -> find_node (g_nodes (lg_g g)) i = Some n -> gn_run n = Up s -> v_role s = Leader ->
    dproj s' = dproj s -> v_term s' = v_term s -> lkeep s' s -> v_lastSnapTerm s' = v_lastSnapTerm s ->
    (fst (v_fsmLast s') <> 0 -> snd (v_fsmLast s') <= d_term s) ->
    ylinv cfgs (mkLG (set_node_run (lg_g g) i n (Up s')) (lg_msgs g)) sm C.
  Proof.
    intros Hinv Hfind Hrun Hrole Hd Ht Hk Hst Hfl.
    destruct (find_node_in _ _ _ Hfind) as [Hin Hid].
    destruct (ynode_up Hinv Hin Hrun) as [Hnl _].
    assert (Hdt : d_term s' = d_term s) by (unfold dproj in Hd; congruence).
    apply (ylinv_upd (max_snap_idx g) g _ sm C C i n (mkGN (gn_P n) (Up s') (keep_sess (Up s') (gn_sess n)) (gn_next n)) Hinv); [|lia|exact Hfind|reflexivity|apply incl_refl|].
    - apply (shell_volatile cfgs HQ _ _ _ (y_mono _) (ym_mono _) g C i n s s' (yl_sh Hinv) Hfind Hrun Hrole Hd Ht); [apply Hk|].
      split; [|apply (sh_nodes (yl_sh Hinv) n Hin)].
      simpl. eapply yup_lkeep; [exact Hnl|exact Hk|exact Hst|rewrite Hdt; exact Hfl|lia].
    - cbn [gn_run image]. rewrite Hrun. simpl. destruct Hk as (_ & K2 & _). rewrite K2. apply incl_refl.
  Qed.
End Update.

(* what Proofs/ClusterLogShell.v asks of ynlog, with one more clause: the server's snapshot store holds S.  With S the
   stores of a state, the clause holds there, and in the state after a step it says that no store has shrunk, which the
   bound needs. *)
Definition ynpS (B : N) (S : N -> list snapshot) (C : chain) (P : params) (r : nrun) : Prop :=
  ynp B C P r /\ incl (S (p_self P)) (d_snaps (image r)).

Lemma ynpS_mono B S C C' P r : incl C C' -> ynpS B S C P r -> ynpS B S C' P r.
Proof. intros Hc [A D]. split; [eapply ynp_mono; eauto; apply N.le_refl|exact D]. Qed.

Lemma ynpS_keep B S C P s s' : ynpS B S C P (Up s) -> rest s' = rest s -> d_term s <= d_term s' -> ynpS B S C P (Up s').
Proof.
  intros [[H Hrc] Hs] K Ht. destruct (rest_fields _ _ K) as (_ & (_ & K2 & _) & _).
  split; [split; [apply (yup_keep C B s s' H K Ht)|exact Hrc]|simpl in *; rewrite K2; exact Hs].
Qed.

Lemma ynpS_quit B S C P s : ynpS B S C P (Up s) -> ynpS B S C P (Up (quit_leader s (if p_track P then v_commit s else d_staged s))).
Proof.
  intros [[HnL Hrc] Hs]. split; [split; [|exact Hrc]|exact Hs].
  eapply yup_lkeep; [exact HnL|apply quit_leader_lkeep|reflexivity|apply (ys_fl HnL)|apply N.le_refl].
Qed.

Lemma ynpS_append B S C P s s' ty data : chain_ok C -> ynpS B S C P (Up s) -> v_term s = d_term s ->
  (forall x p, In (x, p) C -> e_term x = v_term s -> e_idx x <= v_lastLogIdx s) ->
  appended P s s' (new_entry s ty data) ->
  chain_ok ((new_entry s ty data, last_entry s) :: C) /\ ynpS B S ((new_entry s ty data, last_entry s) :: C) P (Up s').
Proof.
  intros HC [[HnL Hrc] Hs] Hvt Hown Happ. unfold ynpS, ynp. cbn [ynlog image] in *.
  destruct (y_last_entry C B s HnL) as (Hle1 & Hle2 & Hle3).
  assert (HC' : chain_ok ((new_entry s ty data, last_entry s) :: C)) by (apply new_entry_chain; auto; lia).
  split; [exact HC'|]. rewrite (ap_snaps Happ). split; [split; [|exact Hrc]|exact Hs].
  apply (leader_append_yup C B P s s' ty data HC' HnL (N.eq_le_incl _ _ Hvt) Happ).
Qed.

Lemma ynpS_post B S C P r r' : ynpS B S C P r -> ypost C B r r' -> ynpS B S C P r'.
Proof.
  intros [[_ Hrc] Hs] (A & Hi). split; [split; assumption|].
  intros x Hx. apply Hi, Hs, Hx.
Qed.

Lemma ynpS_event B S C P r e cut fs r' ob out : chain_ok C -> wfr r -> ynpS B S C P r -> simple_event e ->
  step_full P r e cut fs = (r', ob, out) -> ynpS B S C P r'.
Proof.
  intros HC Hw Hn He Hsf. apply (ynpS_post B S C P r r' Hn). destruct Hn as [[Hnl Hrc] _].
  apply (simple_step_y C B P r e cut fs r' ob out HC Hrc Hw Hnl He Hsf).
Qed.

Lemma ynpS_deliver B S C P s a cut fs r' ob out : chain_ok C -> wfr (Up s) -> ynpS B S C P (Up s) -> yrq B C a ->
  step_full P (Up s) (NAppend a) cut fs = (r', ob, out) -> ynpS B S C P r'.
Proof.
  intros HC Hw [[Hnl Hrc] Hs] Hrq Hsf.
  destruct (deliver_step_y C B P s a cut fs r' ob out HC Hrc Hw Hnl Hrq Hsf) as (A & Es).
  split; [split; assumption|]. rewrite Es. exact Hs.
Qed.

Lemma ynpS_send B S C P s next last pi pt es c i : chain_ok C -> ynpS B S C P (Up s) -> v_term s = d_term s -> 1 <= next ->
  setup_send P s next last = SendAE pi pt es c -> yrq B C (mkAReq (v_term s) i i pi pt es c).
Proof.
  intros HC [[Hnl _] _] Hvt Hnext Hsend. rewrite Hvt. apply (setup_send_y C B P s next last pi pt es c i HC Hnl Hnext Hsend).
Qed.

(* a step of lstep replaces at most one server *)
Lemma gstep_one_node cfgs g l g1 : gstep cfgs g l = Some g1 ->
  exists j n n', find_node (g_nodes g) j = Some n /\ gn_id n' = j /\ g_nodes g1 = upd_node (g_nodes g) j n'.
Proof.
  intros H. destruct l as [i|i j cut fs|i j|j e cut fs].
  - destruct (gstep_timeout_inv _ _ _ _ H) as (n & s & x & tr & Hf & _ & _ & _ & _ & ->).
    exists i, n. eexists (mkGN (gn_P n) _ _ _). split; [exact Hf|]. split; [apply (find_node_in _ _ _ Hf)|reflexivity].
  - destruct (gstep_votereq_inv _ _ _ _ _ _ _ H) as (ni & nj & se & r' & ob & out & _ & Hf & _ & _ & _ & ->).
    exists j, nj. eexists (mkGN (gn_P nj) _ _ _). split; [exact Hf|]. split; [apply (find_node_in _ _ _ Hf)|reflexivity].
  - destruct (gstep_voteresp_inv _ _ _ _ _ H) as (n & s & se & rp & x & tr & Hf & _ & _ & _ & _ & _ & ->).
    exists i, n. eexists (mkGN (gn_P n) _ _ _). split; [exact Hf|]. split; [apply (find_node_in _ _ _ Hf)|reflexivity].
  - destruct (gstep_input_inv _ _ _ _ _ _ _ H) as (nj & r' & ob & out & Hf & _ & -> & _).
    exists j, nj. eexists (mkGN (gn_P nj) _ _ _). split; [exact Hf|]. split; [apply (find_node_in _ _ _ Hf)|reflexivity].
Qed.

Lemma lstep_one_node sn cfgs g l g' : lstep sn cfgs g l = Some g' ->
  g_nodes (lg_g g') = g_nodes (lg_g g) \/
  exists j n n', find_node (g_nodes (lg_g g)) j = Some n /\ gn_id n' = j /\ g_nodes (lg_g g') = upd_node (g_nodes (lg_g g)) j n'.
Proof.
  intros H. destruct l as [gl|i ty data fs|i j next last|i j|k cut fs].
  - destruct (lstep_elect_inv _ _ _ _ _ H) as (_ & G & HG & ->). right. apply (gstep_one_node _ _ _ _ HG).
  - destruct (lstep_propose_inv _ _ _ _ _ _ _ _ H) as (n & s & ls' & res & tr & fs' & Hf & _ & _ & _ & ->). right.
    exists i, n. eexists (mkGN (gn_P n) _ _ _). split; [exact Hf|]. split; [apply (find_node_in _ _ _ Hf)|reflexivity].
  - destruct (lstep_send_inv _ _ _ _ _ _ _ _ H) as (n & s & pi & pt & es & c & _ & _ & _ & _ & _ & _ & _ & ->). left. reflexivity.
  - destruct (lstep_heartbeat_inv _ _ _ _ _ _ H) as (n & s & _ & _ & _ & _ & ->). left. reflexivity.
  - destruct (lstep_deliver_inv _ _ _ _ _ _ _ H) as (m & G & _ & _ & HG & ->). right. apply (gstep_one_node _ _ _ _ HG).
Qed.

Definition snaps_at (g : lgstate) (i : N) : list snapshot :=
  match find_node (g_nodes (lg_g g)) i with Some n => d_snaps (image (gn_run n)) | None => [] end.

Section Steps.
  Variable cfgs : list config.
  Hypothesis HQ : quorums_intersect cfgs.

  (* every step but takeSnapshot *)
  Lemma lstep_ylinv_same sn g sm C bl g' : ylinv cfgs g sm C -> lstep sn cfgs g bl = Some g' ->
    (forall j e cut fs, bl = LElect (GInput j e cut fs) -> simple_event e) -> exists C', ylinv cfgs g' sm C'.
  Proof.
    intros Hinv Hstep Hev. set (S := snaps_at g). set (B := max_snap_idx g).
    assert (H0 : shell cfgs chain_ok (ynpS B S) (yrq B) g C).
    { generalize (yl_sh Hinv). apply shell_weaken; [auto| |auto]. intros n Hin H. split; [exact H|].
      unfold S, snaps_at. change (p_self (gn_P n)) with (gn_id n).
      rewrite (find_node_self _ n (gi_ids cfgs _ (sh_g (yl_sh Hinv))) Hin). apply incl_refl. }
    destruct (shell_lstep cfgs HQ _ _ _ (ynpS_mono B S) (yrq_mono B B (N.le_refl B)) (ynpS_append B S) (ynpS_quit B S) (ynpS_keep B S)
                simple_event (fun _ => I) simple_quiet (ynpS_event B S) (ynpS_deliver B S) (ynpS_send B S) (yrq_hb B)
                sn g C bl g' H0 Hstep Hev) as [C' H1]. exists C'.
    assert (H2 : shell cfgs chain_ok (ynp B) (yrq B) g' C').
    { revert H1. apply shell_weaken; [auto|intros n _; apply proj1|auto]. }
    pose proof (lstep_leaders_incl _ _ _ _ _ Hstep) as Hl.
    destruct (lstep_one_node _ _ _ _ _ Hstep) as [E|(j & nj & n' & Hf & Hid & E)].
    - assert (EB : max_snap_idx g' = B) by (unfold B, max_snap_idx; rewrite E; reflexivity).
      constructor; rewrite EB; [exact H2|].
      intros m Hm. eapply ysmsg_ok_mono; [exact Hl|apply N.le_refl|apply (yl_smsgs Hinv m Hm)].
    - apply (ylinv_upd cfgs B g g' sm C C' j nj n' Hinv H2 ltac:(lia) Hf E Hl).
      assert (Hin' : In n' (g_nodes (lg_g g'))) by (rewrite E; eapply in_upd_node; eauto).
      destruct (sh_nodes H1 n' Hin') as [[_ Hs] _]. unfold S, snaps_at in Hs.
      change (p_self (gn_P n')) with (gn_id n') in Hs. rewrite Hid, Hf in Hs. exact Hs.
  Qed.

  (* takeSnapshot at j *)
  Lemma snapshot_ylinv g sm C j cut fs g1 :
    ylinv cfgs g sm C -> gstep cfgs (lg_g g) (GInput j NSnapshot cut fs) = Some g1 -> ylinv cfgs (mkLG g1 (lg_msgs g)) sm C.
  Proof.
    intros Hinv Hstep.
    pose proof (gstep_inv cfgs _ _ _ (sh_g (yl_sh Hinv)) Hstep) as Hg1.
    destruct (gstep_input_inv _ _ _ _ _ _ _ Hstep) as (nj & r' & ob & out & Hfj & Hsf & -> & _).
    destruct (find_node_in _ _ _ Hfj) as [Hin Hid].
    destruct (sh_nodes (yl_sh Hinv) nj Hin) as ((Hnl & Hrc) & _).
    pose proof (step_role_kept (gn_P nj) (gn_run nj) NSnapshot cut fs r' ob out (ginv_wfr (sh_g (yl_sh Hinv)) Hin) I Hsf) as Hrole.
    destruct (snapshot_step_y C _ (gn_P nj) (gn_run nj) cut fs r' ob out (sh_chain (yl_sh Hinv)) Hrc Hnl Hsf) as (B' & H1 & H2 & Hp).
    apply (yhandler_linv cfgs HQ B' g sm C j nj NSnapshot cut fs r' ob out _ Hinv Hfj Hsf Hg1 H1 H2 eq_refl eq_refl Hp Hrole).
  Qed.

  (* an InstallSnapshot request is executed by its target *)
  Lemma install_ylinv g sm C m cut fs g1 :
    ylinv cfgs g sm C -> In m sm ->
    gstep cfgs (lg_g g) (GInput (sm_to m) (NInstall (sm_req m)) cut fs) = Some g1 ->
    ylinv cfgs (mkLG g1 (lg_msgs g)) sm C.
  Proof.
    intros Hinv Hm Hstep.
    pose proof (gstep_inv cfgs _ _ _ (sh_g (yl_sh Hinv)) Hstep) as Hg1.
    destruct (gstep_input_inv _ _ _ _ _ _ _ Hstep) as (nj & r' & ob & out & Hfj & Hsf & -> & _).
    destruct (find_node_in _ _ _ Hfj) as [Hin Hid].
    destruct (yl_smsgs Hinv m Hm) as (Hft & Hld & Hqi & Hqt).
    destruct (sh_nodes (yl_sh Hinv) nj Hin) as ((Hnl & Hrc) & _).
    pose proof (ginv_wfr (sh_g (yl_sh Hinv)) Hin) as Hw.
    pose proof (step_good (gn_P nj) (gn_run nj) (NInstall (sm_req m)) cut fs Hw) as Hgood. rewrite Hsf in Hgood. destruct Hgood as (Hw' & _).
    destruct (install_step_y C _ (gn_P nj) (gn_run nj) (sm_req m) cut fs r' ob out (sh_chain (yl_sh Hinv)) Hrc Hw Hnl Hqi Hqt Hsf) as (Hp & Hr).
    apply (yhandler_linv cfgs HQ _ g sm C _ nj _ cut fs r' ob out _ Hinv Hfj Hsf Hg1 (N.le_refl _) ltac:(lia) eq_refl eq_refl Hp).
    intros s' Hs' Hrole. destruct (Hr s' Hs' Hrole) as (s & Hrun & [->|(Hl0 & Ht & Hd)]); [exists s; auto|]. exfalso.
    apply (shell_other_leader cfgs HQ _ _ _ g C _ _ _ nj s (yl_sh Hinv) Hld Hft Hfj Hrun Hl0).
    subst r'. destruct Hw' as [_ Hvt']. congruence.
  Qed.

  Theorem lstep_ylinv sn g sm C bl g' : ylinv cfgs g sm C -> lstep sn cfgs g bl = Some g' -> exists C', ylinv cfgs g' sm C'.
  Proof.
    intros Hinv Hstep.
    assert (Hcs : (forall j e cut fs, bl = LElect (GInput j e cut fs) -> simple_event e) \/
                  exists j cut fs, bl = LElect (GInput j NSnapshot cut fs)).
    { destruct bl as [[i|i j cut fs|i j|j e cut fs]| | | |]; try (left; intros; discriminate).
      destruct (lstep_elect_inv _ _ _ _ _ Hstep) as (Hok & _).
      destruct e; try discriminate Hok; try (left; intros j0 e0 c0 f0 E; inversion E; exact I). right. eauto. }
    destruct Hcs as [Hev|(j & cut & fs & ->)]; [apply (lstep_ylinv_same sn g sm C bl g' Hinv Hstep Hev)|].
    destruct (lstep_elect_inv _ _ _ _ _ Hstep) as (_ & g1 & Hg & ->).
    exists C. apply (snapshot_ylinv g sm C j cut fs g1 Hinv Hg).
  Qed.
End Steps.

(* what a record holds in flight was created in terms not above a term the server led *)
Definition infl_le (g : gstate) (i : N) (ld : lead) : Prop :=
  exists T, In (T, i) (g_leaders g) /\ forall e fid, In (e, fid) (ld_infl ld) -> e_term e <= T.

Definition yinfl (g : gstate) (leads : list (N * lead)) : Prop :=
  forall i ld, find_lead leads i = Some ld -> infl_le g i ld.

Lemma infl_le_mono g g' i ld ld' : incl (g_leaders g) (g_leaders g') -> (forall x, In x (ld_infl ld') -> In x (ld_infl ld)) ->
  infl_le g i ld -> infl_le g' i ld'.
Proof. intros Hl Hs (T & H1 & H2). exists T. split; [apply Hl, H1|]. intros e fid He. apply (H2 e fid), Hs, He. Qed.

Lemma yinfl_mono g g' leads : incl (g_leaders g) (g_leaders g') -> yinfl g leads -> yinfl g' leads.
Proof. intros Hl H i ld Hf. eapply infl_le_mono; [exact Hl|intros x Hx; exact Hx|apply H, Hf]. Qed.

Lemma yinfl_set g leads i ld : yinfl g leads -> infl_le g i ld -> yinfl g (set_lead leads i ld).
Proof.
  intros H Hi j ld' Hf. destruct (N.eq_dec j i) as [->|Hne].
  - rewrite find_lead_set_same in Hf. inversion Hf; subst. exact Hi.
  - rewrite find_lead_set_other in Hf by exact Hne. apply H, Hf.
Qed.

Lemma yinfl_set_sub g leads i ld ld' : yinfl g leads -> find_lead leads i = Some ld ->
  (forall x, In x (ld_infl ld') -> In x (ld_infl ld)) -> yinfl g (set_lead leads i ld').
Proof. intros H Hf Hs. apply yinfl_set; [exact H|]. eapply infl_le_mono; [apply incl_refl|exact Hs|apply (H _ _ Hf)]. Qed.

Lemma yinfl_set_same g leads i ld ld' : yinfl g leads -> find_lead leads i = Some ld -> ld_infl ld' = ld_infl ld ->
  yinfl g (set_lead leads i ld').
Proof. intros H Hf E. apply (yinfl_set_sub _ _ _ ld _ H Hf). rewrite E. auto. Qed.

Section Commit.
  Variable cfgs : list config.
  Hypothesis HQ : quorums_intersect cfgs.

  Lemma fresh_infl g sm C n s : ylinv cfgs g sm C -> In n (g_nodes (lg_g g)) -> gn_run n = Up s -> v_role s = Leader ->
    infl_le (lg_g g) (gn_id n) (fresh_lead (gn_P n) s).
  Proof.
    intros Hinv Hin Hr Hrole. destruct (sh_nodes (yl_sh Hinv) n Hin) as ((Hnl & _) & Hlo).
    destruct (Hlo s Hr Hrole) as (L1 & _). rewrite Hr in Hnl. simpl in Hnl.
    destruct (ynode_up Hinv Hin Hr) as [_ Hvt].
    exists (v_term s). split; [exact L1|]. unfold fresh_lead. cbn [ld_infl].
    destruct (d_log s !! last_index s) as [e|] eqn:Ee; [|intros e fid []].
    intros e0 fid [E|[]]. inversion E; subst e0. destruct (ys_in Hnl _ e Ee) as (_ & _ & Ht). lia.
  Qed.

  (* a bound known for a record of a server in role Leader can be taken to be its term *)
  Lemma infl_leader g sm C n s ld : ylinv cfgs g sm C -> In n (g_nodes (lg_g g)) -> gn_run n = Up s -> v_role s = Leader ->
    infl_le (lg_g g) (gn_id n) ld -> In (v_term s, gn_id n) (g_leaders (lg_g g)) /\ forall e fid, In (e, fid) (ld_infl ld) -> e_term e <= v_term s.
  Proof.
    intros Hinv Hin Hr Hrole (T & H1 & H2). destruct (sh_nodes (yl_sh Hinv) n Hin) as (_ & Hlo).
    destruct (Hlo s Hr Hrole) as (L1 & _). split; [exact L1|].
    destruct (ynode_up Hinv Hin Hr) as [_ Hvt].
    destruct (sh_leaders (yl_sh Hinv) T _ H1 n Hin eq_refl) as [Hle _]. unfold dt in Hle. rewrite Hr in Hle. simpl in Hle.
    intros e fid He. pose proof (H2 e fid He). lia.
  Qed.

  (* the records after the bookkeeping of a base step, before the refresh *)
  Lemma base_leads_yinfl c sm C bl l' : ylinv cfgs (cg_l c) sm C -> yinfl (lg_g (cg_l c)) (cg_lead c) ->
    lstep true cfgs (cg_l c) bl = Some l' -> yinfl (lg_g (cg_l c)) (base_leads c bl).
  Proof.
    intros Hinv Hy Hl. destruct bl as [gl|i ty data fs|i j next last|i j|k cut fs]; try exact Hy.
    - destruct (lstep_propose_inv _ _ _ _ _ _ _ _ Hl) as (n & s & _ & _ & _ & _ & Hfind & Hrun & Hrole & _).
      unfold base_leads, cnodes. rewrite Hfind, Hrun. destruct (find_lead (cg_lead c) i) as [ld|] eqn:Hfl; [|exact Hy].
      destruct (find_node_in _ _ _ Hfind) as [Hin Hid].
      pose proof (dispatch_one_ls (gn_P n) s (ld_cm ld) (ld_infl ld) fs ty data 0) as Hd.
      destruct (dispatch (gn_P n) (mkLS s (ld_cm ld) (ld_infl ld)) fs [(ty, data, 0)]) as [[[ls' a] b] d]. cbn [fst] in Hd.
      assert (Hinfl : l_inflight ls' = ld_infl ld ++ [(new_entry s ty data, 0)]) by (rewrite Hd; reflexivity).
      apply yinfl_set; [exact Hy|]. rewrite <- Hid in Hfl.
      destruct (infl_leader (cg_l c) sm C n s ld Hinv Hin Hrun Hrole (Hy _ _ Hfl)) as [L1 L2].
      exists (v_term s). rewrite <- Hid. split; [exact L1|]. cbn [with_cm ld_infl]. rewrite Hinfl.
      intros e fid He. apply in_app_iff in He. destruct He as [He|[E|[]]]; [apply (L2 e fid He)|]. inversion E; subst. simpl. lia.
    - unfold base_leads. destruct (find_lead (cg_lead c) i) as [ld|] eqn:Hfl; [|exact Hy].
      apply (yinfl_set_sub _ _ _ ld _ Hy Hfl). intros x Hx. exact Hx.
  Qed.

  Lemma cbase_y c sm C bl c' : ylinv cfgs (cg_l c) sm C -> yinfl (lg_g (cg_l c)) (cg_lead c) ->
    cstep true cfgs c (CBase bl) = Some c' ->
    exists C', ylinv cfgs (cg_l c') sm C' /\ yinfl (lg_g (cg_l c')) (cg_lead c').
  Proof.
    intros Hinv Hy Hstep. apply cstep_base_inv in Hstep. destruct Hstep as (_ & l' & Hl & ->). cbn [cg_l cg_lead].
    destruct (lstep_ylinv cfgs HQ true (cg_l c) sm C bl l' Hinv Hl) as (C' & Hinv').
    exists C'. split; [exact Hinv'|].
    pose proof (lstep_leaders_incl true cfgs (cg_l c) bl l' Hl) as Hinc.
    intros i ld Hf. destruct (refresh_find _ _ _ i ld Hf) as [H|(n & s & Hn & Hid & Hr & Hrole & ->)].
    - eapply infl_le_mono; [exact Hinc|intros x Hx; exact Hx|]. apply (base_leads_yinfl c sm C bl l' Hinv Hy Hl i ld H).
    - rewrite <- Hid. apply (fresh_infl l' sm C' n s Hinv' Hn Hr Hrole).
  Qed.

  (* a leader steps down after an answer with a higher term *)
  Lemma stepdown_y g sm C i n s : ylinv cfgs g sm C -> find_node (g_nodes (lg_g g)) i = Some n -> gn_run n = Up s -> v_role s = Leader ->
    ylinv cfgs (mkLG (set_node_run (lg_g g) i n (Up (set_state s Follower))) (lg_msgs g)) sm C.
  Proof.
    intros Hinv Hfind Hrun Hrole. destruct (find_node_in _ _ _ Hfind) as [Hin _].
    destruct (sh_nodes (yl_sh Hinv) n Hin) as ((Hnl & _) & _). rewrite Hrun in Hnl.
    apply (ylinv_volatile cfgs HQ g sm C i n s (set_state s Follower) Hinv Hfind Hrun Hrole); try reflexivity.
    - repeat split.
    - apply (ys_fl Hnl).
  Qed.

  Lemma cack_y c sm C k c' : ylinv cfgs (cg_l c) sm C -> yinfl (lg_g (cg_l c)) (cg_lead c) ->
    cstep true cfgs c (CAck k) = Some c' ->
    ylinv cfgs (cg_l c') sm C /\ yinfl (lg_g (cg_l c')) (cg_lead c').
  Proof.
    intros Hinv Hy Hstep. apply cstep_ack_inv in Hstep.
    destruct Hstep as (a & m & n & ld0 & s & _ & _ & Hfind & Hfl & Hrun & Hrole & _ & _ & ->).
    pose proof (fun ld' => yinfl_set_same _ _ _ ld0 ld' Hy Hfl) as Hsame.
    unfold ack_result. cbv zeta. destruct (aq_term (am_req m) <? ar_term (rs_resp a)).
    - cbn [cg_l cg_lead]. split; [apply stepdown_y; assumption|]. eapply yinfl_mono; [|(apply Hsame; reflexivity)]. simpl. apply incl_refl.
    - destruct (ar_success (rs_resp a)).
      + destruct (aq_entries (am_req m)) as [|e0 er]; cbn [cg_l cg_lead]; (split; [exact Hinv|]); [(apply Hsame; reflexivity)|].
        match goal with |- context [if ?b then _ else _] => destruct b end; (apply Hsame; reflexivity).
      + cbn [cg_l cg_lead]. split; [exact Hinv|(apply Hsame; reflexivity)].
  Qed.

  Lemma cgiveup_y c sm C i j c' : ylinv cfgs (cg_l c) sm C -> yinfl (lg_g (cg_l c)) (cg_lead c) ->
    cstep true cfgs c (CGiveUp i j) = Some c' ->
    ylinv cfgs (cg_l c') sm C /\ yinfl (lg_g (cg_l c')) (cg_lead c').
  Proof.
    intros Hinv Hy Hstep. apply cstep_giveup_inv in Hstep. destruct Hstep as (n & ld & s & k & _ & Hfl & _ & _ & _ & ->).
    cbn [cg_l cg_lead]. split; [exact Hinv|]. apply (yinfl_set_same _ _ _ ld _ Hy Hfl). reflexivity.
  Qed.

  Lemma ccommit_y c sm C i c' : ylinv cfgs (cg_l c) sm C -> yinfl (lg_g (cg_l c)) (cg_lead c) ->
    cstep true cfgs c (CCommit i) = Some c' ->
    ylinv cfgs (cg_l c') sm C /\ yinfl (lg_g (cg_l c')) (cg_lead c').
  Proof.
    intros Hinv Hy Hstep. apply cstep_commit_inv in Hstep.
    destruct Hstep as (n & ld & s & ls2 & tr & res & Hf & Hfl & Hr & Hrole & _ & Hlc & ->).
    destruct (find_node_in _ _ _ Hf) as [Hin Hid]. unfold cnodes in *.
    destruct (ynode_up Hinv Hin Hr) as [Hnl _].
    pose proof (leader_commit_ckeep _ _ _ _ Hlc) as (K & _). cbn [l_node] in K.
    pose proof K as (K1 & K2 & K3 & K4 & K5 & K6 & K7 & K8 & K9 & K10 & K11 & K12 & K13 & K14).
    pose proof (leader_commit_fsm s (ld_cm ld) (ld_infl ld) ls2 tr res (log_in_keys C _ _ (ys_in Hnl)) Hlc) as [Hinfl Hfsm].
    rewrite <- Hid in Hfl.
    destruct (infl_leader (cg_l c) sm C n s ld Hinv Hin Hr Hrole (Hy _ _ Hfl)) as [L1 L2].
    destruct (ynode_up Hinv Hin Hr) as [_ Hvt].
    cbn [cg_l cg_lead]. split.
    - apply (ylinv_volatile cfgs HQ (cg_l c) sm C i n s (l_node ls2) Hinv Hf Hr Hrole K1 K7 (ckeep_lkeep _ _ K) K11).
      destruct Hfsm as [[_ E]|(_ & _ & [E|(e & _ & E & [(fid & He)|(j & He)])])]; try (rewrite E; apply (ys_fl Hnl)).
      + rewrite E. intros _. simpl. pose proof (L2 e fid He). lia.
      + rewrite E. intros _. simpl. destruct (ys_in Hnl j e He) as (_ & _ & Ht). exact Ht.
    - eapply yinfl_mono; [simpl; apply incl_refl|]. rewrite <- Hid. apply (yinfl_set_sub _ _ _ ld _ Hy Hfl).
      cbn [with_notified with_cm ld_infl]. exact Hinfl.
  Qed.

  Theorem cstep_y c sm C l c' : ylinv cfgs (cg_l c) sm C -> yinfl (lg_g (cg_l c)) (cg_lead c) ->
    cstep true cfgs c l = Some c' ->
    exists C', ylinv cfgs (cg_l c') sm C' /\ yinfl (lg_g (cg_l c')) (cg_lead c').
  Proof.
    intros Hinv Hy Hstep. destruct l as [bl|k|i j|i].
    - eapply cbase_y; eauto.
    - exists C. eapply cack_y; eauto.
    - exists C. eapply cgiveup_y; eauto.
    - exists C. eapply ccommit_y; eauto.
  Qed.
End Commit.

(* the invariant of the whole system: that of the replication layer over both kinds of request, and the condition on
   the leadership records *)
Record Yinv (cfgs : list config) (g : sstate) (C : chain) : Prop := {
  yv_l : ylinv cfgs (lg_of g) (ss_msgs g) C;
  yv_i : yinfl (lg_g (lg_of g)) (cg_lead (ss_c g));
}.

Section Snap.
  Variable cfgs : list config.
  Hypothesis HQ : quorums_intersect cfgs.

  (* replicateTo sends the leader's newest snapshot *)
  Lemma ssend_y g C i j last g' : Yinv cfgs g C -> sstep cfgs g (SSend i j last) = Some g' -> Yinv cfgs g' C.
  Proof.
    intros [Hinv Hy] Hstep. unfold sstep in Hstep. cbv zeta in Hstep. unfold lg_of in *.
    destruct (find_node (g_nodes (lg_g (cg_l (ss_c g)))) i) as [n|] eqn:Hfind; [|discriminate].
    destruct (find_lead (cg_lead (ss_c g)) i) as [ld|]; [|discriminate].
    destruct (gn_run n) as [s|s] eqn:Hrun; [|discriminate].
    destruct (negb _) eqn:Hc; [discriminate|]. apply negb_false_iff in Hc.
    apply andb_prop in Hc. destruct Hc as [Hc _]. apply andb_prop in Hc. destruct Hc as [H1 H2].
    apply N.eqb_eq in H1. apply negb_true_iff, N.eqb_neq in H2.
    destruct (assoc (ld_out ld) j); [discriminate|]. destruct (sout_cur g i j); [discriminate|].
    destruct (setup_send (gn_P n) s (next_of ld j) last); try discriminate.
    unfold newest in Hstep. destruct (list_snaps (d_snaps s)) as [|sn rest] eqn:Els; [discriminate|].
    inversion Hstep; subst g'. clear Hstep. constructor; cbn [ss_c ss_msgs lg_of]; [|exact Hy].
    destruct (find_node_in _ _ _ Hfind) as [Hin Hid].
    destruct (ynode_up Hinv Hin Hrun) as [Hnl Hvt].
    assert (Hsn : In sn (d_snaps s)).
    { destruct (list_snaps_spec (d_snaps s)) as [_ Hm]. apply Hm. rewrite Els. left. reflexivity. }
    destruct (ys_sns Hnl sn Hsn) as [S1 S2].
    apply (ssend_ylinv cfgs _ _ C i n s _ Hinv Hfind Hrun H1); simpl; auto. lia.
  Qed.

  (* a snapshot request is executed by its target *)
  Lemma sdeliver_y g C k cut fs g' : Yinv cfgs g C -> sstep cfgs g (SDeliver k cut fs) = Some g' -> Yinv cfgs g' C.
  Proof.
    intros [Hinv Hy] Hstep. unfold sstep in Hstep. cbv zeta in Hstep. unfold lg_of in *.
    destruct (nth_error (ss_msgs g) k) as [m|] eqn:Hk; [|discriminate].
    destruct (find_node (g_nodes (lg_g (cg_l (ss_c g)))) (sm_to m)) as [nj|]; [|discriminate].
    destruct (step_full (gn_P nj) (gn_run nj) (NInstall (sm_req m)) cut fs) as [[r0 ob] out0].
    destruct (gstep cfgs (lg_g (cg_l (ss_c g))) (GInput (sm_to m) (NInstall (sm_req m)) cut fs)) as [g1|] eqn:Hg; [|discriminate].
    inversion Hstep; subst g'. clear Hstep. constructor; cbn [ss_c ss_msgs lg_of cg_l cg_lead lg_g].
    - apply (install_ylinv cfgs HQ (cg_l (ss_c g)) (ss_msgs g) C m cut fs g1 Hinv (nth_error_In _ _ Hk) Hg).
    - eapply yinfl_mono; [|exact Hy]. eapply gstep_leaders_incl; eauto.
  Qed.

  (* the answer to a snapshot request returns to replicateTo *)
  Lemma sack_y g C k g' : Yinv cfgs g C -> sstep cfgs g (SAck k) = Some g' -> Yinv cfgs g' C.
  Proof.
    intros [Hinv Hy] Hstep. unfold sstep in Hstep. cbv zeta in Hstep. unfold lg_of in *.
    destruct (nth_error (ss_ans g) k) as [[k0 [[rterm ok] er]]|]; [|discriminate].
    destruct (nth_error (ss_msgs g) k0) as [m|]; [|discriminate].
    destruct (find_node (g_nodes (lg_g (cg_l (ss_c g)))) (sm_from m)) as [n|] eqn:Hfind; [|discriminate].
    destruct (find_lead (cg_lead (ss_c g)) (sm_from m)) as [ld|] eqn:Hfl; [|discriminate].
    destruct (gn_run n) as [s|s] eqn:Hrun; [|discriminate].
    destruct (negb _) eqn:Hc; [discriminate|]. apply negb_false_iff in Hc.
    apply andb_prop in Hc. destruct Hc as [Hc _]. apply andb_prop in Hc. destruct Hc as [H1 _]. apply N.eqb_eq in H1.
    pose proof (fun ld' => yinfl_set_same _ _ _ ld ld' Hy Hfl) as Hsame.
    destruct (iq_term (sm_req m) <? rterm).
    - inversion Hstep; subst g'. clear Hstep. constructor; cbn [ss_c ss_msgs lg_of cg_l cg_lead lg_g].
      + apply (stepdown_y cfgs HQ (cg_l (ss_c g)) (ss_msgs g) C _ n s Hinv Hfind Hrun H1).
      + eapply yinfl_mono; [|exact Hy]. simpl. apply incl_refl.
    - destruct ok; inversion Hstep; subst g'; clear Hstep; constructor; cbn [ss_c ss_msgs lg_of cg_l cg_lead lg_g]; try assumption.
      match goal with |- context [if ?b then _ else _] => destruct b end; apply Hsame; reflexivity.
  Qed.

  Lemma sgiveup_y g C i j g' : Yinv cfgs g C -> sstep cfgs g (SGiveUp i j) = Some g' -> Yinv cfgs g' C.
  Proof.
    intros [Hinv Hy] Hstep. unfold sstep in Hstep. cbv zeta in Hstep. destruct (sout_cur g i j); [|discriminate].
    inversion Hstep; subst g'. constructor; assumption.
  Qed.

  Lemma sbase_y g C bl g' : Yinv cfgs g C -> sstep cfgs g (SBase bl) = Some g' ->
    exists C', Yinv cfgs g' C'.
  Proof.
    intros [Hinv Hy] Hstep. unfold sstep in Hstep. cbv zeta in Hstep. destruct (negb (base_ok g bl)); [discriminate|].
    destruct (cstep true cfgs (ss_c g) bl) as [c'|] eqn:Hc; [|discriminate]. inversion Hstep; subst g'. clear Hstep.
    destruct (cstep_y cfgs HQ (ss_c g) (ss_msgs g) C bl c' Hinv Hy Hc) as (C' & H1 & H2).
    exists C'. constructor; assumption.
  Qed.

  Theorem sstep_y g C l g' : Yinv cfgs g C -> sstep cfgs g l = Some g' -> exists C', Yinv cfgs g' C'.
  Proof.
    intros HI Hstep. destruct l as [bl|i j last|k cut fs|k|i j].
    - eapply sbase_y; eauto.
    - exists C. eapply ssend_y; eauto.
    - exists C. eapply sdeliver_y; eauto.
    - exists C. eapply sack_y; eauto.
    - exists C. eapply sgiveup_y; eauto.
  Qed.

  Theorem srun_y ls : forall g C g', Yinv cfgs g C -> srun cfgs g ls = Some g' -> exists C', Yinv cfgs g' C'.
  Proof.
    induction ls as [|l r IH]; intros g C g' HI Hrun; simpl in Hrun.
    - inversion Hrun; subst. exists C. exact HI.
    - destruct (sstep cfgs g l) as [g1|] eqn:Hs; [|discriminate].
      destruct (sstep_y g C l g1 HI Hs) as (C1 & HI1).
      apply (IH g1 C1 g' HI1 Hrun).
  Qed.
End Snap.

Lemma nlog_ynlog C B r : nlog C r -> (forall s, r = Up s -> fst (v_fsmLast s) = 0) -> ynlog C B r.
Proof.
  intros Hn Hf. destruct r as [s|s]; simpl in *.
  - destruct Hn as (Hsn & Hin & Hsi & Hlt & Hz & Hbel). unfold yup, rawb. rewrite Hsn, Hsi. constructor.
    + exact Hin.
    + intros i e He _. apply (Hbel i e He).
    + exact Hlt.
    + unfold topk. simpl. intros E. rewrite (Hz E), E. reflexivity.
    + intros sn [].
    + simpl. split; [lia|congruence].
    + intros Hnz. exfalso. apply Hnz, (Hf s eq_refl).
  - destruct Hn as (Hsn & Hin & top & Hbel). unfold yimg. rewrite Hsn. constructor; [exact Hin| |intros sn []].
    exists top. intros i e He _. apply (Hbel i e He).
Qed.

Lemma sinit_yinv cfg g0 : sinit_ok cfg g0 -> exists C, Yinv [cfg] g0 C.
Proof.
  intros ([H0 Hf] & Hm & _ & _). destruct H0 as (Hlin & Hlead & _ & _ & HV & Hcn).
  destruct (linit_linv_base [cfg] (cg_l (ss_c g0)) Hlin) as (base & Hh & Hlinv & Hni).
  exists (base_chain (0, 0) base). constructor.
  - unfold lg_of. rewrite Hm. constructor; [|intros m []].
    apply linv_shell in Hlinv. revert Hlinv. apply shell_weaken; [auto| |].
    + intros n Hin A. split; [|apply (Hcn n Hin)]. apply nlog_ynlog; [exact A|]. intros s Hs. apply (Hf n s Hin Hs).
    + intros m Hmm. destruct Hlin as (_ & Hm0 & _). rewrite Hm0 in Hmm. destruct Hmm.
  - unfold lg_of. rewrite Hlead. intros i ld Hfl. discriminate.
Qed.

Lemma ynlog_top C B r : ynlog C B r ->
  log_in C (d_log (image r)) (d_term (image r)) /\
  exists top, forall i e, d_log (image r) !! i = Some e -> B < i -> anc C (key e) top.
Proof. intros H. destruct (ynlog_image C B r H) as [A1 A2 _]. split; assumption. Qed.

Lemma ylinv_branch cfgs g sm C : ylinv cfgs g sm C ->
  log_matching_above_all_snapshots g /\ terms_monotone_above_all_snapshots g.
Proof.
  intros Hinv.
  assert (Hn : forall a, In a (g_nodes (lg_g g)) -> log_in C (log_of a) (d_term (image (gn_run a))) /\
            exists top, forall i e, log_of a !! i = Some e -> max_snap_idx g + 1 <= i -> anc C (key e) top).
  { intros a Ha. destruct (sh_nodes (yl_sh Hinv) a Ha) as ((Hna & _) & _). destruct (ynlog_top C _ _ Hna) as (I & top & T).
    split; [exact I|]. exists top. intros i e Hi Hb. apply (T i e Hi). lia. }
  destruct (branch_log_matching_above g C (max_snap_idx g + 1) (sh_chain (yl_sh Hinv)) Hn) as [H1 H2]. split.
  - intros a b Ha Hb i ea eb Hea Heb Ht k ka kb Hki Hbk. apply (H1 a b Ha Hb i ea eb Hea Heb Ht k ka kb Hki). lia.
  - intros a Ha. split; [intros i ei Hi; apply (proj1 (Hn a Ha) i ei Hi)|].
    intros i j ei ej Hbi Hij Hi Hj. apply (H2 a Ha i j ei ej ltac:(lia) Hij Hi Hj).
Qed.

Theorem log_matching_above_all_snapshots_all_runs : forall cfg g0 ls g,
  sinit_ok cfg g0 -> srun [cfg] g0 ls = Some g ->
  log_matching_above_all_snapshots (lg_of g) /\ terms_monotone_above_all_snapshots (lg_of g).
Proof.
  intros cfg g0 ls g H0 Hrun. pose proof H0 as (((_ & _ & _ & _ & HVn & _) & _) & _).
  destruct (sinit_yinv cfg g0 H0) as [C0 HI0].
  destruct (srun_y [cfg] (quorums_intersect_one cfg HVn) ls g0 C0 g HI0 Hrun) as (C & [Hl _]).
  eapply ylinv_branch; eauto.
Qed.

(* with the side conditions on labels that the all-runs theorems of the commit layer carry (they are not needed: the
   system itself refuses forged AppendEntries / InstallSnapshot inputs, and Log Matching does not depend on the kind
   of entries proposed) *)
Corollary log_matching_above_all_snapshots_labelled_runs : forall cfg g0 ls g,
  sinit_ok cfg g0 -> Forall slabel_ok ls -> srun [cfg] g0 ls = Some g ->
  log_matching_above_all_snapshots (lg_of g) /\ terms_monotone_above_all_snapshots (lg_of g).
Proof. intros cfg g0 ls g H0 _ Hrun. eapply log_matching_above_all_snapshots_all_runs; eauto. Qed.

Print Assumptions log_matching_above_all_snapshots_all_runs.
