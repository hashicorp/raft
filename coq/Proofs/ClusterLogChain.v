(* ClusterLogChain.v — the ghost history of the Log Matching proof: every entry ever created,
   paired with the (index, term) of the entry it was appended after; the ancestor relation. *)
From Coq Require Import List NArith Bool Lia.
From stdpp Require Import gmap.
From RaftModel Require Import Base.
From RaftProofs Require Import LeaderProofs ClusterLogSpec.
Open Scope N_scope.

Lemma entry_eqb_refl e : entry_eqb e e = true.
Proof. unfold entry_eqb. rewrite !N.eqb_refl. reflexivity. Qed.

Lemma entry_eq_dec (a b : entry) : {a = b} + {a <> b}.
Proof. decide equality; apply N.eq_dec. Qed.

Lemma lookup_entry_dec (m : gmap N entry) i x : m !! i = Some x \/ m !! i <> Some x.
Proof. destruct (m !! i) as [x'|]; [destruct (entry_eq_dec x' x) as [->|Hne]; [left; reflexivity|right; congruence]|right; discriminate]. Qed.

Definition chain : Type := list (entry * (N * N)).

Record chain_ok (C : chain) : Prop := {
  co_fun : forall e p e' p', In (e, p) C -> In (e', p') C -> key e = key e' -> e = e' /\ p = p';
  co_idx : forall e p, In (e, p) C -> e_idx e = fst p + 1 /\ snd p <= e_term e;
  co_zero : forall e p, In (e, p) C -> fst p = 0 -> p = (0, 0);
}.

(* a is k, or the predecessor of ... of the predecessor of k *)
Inductive anc (C : chain) (a : N * N) : N * N -> Prop :=
| anc_refl : anc C a a
| anc_up e p k : In (e, p) C -> key e = k -> anc C a p -> anc C a k.

Lemma anc_trans C a b c : anc C a b -> anc C b c -> anc C a c.
Proof.
  intros Hab Hbc. induction Hbc as [|e p k Hin Hk Hbp IH]; [exact Hab|].
  eapply anc_up; eauto.
Qed.

Lemma anc_mono C C' a k : incl C C' -> anc C a k -> anc C' a k.
Proof.
  intros Hi H. induction H as [|e p k Hin Hk _ IH]; [apply anc_refl|].
  eapply anc_up; [apply Hi; exact Hin|exact Hk|exact IH].
Qed.

Lemma anc_cons C e p a k : anc C a k -> anc ((e, p) :: C) a k.
Proof. apply anc_mono. intros x Hx. right. exact Hx. Qed.

Lemma anc_le C a k : chain_ok C -> anc C a k -> fst a <= fst k /\ snd a <= snd k.
Proof.
  intros HC H. induction H as [|e p k Hin Hk _ IH]; [lia|].
  destruct (co_idx C HC e p Hin) as [A B]. subst k. unfold key. simpl. lia.
Qed.

Lemma anc_lt_or_eq C a k : chain_ok C -> anc C a k -> a = k \/ fst a < fst k.
Proof.
  intros HC H. destruct H as [|e p k' Hin Hk Hap]; [left; reflexivity|right].
  destruct (co_idx C HC e p Hin) as [A _]. destruct (anc_le C a p HC Hap) as [B _].
  rewrite <- Hk. unfold key. simpl. lia.
Qed.

Lemma anc_idx_eq C a k : chain_ok C -> anc C a k -> fst a = fst k -> a = k.
Proof. intros HC H E. destruct (anc_lt_or_eq C a k HC H) as [->|Hlt]; [reflexivity|lia]. Qed.

Lemma anc_linear C a b k : chain_ok C -> anc C a k -> anc C b k -> fst a <= fst b -> anc C a b.
Proof.
  intros HC Ha Hb. revert a Ha. induction Hb as [|e p k Hin Hk Hbp IH]; intros a Ha Hle; [exact Ha|].
  destruct Ha as [|e' p' k' Hin' Hk' Hap'].
  - exfalso. destruct (co_idx C HC e p Hin) as [A _]. destruct (anc_le C b p HC Hbp) as [B _].
    rewrite <- Hk in Hle. unfold key in Hle. simpl in Hle. lia.
  - assert (p' = p). { apply (co_fun C HC e' p' e p Hin' Hin). congruence. }
    subst p'. apply IH; assumption.
Qed.

Lemma anc_unique C a b k : chain_ok C -> anc C a k -> anc C b k -> fst a = fst b -> a = b.
Proof.
  intros HC Ha Hb E. assert (H : anc C a b) by (eapply anc_linear; eauto; lia).
  apply (anc_idx_eq C a b HC H E).
Qed.

Lemma anc_pred C a e p : chain_ok C -> In (e, p) C -> anc C a (key e) -> fst a + 1 = e_idx e -> a = p.
Proof.
  intros HC Hin Ha E. remember (key e) as k eqn:Ek. destruct Ha as [|e' p' k Hin' Hk' Hap'].
  - subst a. unfold key in E. simpl in E. lia.
  - assert (p' = p). { apply (co_fun C HC e' p' e p Hin' Hin). congruence. }
    subst p'. apply (anc_idx_eq C a p HC Hap'). destruct (co_idx C HC e p Hin) as [A _]. lia.
Qed.

(* an ancestor chain passes through every index *)
Lemma anc_at C a x i : chain_ok C -> anc C a x -> fst a < i <= fst x ->
  exists e p, In (e, p) C /\ e_idx e = i /\ anc C (key e) x.
Proof.
  intros HC H. induction H as [|e p k Hin Hk Hap IH]; intros Hi; [lia|].
  destruct (co_idx C HC e p Hin) as [Hei _]. subst k. unfold key in Hi. simpl in Hi.
  destruct (N.eq_dec i (e_idx e)) as [->|Hne].
  - exists e, p. split; [exact Hin|]. split; [reflexivity|apply anc_refl].
  - destruct IH as (e' & p' & H1 & H2 & H3); [lia|]. exists e', p'. split; [exact H1|]. split; [exact H2|].
    eapply anc_up; [exact Hin|reflexivity|exact H3].
Qed.

(* consecutive chain elements, the first one appended after p *)
Fixpoint mchain (C : chain) (p : N * N) (es : list entry) : Prop :=
  match es with
  | [] => True
  | e :: r => In (e, p) C /\ mchain C (key e) r
  end.

Lemma mchain_mono C C' p es : incl C C' -> mchain C p es -> mchain C' p es.
Proof.
  intros Hi. revert p. induction es as [|e r IH]; intros p H; simpl in *; [exact I|].
  destruct H as [H1 H2]. split; [apply Hi; exact H1|apply IH; exact H2].
Qed.

Lemma mchain_in C p es : mchain C p es -> forall e, In e es -> exists q, In (e, q) C.
Proof.
  revert p. induction es as [|x r IH]; intros p H e He; simpl in *; [contradiction|].
  destruct H as [H1 H2]. destruct He as [<-|He]; [exists p; exact H1|eapply IH; eauto].
Qed.

Lemma mchain_anc C p es : mchain C p es -> forall e, In e es -> anc C p (key e).
Proof.
  revert p. induction es as [|x r IH]; intros p H e He; simpl in *; [contradiction|].
  destruct H as [H1 H2].
  assert (Hx : anc C p (key x)) by (eapply anc_up; [exact H1|reflexivity|apply anc_refl]).
  destruct He as [<-|He]; [exact Hx|]. eapply anc_trans; [exact Hx|]. apply (IH _ H2 e He).
Qed.

Lemma mchain_app C p a b : mchain C p (a ++ b) ->
  mchain C p a /\ mchain C (match a with [] => p | _ => key (last a (mkE 0 0 0 0)) end) b.
Proof.
  revert p. induction a as [|x r IH]; intros p H; simpl in *; [auto|].
  destruct H as [H1 H2]. destruct (IH _ H2) as [A B]. split; [auto|].
  destruct r as [|y r']; [exact B|exact B].
Qed.

Lemma mchain_last C p es : mchain C p es -> forall e, In e es -> anc C (key e) (key (last es (mkE 0 0 0 0))).
Proof.
  revert p. induction es as [|x r IH]; intros p H e He; [contradiction|].
  destruct H as [H1 H2]. destruct r as [|y r'].
  - destruct He as [<-|[]]. apply anc_refl.
  - change (last (x :: y :: r') (mkE 0 0 0 0)) with (last (y :: r') (mkE 0 0 0 0)).
    destruct He as [<-|He]; [|apply (IH _ H2 e He)].
    eapply anc_trans; [|apply (IH _ H2 y); left; reflexivity].
    apply (mchain_anc C (key x) (y :: r') H2 y). left. reflexivity.
Qed.
