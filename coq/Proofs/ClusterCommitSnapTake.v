(* ClusterCommitSnapTake.v — what takeSnapshot does, for no invariant in particular, read off
   NodeFrame.take_snapshot_spec: the snapshot it stores is taken at the (index, term) the FSM goroutine
   reported, the compaction removes log entries at or below that index only (take_cases); what every crash image
   holds (snap_eff, take_images) and the state it returns (snap_done). *)
From Coq Require Import List NArith Bool Lia.
From stdpp Require Import gmap.
From RaftModel Require Import Base Compaction Node NodeCodec.
From RaftProofs Require Import NodeEvent NodeFrame CompactionProofs ClusterLogNode ClusterLogCut ClusterLogAppend.
Open Scope N_scope.

Definition snap_of (s : nstate) : snapshot :=
  mkSnap (fst (v_fsmLast s)) (snd (v_fsmLast s)) (v_committed s) (v_committedIdx s) (v_fsm s) true.

(* the dispatcher at NSnapshot: a crash image may hold snap_of s *)
Lemma step_snapshot_of P s cut fs : step_full P (Up s) NSnapshot cut fs =
  finish P (fun x : N => [x]) (fun _ => ONone) (Some (snap_of s)) s cut (take_snapshot P s fs).
Proof. apply step_snapshot. Qed.

Lemma take_cases P s fs :
  exists s' r tr fs', take_snapshot P s fs = Done s' r tr fs' /\
    ((s' = s /\ dlf tr = []) \/
     (fst (v_fsmLast s) <> 0 /\
      let s1 := set_lastsnap (set_snaps s (d_snaps s ++ [snap_of s])) (fst (v_fsmLast s)) (snd (v_fsmLast s)) in
      ((s' = s1 /\ dlf tr = [ESnap (fst (v_fsmLast s)) (snd (v_fsmLast s)) true]) \/
       (exists lo hi, hi <= fst (v_fsmLast s) /\ s' = set_log s1 (log_delete (d_log s) lo hi) (d_staged s) (d_pcommit s) /\
          dlf tr = [ESnap (fst (v_fsmLast s)) (snd (v_fsmLast s)) true; EDelete lo hi true])))).
Proof.
  pose proof (take_snapshot_spec P s fs) as H. cbv zeta in H. fold (snap_of s) in H.
  destruct H as [(code & tr & fs' & -> & _ & Ht)|(Hnz & _ & [(fs' & ->)|(lo & hi & ok & fs' & Hhi & _ & ->)])];
    do 4 eexists; (split; [reflexivity|]).
  - left. destruct Ht as [->| ->]; auto.
  - right. split; [exact Hnz|]. left. auto.
  - right. split; [exact Hnz|]. destruct ok; [right; exists lo, hi; auto|left; auto].
Qed.

Definition snap_eff (s : nstate) (m' : gmap N entry) (sns' : list snapshot) : Prop :=
  (m' = d_log s /\ sns' = d_snaps s) \/
  (fst (v_fsmLast s) <> 0 /\ sns' = d_snaps s ++ [snap_of s] /\
   (m' = d_log s \/ exists lo hi, m' = log_delete (d_log s) lo hi /\ hi <= fst (v_fsmLast s))).

(* every crash image: term and commit indices untouched, log and snapshot stores as snap_eff says *)
Lemma take_images P s fs j :
  let d := fold_left (d_apply P (Some (snap_of s))) (firstn j (dlf (trace_of (take_snapshot P s fs)))) (dpr s) in
  di_term d = d_term s /\ di_staged d = d_staged s /\ di_pcommit d = d_pcommit s /\ snap_eff s (di_log d) (di_snaps d).
Proof.
  cbv zeta. destruct (take_cases P s fs) as (s' & r & tr & fs' & -> & Hc). cbn [trace_of].
  destruct Hc as [[_ ->]|(Hnz & [[_ ->]|(lo & hi & Hhi & _ & ->)])].
  - destruct j; simpl; repeat (split; [reflexivity|]); left; auto.
  - destruct j as [|[|j]]; simpl; repeat (split; [reflexivity|]); [left; auto|right; auto|right; auto].
  - destruct j as [|[|[|j]]]; simpl; repeat (split; [reflexivity|]); [left; auto|right; auto|right|right];
      (split; [exact Hnz|]; split; [reflexivity|]; right; exists lo, hi; auto).
Qed.

(* the state takeSnapshot returns: nothing changed, or the snapshot is stored, is the new boundary,
   and log entries at or below its index may be gone *)
Definition snap_done (s s' : nstate) : Prop :=
  s' = s \/
  (fst (v_fsmLast s) <> 0 /\ exists m',
     s' = set_log (set_lastsnap (set_snaps s (d_snaps s ++ [snap_of s])) (fst (v_fsmLast s)) (snd (v_fsmLast s))) m' (d_staged s) (d_pcommit s) /\
     (m' = d_log s \/ exists lo hi, m' = log_delete (d_log s) lo hi /\ hi <= fst (v_fsmLast s))).

Lemma take_done P s fs s' r tr fs' : take_snapshot P s fs = Done s' r tr fs' -> snap_done s s'.
Proof.
  intros Ho. destruct (take_cases P s fs) as (s1 & r1 & tr1 & fs1 & Ho1 & Hc). rewrite Ho in Ho1. inversion Ho1; subst s1 r1 tr1 fs1. clear Ho1.
  destruct Hc as [[-> _]|(Hnz & [[-> _]|(lo & hi & Hhi & -> & _)])].
  - left. reflexivity.
  - right. split; [exact Hnz|]. exists (d_log s). split; [reflexivity|left; reflexivity].
  - right. split; [exact Hnz|]. exists (log_delete (d_log s) lo hi). split; [reflexivity|]. right. exists lo, hi. auto.
Qed.

Lemma snap_eff_sub s m' sns' : snap_eff s m' sns' -> log_sub m' (d_log s).
Proof.
  intros [[-> _]|(_ & _ & [->|(lo & hi & -> & _)])]; [apply log_sub_refl|apply log_sub_refl|apply log_delete_sub].
Qed.
