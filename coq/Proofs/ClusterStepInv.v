(* ClusterStepInv.v — what a step that was taken says, label by label, for the election system (Model/Cluster.v gstep)
   and the replication system (Model/ClusterLog.v lstep): the server found, the guards as propositions, and the state
   reached as an equation.  No invariant is assumed.  Proofs/ClusterProofs.v adds, for the election timer and a vote
   result at a well-formed server, what runCandidate did there (cand_move: gstep_timeout_move, gstep_voteresp_move). *)
From Coq Require Import List NArith Bool Lia.
From stdpp Require Import gmap.
From RaftModel Require Import Config Node NodeCodec Candidate Leader Replicate Cluster ClusterLog.
Open Scope N_scope.

Lemma server_eqb_eq a b : server_eqb a b = true -> a = b.
Proof.
  unfold server_eqb. intros H. apply andb_prop in H. destruct H as [H H3]. apply andb_prop in H. destruct H as [H1 H2].
  apply N.eqb_eq in H1, H2, H3. destruct a, b; simpl in *; subst; reflexivity.
Qed.

Lemma config_eqb_eq a : forall b, config_eqb a b = true -> a = b.
Proof.
  induction a as [|x r IH]; intros [|y r'] H; simpl in H; try discriminate; [reflexivity|].
  apply andb_prop in H. destruct H as [H1 H2]. apply server_eqb_eq in H1. apply IH in H2. subst. reflexivity.
Qed.

Lemma mem_false x l : mem x l = false -> ~ In x l.
Proof.
  unfold mem. intros H Hin. assert (existsb (N.eqb x) l = true); [|congruence].
  apply existsb_exists. exists x. split; [exact Hin|apply N.eqb_refl].
Qed.
Lemma mem_true x l : mem x l = true -> In x l.
Proof. unfold mem. intros H. apply existsb_exists in H. destruct H as (y & Hy & E). apply N.eqb_eq in E. subst. exact Hy. Qed.

(* gstep treats the result of sess_enter and of sess_step alike: the run state of the server, and the leadership
   recorded when the loop was won *)
Definition loop_run (P : params) (x : csess) : nrun :=
  match x with
  | SCand s _ | SFollower s => Up s
  | SLeader s => Up (become_leader P s)
  | SDead s => Down s
  end.

Definition sess_leaders (i : N) (x : csess) (L : list (N * N)) : list (N * N) :=
  match x with SLeader s => (v_term s, i) :: L | _ => L end.

Lemma sess_leaders_incl i x L : incl L (sess_leaders i x L).
Proof. destruct x; cbn [sess_leaders]; [apply incl_refl|apply incl_refl|apply incl_tl, incl_refl|apply incl_refl]. Qed.

Lemma loop_run_up P x s : loop_run P x = Up s ->
  s = sess_state x \/ exists s0, x = SLeader s0 /\ s = become_leader P s0.
Proof.
  destruct x as [s0 c|s0|s0|s0]; cbn [loop_run sess_state]; intros H; inversion H; subst; auto.
  right. exists s0. auto.
Qed.

Lemma gstep_timeout_inv cfgs g i g1 : gstep cfgs g (GTimeout i) = Some g1 ->
  exists n s x tr, find_node (g_nodes g) i = Some n /\ gn_run n = Up s /\
    In (v_latest s) cfgs /\ v_role s <> Leader /\
    sess_enter (gn_P n) false (match gn_sess n with Some _ => set_transfer s false | None => s end) = (x, tr) /\
    g1 = mkG (upd_node (g_nodes g) i
                (mkGN (gn_P n) (loop_run (gn_P n) x)
                      (match x with
                       | SCand s' c => Some (mkSess c (gn_next n) (req_of (gn_P n) s') (peers_of (gn_P n) s') [])
                       | _ => None
                       end) (gn_next n + 1)))
             (g_resps g) (sess_leaders i x (g_leaders g))
             (match x with
              | SCand s' c => if 1 <=? c_granted c then (i, v_term s', i) :: g_grants g else g_grants g
              | SLeader s' => (i, v_term s', i) :: g_grants g
              | _ => g_grants g
              end).
Proof.
  intros H. unfold gstep in H.
  destruct (find_node (g_nodes g) i) as [n|]; [|discriminate H].
  destruct (gn_run n) as [s|s] eqn:Hr; [|discriminate H].
  destruct (negb (existsb (config_eqb (v_latest s)) cfgs) || (v_role s =? Leader)) eqn:Hc; [discriminate H|].
  apply orb_false_elim in Hc. destruct Hc as [Hc Hrole]. apply negb_false_iff in Hc. apply N.eqb_neq in Hrole.
  destruct (sess_enter (gn_P n) false _) as [x tr] eqn:Hx.
  exists n, s, x, tr. split; [reflexivity|]. split; [exact Hr|]. split; [|split; [exact Hrole|split; [exact Hx|]]].
  - apply existsb_exists in Hc. destruct Hc as (c & Hin & Hc). apply config_eqb_eq in Hc. rewrite Hc. exact Hin.
  - destruct x; inversion H; reflexivity.
Qed.

Lemma gstep_votereq_inv cfgs g i j cut fs g1 : gstep cfgs g (GVoteReq i j cut fs) = Some g1 ->
  exists ni nj se r' ob out, find_node (g_nodes g) i = Some ni /\ find_node (g_nodes g) j = Some nj /\
    gn_sess ni = Some se /\ In j (se_asked se) /\
    step_full (gn_P nj) (gn_run nj) (NVote (se_req se)) cut fs = (r', ob, out) /\
    g1 = mkG (upd_node (g_nodes g) j (mkGN (gn_P nj) r' (keep_sess r' (gn_sess nj)) (gn_next nj)))
             (g_resps g ++ match ob with
                           | OVote _ t gr => [mkResp i (se_epoch se) j (vq_term (se_req se)) t gr]
                           | _ => []
                           end)
             (g_leaders g) (grant_ghost j ob ++ g_grants g).
Proof.
  intros H. unfold gstep in H.
  destruct (find_node (g_nodes g) i) as [ni|]; [|discriminate H].
  destruct (find_node (g_nodes g) j) as [nj|]; [|discriminate H].
  destruct (gn_sess ni) as [se|] eqn:Hse; [|discriminate H].
  destruct (mem j (se_asked se)) eqn:Hm; [|discriminate H]. cbn [negb] in H.
  destruct (step_full (gn_P nj) (gn_run nj) (NVote (se_req se)) cut fs) as [[r' ob] out] eqn:Hsf.
  inversion H. exists ni, nj, se, r', ob, out. split; [reflexivity|]. split; [reflexivity|]. split; [exact Hse|].
  split; [apply mem_true, Hm|]. split; [exact Hsf|reflexivity].
Qed.

Lemma gstep_voteresp_inv cfgs g i j g1 : gstep cfgs g (GVoteResp i j) = Some g1 ->
  exists n s se rp x tr, find_node (g_nodes g) i = Some n /\ gn_run n = Up s /\ gn_sess n = Some se /\
    ~ In j (se_got se) /\ find_resp (g_resps g) i (se_epoch se) j = Some rp /\
    sess_step (gn_P n) false (SCand s (se_c se)) (CVote (mkVR (rp_term rp) (rp_granted rp))) = (x, tr) /\
    g1 = mkG (upd_node (g_nodes g) i
                (mkGN (gn_P n) (loop_run (gn_P n) x)
                      (match x with
                       | SCand _ c' => Some (mkSess c' (se_epoch se) (se_req se) (se_asked se) (j :: se_got se))
                       | _ => None
                       end) (gn_next n)))
             (g_resps g) (sess_leaders i x (g_leaders g)) (g_grants g).
Proof.
  intros H. unfold gstep in H.
  destruct (find_node (g_nodes g) i) as [n|]; [|discriminate H].
  destruct (gn_run n) as [s|s] eqn:Hr; [|discriminate H].
  destruct (gn_sess n) as [se|] eqn:Hse; [|discriminate H].
  destruct (mem j (se_got se)) eqn:Hm; [discriminate H|].
  destruct (find_resp (g_resps g) i (se_epoch se) j) as [rp|] eqn:Hfr; [|discriminate H].
  destruct (sess_step (gn_P n) false _ _) as [x tr] eqn:Hx.
  exists n, s, se, rp, x, tr. split; [reflexivity|]. split; [exact Hr|]. split; [exact Hse|].
  split; [apply mem_false, Hm|]. split; [exact Hfr|]. split; [exact Hx|].
  destruct x; inversion H; reflexivity.
Qed.

Lemma gstep_input_inv cfgs g j e cut fs g1 : gstep cfgs g (GInput j e cut fs) = Some g1 ->
  exists nj r' ob out, find_node (g_nodes g) j = Some nj /\
    step_full (gn_P nj) (gn_run nj) e cut fs = (r', ob, out) /\
    g1 = mkG (upd_node (g_nodes g) j (mkGN (gn_P nj) r' (keep_sess r' (gn_sess nj)) (gn_next nj)))
             (g_resps g) (g_leaders g) (grant_ghost j ob ++ g_grants g) /\
    e <> NElect /\ e <> NTimeoutDecision.
Proof.
  intros H. unfold gstep in H.
  destruct (find_node (g_nodes g) j) as [nj|]; [|destruct e; discriminate H].
  destruct (step_full (gn_P nj) (gn_run nj) e cut fs) as [[r' ob] out] eqn:Hsf.
  exists nj, r', ob, out. split; [reflexivity|]. split; [exact Hsf|].
  split; [destruct e; try discriminate H; inversion H; reflexivity|].
  split; intros ->; discriminate H.
Qed.

Lemma lstep_elect_inv sn cfgs g gl g1 : lstep sn cfgs g (LElect gl) = Some g1 ->
  label_ok sn gl = true /\ exists G, gstep cfgs (lg_g g) gl = Some G /\ g1 = mkLG G (lg_msgs g).
Proof.
  intros H. unfold lstep in H. destruct (label_ok sn gl); [|discriminate H].
  destruct (gstep cfgs (lg_g g) gl) as [G|]; [|discriminate H]. inversion H. split; [reflexivity|]. exists G. auto.
Qed.

Lemma lstep_propose_inv sn cfgs g i ty data fs g1 : lstep sn cfgs g (LPropose i ty data fs) = Some g1 ->
  exists n s ls' res tr fs', find_node (g_nodes (lg_g g)) i = Some n /\ gn_run n = Up s /\ v_role s = Leader /\
    dispatch (gn_P n) (leader_setup s) fs [(ty, data, 0)] = (ls', res, tr, fs') /\
    g1 = mkLG (set_node_run (lg_g g) i n (Up (l_node ls'))) (lg_msgs g).
Proof.
  intros H. unfold lstep in H.
  destruct (find_node (g_nodes (lg_g g)) i) as [n|]; [|discriminate H].
  destruct (gn_run n) as [s|s] eqn:Hr; [|discriminate H].
  destruct (N.eqb_spec (v_role s) Leader) as [Hrole|]; [|discriminate H].
  destruct (dispatch (gn_P n) (leader_setup s) fs [(ty, data, 0)]) as [[[ls' res] tr] fs'] eqn:Hd.
  inversion H. exists n, s, ls', res, tr, fs'. auto 6.
Qed.

Lemma lstep_send_inv sn cfgs g i j next last g1 : lstep sn cfgs g (LSend i j next last) = Some g1 ->
  exists n s pi pt es c, find_node (g_nodes (lg_g g)) i = Some n /\ gn_run n = Up s /\ v_role s = Leader /\
    i <> j /\ 1 <= next /\ last <= last_index s /\
    setup_send (gn_P n) s next last = SendAE pi pt es c /\
    g1 = mkLG (lg_g g) (lg_msgs g ++ [mkAM i j (mkAReq (v_term s) i i pi pt es c)]).
Proof.
  intros H. unfold lstep in H.
  destruct (find_node (g_nodes (lg_g g)) i) as [n|]; [|discriminate H].
  destruct (gn_run n) as [s|s] eqn:Hr; [|discriminate H].
  destruct (N.eqb_spec (v_role s) Leader) as [Hrole|]; [|discriminate H].
  destruct (N.eqb_spec i j) as [|Hij]; [discriminate H|].
  destruct (N.leb_spec 1 next) as [Hnext|]; [|discriminate H].
  destruct (N.leb_spec last (last_index s)) as [Hlast|]; [|discriminate H]. cbn [negb andb] in H.
  destruct (setup_send (gn_P n) s next last) as [pi pt es c| |] eqn:Hss; try discriminate H.
  inversion H. exists n, s, pi, pt, es, c. auto 10.
Qed.

Lemma lstep_heartbeat_inv sn cfgs g i j g1 : lstep sn cfgs g (LHeartbeat i j) = Some g1 ->
  exists n s, find_node (g_nodes (lg_g g)) i = Some n /\ gn_run n = Up s /\ v_role s = Leader /\ i <> j /\
    g1 = mkLG (lg_g g) (lg_msgs g ++ [mkAM i j (mkAReq (v_term s) i i 0 0 [] 0)]).
Proof.
  intros H. unfold lstep in H.
  destruct (find_node (g_nodes (lg_g g)) i) as [n|]; [|discriminate H].
  destruct (gn_run n) as [s|s] eqn:Hr; [|discriminate H].
  destruct (N.eqb_spec (v_role s) Leader) as [Hrole|]; [|discriminate H].
  destruct (N.eqb_spec i j) as [|Hij]; [discriminate H|].
  inversion H. exists n, s. auto 6.
Qed.

Lemma lstep_deliver_inv sn cfgs g k cut fs g1 : lstep sn cfgs g (LDeliver k cut fs) = Some g1 ->
  exists m G, nth_error (lg_msgs g) k = Some m /\ In m (lg_msgs g) /\
    gstep cfgs (lg_g g) (GInput (am_to m) (NAppend (am_req m)) cut fs) = Some G /\ g1 = mkLG G (lg_msgs g).
Proof.
  intros H. unfold lstep in H.
  destruct (nth_error (lg_msgs g) k) as [m|] eqn:Hk; [|discriminate H].
  destruct (gstep cfgs (lg_g g) _) as [G|] eqn:HG; [|discriminate H].
  inversion H. exists m, G. split; [reflexivity|]. split; [eapply nth_error_In, Hk|]. auto.
Qed.

Lemma gstep_leaders_incl cfgs g l g' : gstep cfgs g l = Some g' -> incl (g_leaders g) (g_leaders g').
Proof.
  intros H. destruct l as [i|i j cut fs|i j|j e cut fs].
  - destruct (gstep_timeout_inv _ _ _ _ H) as (n & s & x & tr & _ & _ & _ & _ & _ & ->). apply sess_leaders_incl.
  - destruct (gstep_votereq_inv _ _ _ _ _ _ _ H) as (ni & nj & se & r' & ob & out & _ & _ & _ & _ & _ & ->). apply incl_refl.
  - destruct (gstep_voteresp_inv _ _ _ _ _ H) as (n & s & se & rp & x & tr & _ & _ & _ & _ & _ & _ & ->). apply sess_leaders_incl.
  - destruct (gstep_input_inv _ _ _ _ _ _ _ H) as (nj & r' & ob & out & _ & _ & -> & _). apply incl_refl.
Qed.

Lemma lstep_leaders_incl sn cfgs g bl g' : lstep sn cfgs g bl = Some g' -> incl (g_leaders (lg_g g)) (g_leaders (lg_g g')).
Proof.
  intros H. destruct bl as [gl|i ty data fs|i j next last|i j|k cut fs].
  - destruct (lstep_elect_inv _ _ _ _ _ H) as (_ & G & HG & ->). apply (gstep_leaders_incl _ _ _ _ HG).
  - destruct (lstep_propose_inv _ _ _ _ _ _ _ _ H) as (n & s & ls' & res & tr & fs' & _ & _ & _ & _ & ->). apply incl_refl.
  - destruct (lstep_send_inv _ _ _ _ _ _ _ _ H) as (n & s & pi & pt & es & c & _ & _ & _ & _ & _ & _ & _ & ->). apply incl_refl.
  - destruct (lstep_heartbeat_inv _ _ _ _ _ _ H) as (n & s & _ & _ & _ & _ & ->). apply incl_refl.
  - destruct (lstep_deliver_inv _ _ _ _ _ _ _ H) as (m & G & _ & _ & HG & ->). apply (gstep_leaders_incl _ _ _ _ HG).
Qed.
