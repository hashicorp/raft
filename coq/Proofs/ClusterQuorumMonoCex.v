(* ClusterQuorumMonoCex.v — commit_monotone_step (Proofs/ClusterQuorumSpec.v) does NOT hold for all runs.

   Three servers, no snapshots.  Server 1 is elected (term 2), replicates its no-op (index 2) to
   server 2, commits it, and tells server 2 (an empty AppendEntries with LeaderCommit 2): server 2
   runs with commitIndex 2.  The leader appends a command (index 3) and sends it.  That request is
   delivered with crash cut 1: the process of server 2 dies inside appendEntries right after its
   first durable write (StoreLogs) and the same model step starts it again from its durable image
   (NodeCodec.finish -> boot).  NewRaft starts with commitIndex 0, so server 2 runs before the step
   (commitIndex 2) and after it (commitIndex 0), and the label is LDeliver, not GInput 2 NRestart.
   The same happens with GVoteReq / GInput NSnapshot and a crash cut, and when a handler panics.
   All labels satisfy label_ok; the initial state is the driver's (cinit_snap_ok).

   The true variant: Proofs/ClusterQuorumMonoSpec.v (commit_monotone_step_crash), proved for all
   runs in Proofs/ClusterQuorumMain.v. *)
From Coq Require Import List NArith Bool Lia.
From stdpp Require Import gmap.
From RaftModel Require Import Base Node NodeCodec Cluster ClusterLog ClusterCommit.
From RaftProofs Require Import ClusterProofs ClusterLogExample ClusterCommitSpec ClusterCommitSnapSpec ClusterCommitCex ClusterCommitSnapCex
  ClusterQuorumSpec.
Open Scope N_scope.

Definition mono_cex_labels : list clabel :=
  [ CBase (LElect (GTimeout 1)); CBase (LElect (GVoteReq 1 2 0 [])); CBase (LElect (GVoteResp 1 2));
    CBase (LSend 1 2 2 2); CBase (LDeliver 0 0 []); CAck 0; CCommit 1;
    CBase (LSend 1 2 3 2); CBase (LDeliver 1 0 []); CAck 1;
    CBase (LPropose 1 LogCommand 5 []); CBase (LSend 1 2 3 3) ].

Definition mono_cex_last : clabel := CBase (LDeliver 2 1 []).

Definition commit_fell (g g' : cgstate) (w : N) : bool :=
  match up_state g w, up_state g' w with Some s, Some s' => v_commit s' <? v_commit s | _, _ => false end.

Lemma commit_fell_sound g l g' w : commit_fell g g' w = true -> ~ is_restart_of l w -> ~ commit_monotone_step g l g'.
Proof.
  unfold commit_fell. intros H Hnr CM.
  destruct (up_state g w) as [s|] eqn:U; [|discriminate]. destruct (up_state g' w) as [s'|] eqn:U'; [|discriminate].
  apply N.ltb_lt in H. destruct (up_state_in _ _ _ U) as (n & Hin & Hid & Hr). destruct (up_state_in _ _ _ U') as (n' & Hin' & Hid' & Hr').
  destruct (CM n n' s s' Hin Hin' ltac:(congruence) Hr Hr') as [Hle|Hre]; [lia|]. rewrite Hid in Hre. exact (Hnr Hre).
Qed.

Theorem commit_monotone_all_runs_refuted : exists sn cfg g0 ls g l g',
  cinit_snap_ok cfg g0 /\ Forall label_ok ls /\ crun sn [cfg] g0 ls = Some g /\
  label_ok l /\ cstep sn [cfg] g l = Some g' /\ ~ commit_monotone_step g l g'.
Proof.
  destruct (opt_witness (crun false [mk_cfg 3] cex_g0 mono_cex_labels)
              (fun g => match cstep false [mk_cfg 3] g mono_cex_last with Some g' => commit_fell g g' 2 | None => false end))
    as (g & Hrun & Hc); [vm_compute; reflexivity|].
  apply opt_witness in Hc. destruct Hc as (g' & Hstep & Hc).
  exists false, (mk_cfg 3), cex_g0, mono_cex_labels, g, mono_cex_last, g'.
  split; [apply (mk_nodes_cinit_snap 3 [0; 0; 0])|].
  split; [repeat constructor; simpl; try discriminate; exact I|]. split; [exact Hrun|].
  split; [split; exact I|]. split; [exact Hstep|].
  apply (commit_fell_sound g mono_cex_last g' 2 Hc). intros (c & fs & E). discriminate.
Qed.
