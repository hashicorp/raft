(* ClusterCommitMove.v — what one step of Model/ClusterCommit.v cstep does to the servers: it leaves them all
   alone (and at most one request joins the network: sent), or replaces the run state of ONE server and leaves
   the network alone, in one of five ways (cmove): an RPC handler ran there
   (step_full, on an event the system can deliver: the handler of Proofs/ClusterQuorumMonoSpec.v handler_of),
   runCandidate was entered or counted a vote, dispatchLogs stored an entry, the leader stepped down on a newer
   term in an answer, or the leader loop took commitCh.  cstep_cmove is proved once from the inversions of
   Proofs/ClusterStepInv.v and Proofs/ClusterCommitLog.v; a statement about what every step does to some field
   of the servers (advertised leader, commit index, snapshot store) is then a case analysis of cmove
   (carried along runs by crun_along / reach_along of Proofs/ClusterCommitSnapMain.v). *)
From Coq Require Import List NArith Bool Lia.
From stdpp Require Import gmap.
From RaftModel Require Import Base Config Node NodeCodec Candidate Leader Cluster ClusterLog ClusterCommit.
From RaftProofs Require Import NodeFrame ClusterProofs ClusterStepInv ClusterCommitSpec ClusterCommitLog ClusterCommitSnapSpec
  ClusterLeaderSpec ClusterQuorumSpec ClusterQuorumMonoSpec.
Open Scope N_scope.

(* the events on which this system runs a handler: AppendEntries only as requests that were sent *)
Definition event_in (sn : bool) (g : cgstate) (e : nevent) : Prop :=
  match e with
  | NVote _ | NPreVote _ | NRestart | NTimeoutNow => True
  | NSnapshot => sn = true
  | NAppend a => exists m, In m (lg_msgs (cg_l g)) /\ a = am_req m
  | _ => False
  end.

(* what gstep runs of the candidate loop at a server in state s: the loop is entered (after the deferred reset of
   the transfer flag, if it was running), or a vote result reaches it *)
Definition loop_result (P : params) (s : nstate) (x : csess) : Prop :=
  (exists s0, (s0 = s \/ s0 = set_transfer s false) /\ x = fst (sess_enter P false s0)) \/
  (exists c v, x = fst (sess_step P false (SCand s c) (CVote v))).

(* the run state the step leaves at server n, and the leaders recorded after it *)
Inductive cmove (sn : bool) (g : cgstate) (l : clabel) (n : gnode) : nrun -> list (N * N) -> Prop :=
| M_handler e cut fs r' ob out :
    handler_of g l = Some (gn_id n, e, cut, fs) -> event_in sn g e ->
    step_full (gn_P n) (gn_run n) e cut fs = (r', ob, out) -> cmove sn g l n r' (leaders_of g)
| M_loop s x :
    gn_run n = Up s -> loop_result (gn_P n) s x ->
    cmove sn g l n (loop_run (gn_P n) x) (sess_leaders (gn_id n) x (leaders_of g))
| M_dispatch s ty data fs :
    gn_run n = Up s -> v_role s = Leader ->
    cmove sn g l n (Up (l_node (fst (fst (fst (dispatch (gn_P n) (leader_setup s) fs [(ty, data, 0)])))))) (leaders_of g)
| M_stepdown s :
    gn_run n = Up s -> v_role s = Leader -> cmove sn g l n (Up (set_state s Follower)) (leaders_of g)
| M_commit s ld ls2 tr res :
    gn_run n = Up s -> v_role s = Leader -> find_lead (cg_lead g) (gn_id n) = Some ld -> ld_notified ld = true ->
    leader_commit (mkLS s (ld_cm ld) (ld_infl ld)) = Some (ls2, tr, res) ->
    cmove sn g l n (Up (l_node ls2)) (leaders_of g).

Definition moved (sn : bool) (g : cgstate) (l : clabel) (nodes' : list gnode) (L' : list (N * N)) : Prop :=
  exists i n r' se nx, find_node (cnodes g) i = Some n /\
    nodes' = upd_node (cnodes g) i (mkGN (gn_P n) r' se nx) /\ cmove sn g l n r' L'.

Lemma handler_of_restart g l j cut fs : handler_of g l = Some (j, NRestart, cut, fs) -> is_restart_of l j.
Proof.
  destruct l as [[[i|i j' c f|i j'|j' e c f]|i ty data f|i j' nx la|i j'|k c f]|k|i j'|i]; cbn [handler_of]; try discriminate.
  - destruct (find_node _ i) as [ni|]; [|discriminate]. destruct (gn_sess ni); discriminate.
  - intros H; inversion H; subst. exists cut, fs. reflexivity.
  - destruct (nth_error _ k); discriminate.
Qed.

Section Move.
  Variables (sn : bool) (cfgs : list config) (g : cgstate).

  (* a handler runs at one server *)
  Lemma handler_cmove l g' : cstep sn cfgs g l = Some g' -> handler_label l ->
    moved sn g l (cnodes g') (leaders_of g') /\ lg_msgs (cg_l g') = lg_msgs (cg_l g).
  Proof.
    intros H Hl. destruct (cstep_handler_inv _ _ _ _ _ H Hl)
      as (j & e & cut & fs & nj & r' & ob & out & g1 & ans' & Hh & Hf & Hsf & _ & Hn1 & Hl1 & _ & -> & Hev).
    split; [|reflexivity]. exists j, nj, r', (keep_sess r' (gn_sess nj)), (gn_next nj). split; [exact Hf|]. split; [exact Hn1|].
    unfold leaders_of at 1. cbn [cg_l lg_g]. rewrite Hl1. rewrite <- (proj2 (find_node_in _ _ _ Hf)) in Hh.
    apply (M_handler sn g l nj e cut fs r' ob out Hh); [|exact Hsf].
    destruct Hev as [(Hok & _)|(k & m & Hk & _ & -> & _)]; [destruct e; try discriminate Hok; try exact I; exact Hok|].
    exists m. split; [apply (nth_error_In _ _ Hk)|reflexivity].
  Qed.

  Lemma set_run_cmove l i n r' : find_node (cnodes g) i = Some n -> cmove sn g l n r' (leaders_of g) ->
    moved sn g l (g_nodes (set_node_run (lg_g (cg_l g)) i n r')) (leaders_of g).
  Proof. intros Hf Ht. eexists i, n, r', _, _. split; [exact Hf|]. split; [reflexivity|exact Ht]. Qed.

  (* ... or no server changes, and at most one request joins the network, built by a running Leader: its term,
     itself as leader *)
  Definition sent (msgs' : list amsg) : Prop :=
    msgs' = lg_msgs (cg_l g) \/
    exists n s m, find_node (cnodes g) (am_from m) = Some n /\ gn_run n = Up s /\ v_role s = Leader /\
      aq_term (am_req m) = v_term s /\ aq_id (am_req m) = am_from m /\ msgs' = lg_msgs (cg_l g) ++ [m].

  Theorem cstep_cmove l g' : cstep sn cfgs g l = Some g' ->
    (cnodes g' = cnodes g /\ leaders_of g' = leaders_of g /\ sent (lg_msgs (cg_l g'))) \/
    (moved sn g l (cnodes g') (leaders_of g') /\ lg_msgs (cg_l g') = lg_msgs (cg_l g)).
  Proof.
    (* only the leadership bookkeeping changes *)
    assert (Hquiet : forall leads, let g1 := mkCG (cg_l g) leads (cg_hb g) (cg_ans g) in
              cnodes g1 = cnodes g /\ leaders_of g1 = leaders_of g /\ sent (lg_msgs (cg_l g1)))
      by (intros leads; repeat split; left; reflexivity).
    intros H. destruct l as [bl|k|i j|i].
    - destruct bl as [[i|i j cut fs|i j|j e cut fs]|i ty data fs|i j next last|i j|k cut fs]; try (right; apply (handler_cmove _ _ H I));
        destruct (cstep_base_inv _ _ _ _ _ H) as (_ & L' & HL & ->); unfold cnodes at 1 3, leaders_of at 1 3; cbn [cg_l].
      + (* runCandidate is entered *)
        destruct (lstep_elect_inv _ _ _ _ _ HL) as (_ & G' & HG & ->). right. split; [|reflexivity].
        destruct (gstep_timeout_inv _ _ _ _ HG) as (n & s & x & tr & Hf & Hr & _ & _ & Hx & ->).
        eexists i, n, _, _, _. split; [exact Hf|]. split; [reflexivity|]. cbn [g_leaders].
        rewrite <- (proj2 (find_node_in _ _ _ Hf)). apply (M_loop sn g _ n s x Hr). left.
        eexists. split; [|rewrite Hx; reflexivity]. destruct (gn_sess n); auto.
      + (* ... or counts a vote *)
        destruct (lstep_elect_inv _ _ _ _ _ HL) as (_ & G' & HG & ->). right. split; [|reflexivity].
        destruct (gstep_voteresp_inv _ _ _ _ _ HG) as (n & s & se & rp & x & tr & Hf & Hr & _ & _ & _ & Hx & ->).
        eexists i, n, _, _, _. split; [exact Hf|]. split; [reflexivity|]. cbn [g_leaders].
        rewrite <- (proj2 (find_node_in _ _ _ Hf)). apply (M_loop sn g _ n s x Hr). right.
        eexists _, _. rewrite Hx. reflexivity.
      + destruct (lstep_propose_inv _ _ _ _ _ _ _ _ HL) as (n & s & ls' & res & tr & fs' & Hf & Hr & Hrole & Hd & ->).
        right. split; [|reflexivity]. apply set_run_cmove; [exact Hf|].
        change ls' with (fst (fst (fst (ls', res, tr, fs')))). rewrite <- Hd. apply (M_dispatch sn g _ n s ty data fs Hr Hrole).
      + destruct (lstep_send_inv _ _ _ _ _ _ _ _ HL) as (n & s & pi & pt & es & c & Hf & Hr & Hrole & _ & _ & _ & _ & ->).
        left. split; [reflexivity|]. split; [reflexivity|]. right. exists n, s, (mkAM i j (mkAReq (v_term s) i i pi pt es c)). auto 7.
      + destruct (lstep_heartbeat_inv _ _ _ _ _ _ HL) as (n & s & Hf & Hr & Hrole & _ & ->).
        left. split; [reflexivity|]. split; [reflexivity|]. right. exists n, s, (mkAM i j (mkAReq (v_term s) i i 0 0 [] 0)). auto 7.
    - destruct (cstep_ack_inv _ _ _ _ _ H) as (a & m & n & ld0 & s & _ & _ & Hf & _ & Hr & Hrole & _ & _ & ->).
      unfold ack_result. destruct (aq_term (am_req m) <? ar_term (rs_resp a)).
      + right. split; [|reflexivity]. apply set_run_cmove; [exact Hf|]. apply (M_stepdown sn g _ n s Hr Hrole).
      + left. destruct (ar_success (rs_resp a)); [destruct (aq_entries (am_req m))|]; apply Hquiet.
    - destruct (cstep_giveup_inv _ _ _ _ _ _ H) as (n & ld & s & k & _ & _ & _ & _ & _ & ->). left. apply Hquiet.
    - destruct (cstep_commit_inv _ _ _ _ _ H) as (n & ld & s & ls2 & tr & res & Hf & Hfl & Hr & Hrole & Hnot & Hlc & ->).
      right. split; [|reflexivity]. apply set_run_cmove; [exact Hf|]. rewrite <- (proj2 (find_node_in _ _ _ Hf)) in Hfl.
      apply (M_commit sn g _ n s ld ls2 tr res Hr Hrole Hfl Hnot Hlc).
  Qed.

  Lemma cmove_leaders_incl l n r' L' : cmove sn g l n r' L' -> incl (leaders_of g) L'.
  Proof. destruct 1; try apply incl_refl. apply sess_leaders_incl. Qed.

  (* server by server: every server after the step is a server before it, with its run state kept or moved *)
  Corollary cstep_nodes l g' : cstep sn cfgs g l = Some g' ->
    incl (leaders_of g) (leaders_of g') /\
    forall x', In x' (cnodes g') -> exists x, In x (cnodes g) /\ gn_id x = gn_id x' /\
      (gn_run x' = gn_run x \/ cmove sn g l x (gn_run x') (leaders_of g')).
  Proof.
    intros H. destruct (cstep_cmove _ _ H) as [(E & -> & _)|[(i & n & r' & se & nx & Hf & E & Ht) _]]; rewrite E.
    - split; [apply incl_refl|]. intros x' Hx'. exists x'. auto.
    - split; [apply (cmove_leaders_incl _ _ _ _ Ht)|]. intros x' Hx'. destruct (find_node_in _ _ _ Hf) as [Hin Hid].
      destruct (upd_node_in _ _ _ _ Hx') as [[-> _]|[Hx _]]; [exists n|exists x']; auto.
  Qed.

  Corollary cstep_msgs l g' : cstep sn cfgs g l = Some g' -> sent (lg_msgs (cg_l g')).
  Proof. intros H. destruct (cstep_cmove _ _ H) as [(_ & _ & Hs)|[_ E]]; [exact Hs|left; exact E]. Qed.
End Move.

(* the candidate loop as gstep runs it keeps what runCandidate keeps (Proofs/NodeFrame.v CandFrame) *)
Section LoopFrame.
  Context {A : Type} (f : nstate -> A).
  Hypothesis f_dterm : forall s t, f (set_durable_term s t) = f s.
  Hypothesis f_vol_term : forall s t, f (set_vol_term s t) = f s.
  Hypothesis f_vterm : forall s t, f (set_vterm s t) = f s.
  Hypothesis f_vcand : forall s c, f (set_vcand s c) = f s.
  Hypothesis f_state : forall s r, f (set_state s r) = f s.
  Hypothesis f_leader : forall s a i, f (set_leader s a i) = f s.
  Hypothesis f_transfer : forall s b, f (set_transfer s b) = f s.

  Lemma loop_result_frame P s x : loop_result P s x -> f (sess_state x) = f s.
  Proof.
    intros [(s0 & Hs0 & ->)|(c & v & ->)].
    - rewrite (sess_enter_frame f); try assumption. destruct Hs0 as [->| ->]; auto.
    - rewrite (sess_step_frame f); try assumption. reflexivity.
  Qed.
End LoopFrame.
