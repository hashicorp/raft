(* ClusterSnapCex.v - with snapshot transfer in the system (Model/ClusterSnap.v) Log Matching is false on
   this code: known finding F3-ii.  The witness is a script found by component 104 on REAL servers
   (the model agreed with them step by step): a server installs a snapshot and keeps a stale
   never-committed entry below the snapshot index in its log store. *)
From Coq Require Import List NArith Bool Lia.
From stdpp Require Import gmap.
From RaftModel Require Import Cluster ClusterLog ClusterSnap.
From RaftProofs Require Import ClusterLogSnapCex.
Open Scope N_scope.

Definition f3ii_labels : list N := [1; 2; 1; 1; 2; 1; 3; 1; 1; 2; 1; 3; 2; 2; 1; 3; 1; 3; 11; 1; 11; 1; 8; 1; 2; 2; 2; 11; 1; 1; 3; 2; 3; 1; 3; 3; 1; 2; 3; 2; 3; 3; 2; 5; 1; 1; 2; 2; 2; 3; 2; 2; 1; 3; 2; 3; 11; 2; 8; 2; 1; 3; 3; 7; 2; 501; 11; 2; 10; 1; 10; 1; 10; 0; 8; 2; 3; 3; 4; 10; 2; 12; 3; 8; 2; 3; 2; 4; 13; 2; 3; 12; 1; 8; 2; 1; 2; 3; 13; 2; 1; 7; 2; 502; 11; 2; 10; 2; 11; 2; 10; 1; 10; 3; 10; 2; 7; 2; 503; 5; 3; 8; 2; 3; 2; 5; 10; 5; 99; 12; 8; 14; 2; 11; 2; 10; 3; 10; 0; 11; 3; 4; 3; 5; 3; 0; 1; 7; 2; 504; 1; 3; 4; 3; 6; 1; 2; 2; 2; 3; 1; 10; 1; 15; 2; 1; 5; 16; 0; 17; 0; 2; 3; 2; 3; 3; 2; 1; 1; 2; 1; 2; 2; 1; 3; 3; 3; 1; 3; 1; 2; 3; 1; 3; 1; 1; 2; 1; 2; 3; 1; 2; 2; 1; 3; 3; 1; 3; 16; 0; 8; 1; 3; 6; 1; 10; 6; 12; 12; 11; 2; 10; 5; 8; 2; 3; 6; 7; 10; 6; 8; 1; 3; 6; 6; 10; 8; 99; 12; 15; 14; 1].
Definition f3ii_init : sstate := install_init 1 3 [0; 1; 0].
Definition f3ii_final : sstate := run_ss_state (mk_cfg 3) (length f3ii_labels) f3ii_init f3ii_labels.

Lemma labels_taken_run cfg : forall fuel g l,
  srun [cfg] g (labels_taken cfg fuel g l) = Some (run_ss_state cfg fuel g l).
Proof.
  induction fuel as [|f IH]; intros g l; [reflexivity|].
  cbn [labels_taken run_ss_state].
  destruct (dec_sslabel (match l with 99 :: r => r | _ => l end)) as [[lb rest]|]; [|reflexivity].
  destruct (sstep [cfg] g lb) as [g'|] eqn:E.
  - cbn [srun]. rewrite E. apply IH.
  - apply IH.
Qed.

(* servers 1 and 3 both hold the entry (index 6, term 7) and differ at index 2 *)
Theorem log_matching_with_snapshot_transfer_refuted :
  exists ls g, srun [mk_cfg 3] f3ii_init ls = Some g /\ ~ log_matching (lg_of g).
Proof.
  exists (labels_taken (mk_cfg 3) (length f3ii_labels) f3ii_init f3ii_labels), f3ii_final.
  split; [apply labels_taken_run|].
  apply (lm_violation_sound (lg_of f3ii_final) 1 3 6 2). vm_compute. reflexivity.
Qed.
Print Assumptions log_matching_with_snapshot_transfer_refuted.
