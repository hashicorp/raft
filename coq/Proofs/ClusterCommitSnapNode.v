(* ClusterCommitSnapNode.v — the per-server part of the commitment invariant that needs no ghost
   state, for servers with snapshots: configuration entries and snapshot configurations decode to
   cfg, snapshot index <= lastApplied <= max(commitIndex, snapshot index), and the index the FSM
   goroutine reports is 0 or lies between the snapshot index and lastApplied; NewRaft re-establishes it;
   the events that touch neither store keep it together with the shape of Proofs/ClusterCommitSnapLog.v. *)
From Coq Require Import List NArith Bool Lia.
From stdpp Require Import gmap.
From RaftModel Require Import Config Node NodeCodec.
From RaftProofs Require Import NodeFrame VoteProofs RecoverProofs ClusterLogChain ClusterLogNode ClusterLogCut
  ClusterLogVote NodeStep ClusterCommitSpec ClusterCommitNode ClusterCommitInv ClusterCommitSnapLog ClusterCommitSnapBoot
  ClusterCommitSnapCut.
Open Scope N_scope.

Section Node.
  Variable cfg : config.
  Variable Ps : list params.

  Definition snaps_cfg (sns : list snapshot) : Prop := forall sn, In sn sns -> cfg_or_nil cfg (sn_cfg sn).

  Definition znode_img (s : nstate) : Prop := log_dec cfg Ps (d_log s) /\ snaps_cfg (d_snaps s).

  Record znode_up (s : nstate) : Prop := {
    zn_dec : log_dec cfg Ps (d_log s);
    zn_scfg : snaps_cfg (d_snaps s);
    zn_lat : cfg_or_nil cfg (v_latest s);
    zn_com : cfg_or_nil cfg (v_committed s);
    zn_sa : v_lastSnapIdx s <= v_applied s;
    zn_ac : v_applied s <= N.max (v_commit s) (v_lastSnapIdx s);
    zn_fa : fst (v_fsmLast s) <= v_applied s;
    zn_fs : fst (v_fsmLast s) = 0 \/ v_lastSnapIdx s <= fst (v_fsmLast s);
  }.

  Definition znode (P : params) (r : nrun) : Prop :=
    p_rc P = false /\ In P Ps /\ match r with Up s => znode_up s | Down s => znode_img s end.

  (* takeSnapshot alone reads the index the FSM goroutine reports, and it runs only where snapshots are
     enabled: with fsm = false that index is left free, as the initial states of the statements without
     snapshots leave it *)
  Record znode_upg (fsm : bool) (s : nstate) : Prop := {
    zu_dec : log_dec cfg Ps (d_log s);
    zu_scfg : snaps_cfg (d_snaps s);
    zu_lat : cfg_or_nil cfg (v_latest s);
    zu_com : cfg_or_nil cfg (v_committed s);
    zu_sa : v_lastSnapIdx s <= v_applied s;
    zu_ac : v_applied s <= N.max (v_commit s) (v_lastSnapIdx s);
    zu_fa : fsm = true -> fst (v_fsmLast s) <= v_applied s;
    zu_fs : fsm = true -> fst (v_fsmLast s) = 0 \/ v_lastSnapIdx s <= fst (v_fsmLast s);
  }.

  Definition znodeg (fsm : bool) (P : params) (r : nrun) : Prop :=
    p_rc P = false /\ In P Ps /\ match r with Up s => znode_upg fsm s | Down s => znode_img s end.

  Lemma znode_upg_true s : znode_up s <-> znode_upg true s.
  Proof.
    split; intros [A B D E F G H I]; constructor; auto.
  Qed.

  Lemma znodeg_true P r : znode P r <-> znodeg true P r.
  Proof.
    unfold znode, znodeg. destruct r as [s|s]; [rewrite (znode_upg_true s)|]; reflexivity.
  Qed.
End Node.
Arguments zu_dec {cfg Ps fsm s}.
Arguments zu_scfg {cfg Ps fsm s}.
Arguments zu_lat {cfg Ps fsm s}.
Arguments zu_com {cfg Ps fsm s}.
Arguments zu_sa {cfg Ps fsm s}.
Arguments zu_ac {cfg Ps fsm s}.
Arguments zu_fa {cfg Ps fsm s}.
Arguments zu_fs {cfg Ps fsm s}.

(* a server that NewRaft just started *)
Definition fresh_up (s : nstate) : Prop :=
  v_commit s = 0 /\ v_role s = Follower /\ v_fsmLast s = (0, 0) /\ v_applied s = v_lastSnapIdx s.

Section Boot.
  Variable cfg : config.
  Variable Ps : list params.
  Variable fsm : bool.

  Lemma znode_up_img s : znode_upg cfg Ps fsm s -> znode_img cfg Ps s.
  Proof. intros H. split; [apply (zu_dec H)|apply (zu_scfg H)]. Qed.

  Lemma boot_znode P img r out : p_rc P = false -> In P Ps -> keys_ok (d_log img) -> znode_img cfg Ps img ->
    boot P img = (r, out) ->
    znodeg cfg Ps fsm P r /\ match r with Up s => fresh_up s | Down _ => True end.
  Proof.
    intros Hrc HP Hk [Hd Hsc] HB. destruct (boot_cases P img r out HB) as [(s & tr & ER & ->)| ->];
      [|split; [split; [exact Hrc|split; [exact HP|split; assumption]]|exact I]].
    pose proof (recover_ok P img s tr Hk ER) as ((_ & _ & _ & Dl & _ & _ & Ds) & _ & Hrole & _).
    destruct (recover_snap P img s tr Hrc ER) as (Hc0 & Hf0 & Hm & Hcfg).
    destruct (Hcfg cfg) as [L1 L2]; [intros i e He Hty; apply (Hd i e He Hty P HP)|exact Hsc|].
    assert (Ha : v_applied s = v_lastSnapIdx s).
    { destruct (find sn_ok (list_snaps (d_snaps img))) as [sn|]; [destruct Hm as (Hb & _ & Ha)|destruct Hm as [Hb Ha]]; congruence. }
    split; [|split; [exact Hc0|split; [exact Hrole|split; [exact Hf0|exact Ha]]]].
    split; [exact Hrc|]. split; [exact HP|]. constructor.
    - rewrite Dl. exact Hd.
    - rewrite Ds. exact Hsc.
    - exact L1.
    - exact L2.
    - lia.
    - lia.
    - intros _. rewrite Hf0. simpl. lia.
    - intros _. left. rewrite Hf0. reflexivity.
  Qed.
End Boot.

(* neither invariant reads a field outside NodeFrame.rest, but the term *)
Lemma zup_keep C s s' : zup C s -> rest s' = rest s -> d_term s <= d_term s' -> zup C s'.
Proof.
  intros H K Ht. unfold zup, topk, bk in *. injection K; intros.
  repeat match goal with X : _ s' = _ s |- _ => rewrite ?X; clear X end.
  eapply zshape_mono; [apply incl_refl|exact Ht|exact H].
Qed.

Lemma znode_up_keep cfg Ps fsm s s' : znode_upg cfg Ps fsm s -> rest s' = rest s -> znode_upg cfg Ps fsm s'.
Proof.
  intros [A B D E F G H I] K. injection K; intros.
  constructor; repeat match goal with X : _ s' = _ s |- _ => rewrite X; clear X end; assumption.
Qed.

(* the touched server keeps its stores: log and snapshots as they were, the term not lowered, and a running server
   kept `rest` or has just been booted *)
Definition quietS (r r' : nrun) : Prop :=
  d_log (image r') = d_log (image r) /\ d_snaps (image r') = d_snaps (image r) /\ d_term (image r) <= d_term (image r') /\
  match r' with Up s' => (exists s, r = Up s /\ rest s' = rest s) \/ fresh_up s' | Down _ => True end.

Lemma quietS_refl r : quietS r r.
Proof.
  split; [reflexivity|]. split; [reflexivity|]. split; [lia|].
  destruct r as [s|s]; [left; exists s; split; reflexivity|exact I].
Qed.

Section SimpleSteps.
  Variable cfg : config.
  Variable Ps : list params.
  Variable fsm : bool.

  (* the pair of invariants, for Proofs/NodeStep.v *)
  Definition zI_up (C : chain) (s : nstate) : Prop := zup C s /\ znode_upg cfg Ps fsm s.
  Definition zI_img (C : chain) (d : dimg) : Prop :=
    zimgS C (di_term d) (di_log d) (di_snaps d) /\ log_dec cfg Ps (di_log d) /\ snaps_cfg cfg (di_snaps d).

  Lemma zI_run C P r : p_rc P = false -> In P Ps -> (Irun (zI_up C) (zI_img C) r <-> znlog C r /\ znodeg cfg Ps fsm P r).
  Proof. intros Hrc HP. destruct r as [s|s]; unfold znodeg, zI_up, zI_img, znode_img; simpl; tauto. Qed.

  Lemma zI_up_img C s : chain_ok C -> zI_up C s -> zI_img C (dpr s).
  Proof. intros HC [H1 H2]. split; [apply (zup_img C s HC H1)|apply (znode_up_img cfg Ps fsm s H2)]. Qed.

  Lemma zI_img_term C d t : zI_img C d -> di_term d <= t -> zI_img C (with_term d t).
  Proof. intros (H & H2) Ht. split; [|exact H2]. simpl. eapply zimgS_mono; [apply incl_refl|exact Ht|exact H]. Qed.

  Lemma boot_z C P img rr oo : chain_ok C -> pclosed C -> p_rc P = false -> In P Ps -> zI_img C (dpr img) -> boot P img = (rr, oo) ->
    Irun (zI_up C) (zI_img C) rr /\ match rr with Up s => fresh_up s | Down _ => True end.
  Proof.
    intros HC Hp Hrc HP (Hi & Hd & Hs) HB.
    destruct (boot_znlog C P img rr oo HC Hp Hi HB) as (A & _).
    destruct (boot_znode cfg Ps fsm P img rr oo Hrc HP (log_in_keys C _ _ (zi_in _ _ _ _ Hi)) (conj Hd Hs) HB) as [B D].
    split; [apply (zI_run C P rr Hrc HP); auto|exact D].
  Qed.

  (* a handler ran: NodeStep.finish_I for the pair; after a crash the server is fresh *)
  Lemma finish_z {R} C P (enc : R -> list N) (mk : R -> nobs) si s cut (o : outcome R) r' ob out :
    chain_ok C -> pclosed C -> p_rc P = false -> In P Ps ->
    (forall j, zI_img C (fold_left (d_apply P si) (firstn j (trace_of o)) (dpr s))) ->
    (forall s' r tr fs', o = Done s' r tr fs' -> zI_up C s') ->
    finish P enc mk si s cut o = (r', ob, out) ->
    znlog C r' /\ znodeg cfg Ps fsm P r' /\
    ((exists s1 r tr fs', o = Done s1 r tr fs' /\ r' = Up s1 /\ ob = mk r) \/
     (ob = OLost /\ crashed P s si (trace_of o) r' /\ match r' with Up s' => fresh_up s' | Down _ => True end)).
  Proof.
    intros HC Hp Hrc HP Hpre Hdone HF.
    destruct (finish_I P (zI_up C) (zI_img C) (fun d H => log_in_keys C _ _ (zi_in _ _ _ _ (proj1 H)))
                (fun img rr oo Hi HB => proj1 (boot_z C P img rr oo HC Hp Hrc HP Hi HB)) enc mk si s cut o r' ob out Hpre Hdone HF) as [A D].
    destruct (proj1 (zI_run C P r' Hrc HP) A) as [Z1 Z2]. split; [exact Z1|]. split; [exact Z2|].
    destruct D as [D|(-> & img & oo & j & HB & E1 & E2 & Hf)]; [left; exact D|right]. split; [reflexivity|].
    split; [exists img, oo, j; auto|]. apply (boot_z C P img r' oo HC Hp Hrc HP); [rewrite E2; apply Hpre|exact HB].
  Qed.

  (* RequestVote, pre-vote, restart, TimeoutNow at one server: NodeStep.simple_step_I for the pair *)
  Lemma simple_step_z C P r e cut fs r' ob out : chain_ok C -> pclosed C -> wfr r -> znlog C r -> znodeg cfg Ps fsm P r ->
    simple_event e -> step_full P r e cut fs = (r', ob, out) ->
    znlog C r' /\ znodeg cfg Ps fsm P r' /\ quietS r r'.
  Proof.
    intros HC Hp Hw Hn Hcn He HF. pose proof Hcn as (Hrc & HP & _).
    pose proof (proj2 (zI_run C P r Hrc HP) (conj Hn Hcn)) as Hr.
    destruct (simple_step_I P (zI_up C) (zI_img C)) with r e cut fs r' ob out as [A D]; try assumption.
    - intros s. apply (zI_up_img C s HC).
    - intros d (H & _). apply (log_in_keys C _ _ (zi_in _ _ _ _ H)).
    - intros img rr oo Hi HB. apply (boot_z C P img rr oo HC Hp Hrc HP Hi HB).
    - apply zI_img_term.
    - intros s s' [H1 H2] K Ht. split; [eapply zup_keep; eauto|eapply znode_up_keep; eauto].
    - destruct (proj1 (zI_run C P r' Hrc HP) A) as [Z1 Z2]. split; [exact Z1|]. split; [exact Z2|].
      destruct D as [<-|[(s & s1 & -> & -> & K & Ht & _)|(img & oo & t & HB & E1 & Ht & E2 & _)]].
      + apply quietS_refl.
      + destruct (rest_fields _ _ K) as (_ & (El & Es & _) & _).
        split; [exact El|]. split; [exact Es|]. split; [exact Ht|]. left. exists s. auto.
      + assert (E : dpr (image r') = with_term (dpr (image r)) t) by (rewrite E1; exact E2).
        injection E as E3 E4 E5 _ _.
        split; [exact E4|]. split; [exact E5|]. split; [rewrite E3; exact Ht|].
        destruct r' as [s'|s']; [right|exact I].
        apply (boot_z C P img (Up s') oo HC Hp Hrc HP); [|exact HB].
        rewrite E2. apply zI_img_term; [|exact Ht]. apply (Irun_image (zI_up C) (zI_img C) (fun s0 => zI_up_img C s0 HC) r Hr).
  Qed.
End SimpleSteps.
