(* ClusterCommitAcks2.v — DURABLE ACKNOWLEDGEMENTS for Model/ClusterCommit.v (no snapshots): an entry
   whose future a leader of term T answered without error is, at every later point of the run, held at
   its index by every Leader of a term >= T, and is what every running server that knows that index
   to be committed holds there.
   The runs are those of Proofs/ClusterCommitSnapAcks.v with takeSnapshot disabled; no server holds a
   snapshot (crun_no_snaps), so a Leader that "holds the entry or runs on a snapshot covering it" holds it. *)
From Coq Require Import List NArith Bool Lia.
From stdpp Require Import gmap.
From RaftModel Require Import Base Node NodeCodec Cluster ClusterCommit.
From RaftProofs Require Import ClusterCommitSpec ClusterCommitLog ClusterCommitSnapInv2 ClusterCommitMain ClusterCommitSnapAcks.
Open Scope N_scope.

Theorem acknowledged_entries_are_permanent : forall cfg g0 ls g,
  cinit_ok cfg g0 -> Forall label_ok ls -> crun false [cfg] g0 ls = Some g ->
  acks_permanent (run_acks false [cfg] g0 ls) g.
Proof.
  intros cfg g0 ls g H0 Hls Hrun.
  destruct (reach_zackinv false false cfg g0 ls g H0) as [HVn (C & LL & A & V & HI & Hacks)]; [discriminate|discriminate|exact Hls|exact Hrun|].
  destruct (ClusterCommitSnapMain.reach_zinv_plain cfg g0 ls g H0 Hls Hrun) as (_ & _ & Hns).
  intros T e Hin. rewrite Forall_forall in Hacks. specialize (Hacks _ Hin).
  split; [apply (known_leader_holds_plain cfg _ false HVn g C LL A V HI Hns T e Hacks)|apply (known_agree cfg _ false HVn g C LL A V HI T e Hacks)].
Qed.

Theorem acks_are_committed_when_answered : forall cfg g0 ls g l g' T e,
  cinit_ok cfg g0 -> Forall label_ok ls -> crun false [cfg] g0 ls = Some g ->
  cstep false [cfg] g l = Some g' -> In (T, e) (step_acks g l) ->
  exists i n' s', l = CCommit i /\ find_node (cnodes g') i = Some n' /\ gn_run n' = Up s' /\ v_role s' = Leader /\
    v_term s' = T /\ e_idx e <= v_commit s' /\ d_log s' !! e_idx e = Some e.
Proof.
  intros cfg g0 ls g l g' T e H0. apply (acks_committed_reach false false cfg g0 ls g l g' T e H0); discriminate.
Qed.

Print Assumptions acknowledged_entries_are_permanent.
Print Assumptions acks_are_committed_when_answered.
