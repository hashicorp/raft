(* ClusterCommitSnapNode3.v — the one walk through the handlers for the shape of Proofs/ClusterCommitSnapLog.v, for
   any parameters (the Log Matching proof of Proofs/ClusterLogSnapNode.v uses it as it stands): appendEntries
   (append_zshape: every crash image and the state returned; the (term, log) a delivery leaves is described by
   ae_reachS), takeSnapshot (snap_eff_img, snap_done_zup), dispatchLogs of one entry (leader_append_zup) and the
   requests setupAppendEntries builds (setup_send_chainS).  Between them, for the commit proof: one delivered
   AppendEntries, and takeSnapshot, keep shape and ClusterCommitSnapNode.v's invariant together, whether the handler
   returns or the process dies inside it (deliver_step_z, snapshot_step_z). *)
From Coq Require Import List NArith Bool Lia.
From stdpp Require Import gmap.
From RaftModel Require Import Base Config Node NodeCodec Replicate.
From RaftProofs Require Import NodeEvent ReplicateProofs VoteProofs AppendProofs ClusterLogSpec ClusterLogChain ClusterLogNode ClusterLogCut ClusterLogLeader
  ClusterLogAppend ClusterCommitChain ClusterCommitNode ClusterCommitInv ClusterCommitSnapLog ClusterCommitSnapBoot
  ClusterCommitSnapCut ClusterCommitSnapAE ClusterCommitSnapAE2 ClusterCommitSnapAE3 ClusterCommitSnapAE5 ClusterCommitSnapTake
  ClusterCommitSnapNode.
Open Scope N_scope.

(* appendEntries: every crash image and the state returned, with the (term, log, cached last entry) of the
   description they are *)
Theorem append_zshape C P s fs a : chain_ok C -> pclosed C -> wfu s -> zup C s ->
  mchain C (aq_prevIdx a, aq_prevTerm a) (aq_entries a) -> (forall e, In e (aq_entries a) -> e_term e <= aq_term a) ->
  (d_term s <= aq_term a -> on_bk_branch C s a) ->
  (forall j, let d := fold_left (d_apply P None) (firstn j (trace_of (append_entries P s fs a))) (dpr s) in
     di_snaps d = d_snaps s /\ exists k, ae_reachS s a (dtl d) k /\ zshape C (di_term d) (di_log d) (d_snaps s) k (bk s)) /\
  (forall s' r tr fs', append_entries P s fs a = Done s' r tr fs' ->
     ae_reachS s a (tlp s') (topk s') /\ zup C s' /\ sf_done s s').
Proof.
  intros HC Hp Hw Hz Hm Hterm Hcmp.
  pose proof (zup_cache_ok C s HC Hz) as Hcache. pose proof (mchain_contig C _ _ HC Hm) as Hc. simpl fst in Hc.
  destruct (append_reachS P s fs a Hw Hcache Hc) as [Hpre Hdone]. split.
  - intros j. destruct (image_tl P s (trace_of (append_entries P s fs a)) j) as (Es & j' & Ej). cbv zeta in *.
    split; [exact Es|]. destruct (Hpre j') as [k Hr]. rewrite <- Ej in Hr. exists k. split; [exact Hr|].
    apply (ae_reachS_zshape C s a _ _ HC Hp Hz Hm Hterm Hcmp Hr).
  - intros s' r tr fs' Ho.
    assert (Hr : ae_reachS s a (tlp s') (topk s')) by (apply Hdone; rewrite Ho; reflexivity).
    pose proof (ae_reachS_zshape C s a _ _ HC Hp Hz Hm Hterm Hcmp Hr) as Hsh. simpl in Hsh.
    pose proof (append_done_sf P s fs a s' r tr fs' Ho (log_in_keys C _ _ (zs_in Hsh))) as Hsf.
    split; [exact Hr|]. split; [|exact Hsf]. destruct Hsf as (S1 & S2 & S3 & _).
    unfold zup. rewrite S1, (bk_ext s s' S2 S3). exact Hsh.
Qed.

Section Deliver.
  Variable cfg : config.
  Variable Ps : list params.
  Variable fsm : bool.

  Lemma reachS_src C s a d k : chain_ok C -> zup C s -> contig (aq_prevIdx a) (aq_entries a) -> ae_reachS s a d k ->
    log_ok_fail (aq_prevIdx a) (aq_entries a) (d_log s) (snd d) /\
    (forall i x, snd d !! i = Some x -> d_log s !! i = Some x \/ In x (aq_entries a)) /\
    d_term s <= fst d /\ (snd d <> d_log s -> fst d = aq_term a).
  Proof.
    intros HC Hz Hc [[-> ->]|(Hle & Ht & [[Hm ->]|[_ Hlog]])].
    - simpl. split; [apply log_ok_fail_refl|]. split; [auto|]. split; [lia|congruence].
    - rewrite Hm, Ht. split; [apply log_ok_fail_refl|]. split; [auto|]. split; [exact Hle|congruence].
    - destruct (ae_logS_fail (d_log s) (v_lastLogIdx s) a (snd d) k (zup_cache_ok C s HC Hz) Hc Hlog) as [A B].
      split; [exact A|]. split; [exact B|]. split; [lia|intros _; exact Ht].
  Qed.

  Theorem deliver_step_z C P s a cut fs r' ob out :
    chain_ok C -> pclosed C -> wfu s -> zup C s -> znodeg cfg Ps fsm P (Up s) ->
    mchain C (aq_prevIdx a, aq_prevTerm a) (aq_entries a) ->
    (forall e, In e (aq_entries a) -> e_term e <= aq_term a) ->
    (forall e, In e (aq_entries a) -> dec_ok cfg Ps e) ->
    (d_term s <= aq_term a -> on_bk_branch C s a) ->
    step_full P (Up s) (NAppend a) cut fs = (r', ob, out) ->
    znlog C r' /\ znodeg cfg Ps fsm P r' /\ d_snaps (image r') = d_snaps s /\
    exists k, ae_reachS s a (tlp (image r')) k /\
      match r' with
      | Up s' => (fresh_up s' /\ ob = OLost) \/
                 (exists r tr fs', append_entries P s fs a = Done s' r tr fs' /\ ob = OAppend a r /\ topk s' = k /\ sf_done s s')
      | Down _ => ob = OLost
      end.
  Proof.
    intros HC Hp Hw Hz Hcn Hm Hterm Hde Hcmp HF. pose proof Hcn as (Hrc & HP & Hup).
    pose proof (zup_cache_ok C s HC Hz) as Hcache.
    pose proof (mchain_contig C _ _ HC Hm) as Hc. simpl fst in Hc.
    destruct (append_zshape C P s fs a HC Hp Hw Hz Hm Hterm Hcmp) as [Himgs Hdone].
    assert (Hdecr : forall d k, ae_reachS s a d k -> log_dec cfg Ps (snd d)).
    { intros d k Hr i x Hx. destruct (reachS_src C s a d k HC Hz Hc Hr) as (_ & Hs & _).
      destruct (Hs i x Hx) as [H|H]; [apply (zu_dec Hup i x H)|apply Hde, H]. }
    rewrite step_append in HF.
    assert (Hup1 : forall s1 r tr fs', append_entries P s fs a = Done s1 r tr fs' -> zI_up cfg Ps fsm C s1).
    { intros s1 r tr fs' Ho. destruct (Hdone s1 r tr fs' Ho) as (Hr & Hz1 & Hsf). pose proof Hsf as (S1 & S2 & S3 & S4).
      pose proof (dec_ok_decode cfg Ps P _ HP Hde) as Hdp.
      pose proof (append_done_vol cfg P s fs a s1 r tr fs' Hw Hcache Hc Hdp (zu_lat Hup) (zu_com Hup) Ho) as Hv.
      split; [exact Hz1|].
      destruct Hv as [(_ & -> & _)|(_ & _ & _ & _ & _ & _ & V1 & V2 & V3)]; [exact Hup|].
      pose proof (zu_ac Hup). destruct (fsm_adv_order _ s s1 S4 (zu_sa Hup)) as (O1 & O2 & O3).
      assert (Hcm : v_commit s <= v_commit s1) by (destruct V3 as [[E _]|(_ & E & _)]; lia).
      constructor.
      * apply (Hdecr _ _ Hr).
      * rewrite S1. apply (zu_scfg Hup).
      * exact V1.
      * exact V2.
      * rewrite S2. exact O1.
      * destruct S4 as [[E _]|(E1 & E2 & _)]; lia.
      * intros Hg. apply O2, (zu_fa Hup Hg).
      * intros Hg. rewrite S2. apply O3, (zu_fs Hup Hg). }
    assert (Hpre : forall j, zI_img cfg Ps C (fold_left (d_apply P None) (firstn j (trace_of (append_entries P s fs a))) (dpr s))).
    { intros j. destruct (Himgs j) as (Hs & k & Hr & Hsh). cbv zeta in *.
      split; [rewrite Hs; apply (zshape_img C HC _ _ _ _ _ Hsh)|]. split; [apply (Hdecr _ _ Hr)|rewrite Hs; apply (zu_scfg Hup)]. }
    destruct (finish_z cfg Ps fsm C P _ _ None s cut _ r' ob out HC Hp Hrc HP Hpre Hup1 HF)
      as (Z1 & Z2 & [(s1 & r & tr & fs' & Ho & -> & ->)|(-> & (img & oo & j0 & HB & E1 & Hj0 & _) & D)]);
      (split; [exact Z1|split; [exact Z2|]]).
    - (* the handler returned *)
      destruct (Hdone s1 r tr fs' Ho) as (Hr & _ & Hsf). split; [apply Hsf|].
      exists (topk s1). split; [exact Hr|]. right. exists r, tr, fs'. auto.
    - (* the process died inside the handler *)
      destruct (Himgs j0) as (Hs & k & Hr & _). cbv zeta in Hs, Hr. rewrite <- Hj0 in Hs, Hr.
      change (d_snaps img = d_snaps s) in Hs. change (ae_reachS s a (tlp img) k) in Hr. injection E1 as Dt Dl Ds _ _.
      split; [congruence|]. exists k. split.
      + unfold tlp in *. rewrite Dt, Dl. exact Hr.
      + destruct r'; [left; auto|reflexivity].
  Qed.
End Deliver.

Lemma sk_snap_of s : sk (snap_of s) = v_fsmLast s.
Proof. unfold sk, snap_of. simpl. destruct (v_fsmLast s); reflexivity. Qed.

Section Take.
  Variable C : chain.
  Hypothesis HC : chain_ok C.
  Variable s : nstate.
  Hypothesis HS : zup C s.
  Hypothesis Hfsm : fsm_on_branch C s.

  Lemma snap_eff_shape m' sns' : snap_eff s m' sns' ->
    (m' = d_log s /\ sns' = d_snaps s) \/ zshape C (d_term s) m' sns' (topk s) (v_fsmLast s).
  Proof.
    intros [H|(Hnz & -> & Hm)]; [left; exact H|right].
    destruct (Hfsm Hnz) as (F1 & F2 & F3 & F4). rewrite last_entry_lk in F3. rewrite <- bk_fst in F4.
    apply (zshape_snapshot C _ (d_log s) (d_snaps s) (topk s) (bk s) (v_fsmLast s) m' (snap_of s) HC HS F1 F2 F3 F4).
    - destruct Hm as [->|(lo & hi & -> & _)]; [apply log_sub_refl|apply log_delete_sub].
    - intros i Hi. destruct Hm as [->|(lo & hi & -> & Hhi)]; [reflexivity|].
      rewrite log_delete_lookup. destruct (N.leb_spec lo i); [|reflexivity]. destruct (N.leb_spec i hi); [lia|reflexivity].
    - apply sk_snap_of.
    - reflexivity.
  Qed.

  Lemma snap_eff_img T m' sns' : T = d_term s -> snap_eff s m' sns' -> zimgS C T m' sns'.
  Proof.
    intros -> H. destruct (snap_eff_shape m' sns' H) as [[-> ->]|Hz].
    - apply (zshape_img C HC _ _ _ _ _ HS).
    - apply (zshape_img C HC _ _ _ _ _ Hz).
  Qed.
End Take.

(* takeSnapshot: the state returned (the crash images are snap_eff_img) *)
Lemma snap_done_zup C s s' : chain_ok C -> zup C s -> fsm_on_branch C s -> snap_done s s' -> zup C s'.
Proof.
  intros HC HZ Hfsm [->|(Hnz & m' & -> & Hm)]; [exact HZ|].
  destruct (snap_eff_shape C HC s HZ Hfsm m' (d_snaps s ++ [snap_of s]) (or_intror (conj Hnz (conj eq_refl Hm)))) as [[_ E]|H].
  - exfalso. assert (L : length (d_snaps s ++ [snap_of s]) = length (d_snaps s)) by congruence. rewrite app_length in L. simpl in L. lia.
  - unfold zup. rewrite bk_pos by exact Hnz. unfold topk. cbn. destruct (v_fsmLast s); exact H.
Qed.

Section Snap.
  Variable cfg : config.
  Variable Ps : list params.

  Lemma snap_eff_cfg fsm s m' sns' : znode_upg cfg Ps fsm s -> snap_eff s m' sns' -> log_dec cfg Ps m' /\ snaps_cfg cfg sns'.
  Proof.
    intros Hup He. split.
    - intros i x Hx. apply (zu_dec Hup i x). apply (snap_eff_sub s m' sns' He i x Hx).
    - destruct He as [[_ ->]|(_ & -> & _)]; [apply (zu_scfg Hup)|].
      intros sn Hsn. apply in_app_iff in Hsn. destruct Hsn as [Hsn|[<-|[]]]; [apply (zu_scfg Hup sn Hsn)|].
      simpl. apply (zu_com Hup).
  Qed.

  Theorem snapshot_step_z C P s cut fs r' ob out :
    chain_ok C -> pclosed C -> zup C s -> znodeg cfg Ps true P (Up s) -> fsm_on_branch C s ->
    step_full P (Up s) NSnapshot cut fs = (r', ob, out) ->
    znlog C r' /\ znodeg cfg Ps true P r' /\ d_term (image r') = d_term s /\ snap_eff s (d_log (image r')) (d_snaps (image r')) /\
    match r' with Up s' => fresh_up s' \/ snap_done s s' | Down _ => True end /\ (ob = ONone \/ ob = OLost).
  Proof.
    intros HC Hp Hz Hcn Hfsm HF. pose proof Hcn as (Hrc & HP & Hup).
    rewrite step_snapshot_of in HF.
    assert (Heffj : forall j, let d := fold_left (d_apply P (Some (snap_of s))) (firstn j (trace_of (take_snapshot P s fs))) (dpr s) in
              di_term d = d_term s /\ snap_eff s (di_log d) (di_snaps d)).
    { intros j. destruct (prefix_dlf P (Some (snap_of s)) (trace_of (take_snapshot P s fs)) (dpr s) j) as (j' & ->).
      destruct (take_images P s fs j') as (Et & _ & _ & Heff). auto. }
    assert (Hpre : forall j, zI_img cfg Ps C (fold_left (d_apply P (Some (snap_of s))) (firstn j (trace_of (take_snapshot P s fs))) (dpr s))).
    { intros j. destruct (Heffj j) as [Et Heff]. split; [apply (snap_eff_img C HC s Hz Hfsm _ _ _ Et Heff)|apply (snap_eff_cfg true s _ _ Hup Heff)]. }
    assert (Hup1 : forall s1 r tr fs', take_snapshot P s fs = Done s1 r tr fs' -> zI_up cfg Ps true C s1).
    { intros s1 r tr fs' Ho. pose proof (take_done P s fs s1 r tr fs' Ho) as Hd. split; [exact (snap_done_zup C s s1 HC Hz Hfsm Hd)|].
      destruct Hd as [->|(Hnz & m' & -> & Hm)]; [exact Hup|].
      assert (Heff : snap_eff s m' (d_snaps s ++ [snap_of s])) by (right; auto).
      destruct (snap_eff_cfg true s m' _ Hup Heff) as [D1 D2].
      pose proof (zu_sa Hup). pose proof (zu_ac Hup). pose proof (zu_fa Hup eq_refl). pose proof (zu_fs Hup eq_refl).
      destruct (Hfsm Hnz) as (_ & _ & _ & F4).
      constructor; cbn [d_log d_snaps v_latest v_committed v_lastSnapIdx v_applied v_commit v_fsmLast set_log set_lastsnap set_snaps];
        try assumption; try apply (zu_lat Hup); try apply (zu_com Hup); lia. }
    destruct (finish_z cfg Ps true C P _ _ (Some (snap_of s)) s cut _ r' ob out HC Hp Hrc HP Hpre Hup1 HF)
      as (Z1 & Z2 & [(s1 & r & tr & fs' & Ho & -> & ->)|(-> & (img & oo & j & HB & E1 & Hj & _) & D)]);
      (split; [exact Z1|split; [exact Z2|]]).
    - destruct (take_done P s fs s1 r tr fs' Ho) as [->|(Hnz & m' & -> & Hm)].
      { split; [reflexivity|]. split; [left; auto|]. split; [right; left; reflexivity|left; reflexivity]. }
      split; [reflexivity|]. split; [right; auto|]. split; [right; right; split; [exact Hnz|exists m'; auto]|left; reflexivity].
    - destruct (Heffj j) as [Et Heff]. cbv zeta in Et, Heff. rewrite <- Hj in Et, Heff. injection E1 as Dt Dl Ds _ _.
      split; [simpl in Et; congruence|]. split; [rewrite Dl, Ds; exact Heff|].
      split; [destruct r'; [left; exact D|exact I]|right; reflexivity].
  Qed.
End Snap.

(* dispatchLogs of one entry, appended after getLastEntry, which may be the snapshot boundary *)
Lemma leader_append_zup C P s s' ty data : let e := new_entry s ty data in let C' := (e, last_entry s) :: C in
  chain_ok C' -> zup C s -> v_term s <= d_term s -> appended P s s' e -> zup C' s'.
Proof.
  intros e C'. subst C'. rewrite last_entry_lk. set (C' := (e, lk (topk s) (bk s)) :: C).
  intros HC' Hz Ht Happ.
  assert (Htk : topk s' = key e) by (unfold topk, key; rewrite (ap_lastIdx Happ), (ap_lastTerm Happ); reflexivity).
  assert (Hi : e_idx e = last_index s + 1) by reflexivity.
  assert (He : e_term e <= d_term s) by exact Ht. clearbody e.
  unfold zup. rewrite (ap_log Happ), Htk, (ap_snaps Happ), (bk_ext s s' (ap_snapIdx Happ) (ap_snapTerm Happ)), (ap_dterm Happ).
  assert (Hinc : incl C C') by (intros x Hx; right; exact Hx).
  pose proof (zshape_mono C C' _ _ _ _ _ _ Hinc (N.le_refl _) Hz) as Hz'.
  rewrite last_index_lk in Hi.
  change (key e) with (key (last_of [e])).
  apply (zshape_store C' HC' (d_term s) (d_log s) (d_snaps s) (topk s) (bk s) Hz' (d_term s) [e] (lk (topk s) (bk s)) (N.le_refl _)).
  - discriminate.
  - simpl. split; [left; reflexivity|exact I].
  - intros x [<-|[]]. exact He.
  - unfold lk. destruct (N.leb_spec (fst (bk s)) (fst (topk s))); [left; reflexivity|right; auto].
  - intros H. exfalso. unfold last_of, key in H. simpl in H. rewrite Hi in H. unfold lk in H.
    destruct (N.leb_spec (fst (bk s)) (fst (topk s))); simpl in *; lia.
  - intros _. eapply anc_up; [left; reflexivity|reflexivity|]. apply (zshape_b_lk C' _ _ _ _ _ Hz').
Qed.

Theorem setup_send_chainS C P s next last pi pt es c : chain_ok C -> zup C s -> 1 <= next ->
  setup_send P s next last = SendAE pi pt es c ->
  mchain C (pi, pt) es /\ (forall e, In e es -> e_term e <= d_term s) /\ rootc C (pi, pt) /\
  (forall e, In e es -> exists i, d_log s !! i = Some e) /\ c = v_commit s /\
  ((pi, pt) = (0, 0) \/ (pi, pt) = bk s \/ holds (d_log s) (pi, pt)).
Proof.
  intros HC Hz Hnext H. apply setup_send_spec in H. destruct H as (Ep & Eg & ->).
  assert (Hpk : ((pi, pt) = (0, 0) /\ next = 1) \/ ((pi, pt) = bk s /\ v_lastSnapIdx s + 1 = next /\ next <> 1) \/
                (exists pe, d_log s !! (next - 1) = Some pe /\ (pi, pt) = key pe /\ next <> 1)).
  { destruct (prev_of_cases _ _ _ Ep) as [H|[(H1 & H2 & H3)|H]]; [auto|right; left|auto].
    split; [rewrite bk_pos by lia; exact H1|]. split; [lia|exact H3]. }
  pose proof (zs_in Hz) as Hin.
  assert (Hbel : log_below C (d_log s) (lk (topk s) (bk s))) by (intros i x Hx; apply (zshape_log_lk C _ _ _ _ _ Hz i x Hx)).
  destruct (get_range_mchainS C (d_log s) (d_term s) _ HC Hin Hbel _ next es (pi, pt) Eg) as [M1 M2].
  { destruct Hpk as [[E1 E2]|[(E1 & E2 & _)|(pe & Hpe & E1 & Hn1)]]; [left; auto|right|right].
    - rewrite E1. split; [apply (zshape_b_lk C _ _ _ _ _ Hz)|exact E2].
    - rewrite E1. destruct (Hin _ pe Hpe) as (I & _). split; [apply (Hbel _ pe Hpe)|unfold key; simpl; lia]. }
  split; [exact M1|]. split; [exact M2|]. split; [|split; [|split; [reflexivity|]]].
  - destruct Hpk as [[E1 _]|[(E1 & _)|(pe & Hpe & E1 & _)]]; rewrite E1; [left; reflexivity|apply (zs_b Hz)|].
    destruct (Hin _ pe Hpe) as (_ & (q & Hq) & _). right. exists pe, q. auto.
  - intros e He. apply (get_range_in _ _ _ _ e Eg He).
  - destruct Hpk as [[E1 _]|[(E1 & _)|(pe & Hpe & E1 & _)]]; [left; exact E1|right; left; exact E1|right; right].
    rewrite E1. exists pe. destruct (Hin _ pe Hpe) as (I & _). split; [|reflexivity]. unfold key. simpl. rewrite I. exact Hpe.
Qed.
