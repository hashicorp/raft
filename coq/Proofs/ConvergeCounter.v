(* ConvergeCounter.v — the statement catch_up_converges quoted in Proofs/ConvergeProofs.v, with the conclusion
   `follower_ok (v_term sL) sF'`, is false even with log_matching_premise: the last clause of follower_ok
   (v_applied <= v_lastLogIdx) is not preserved when a conflict truncates the follower's log below its lastApplied.
   (Under the commit rule of appendEntries before its fix: commit - commitIndex <= index of the last entry
   of the accepted request - a leader commit index above n against a follower log longer than n broke it
   too, even for a follower that had applied nothing; under the rule as it is, B below ends with lastApplied = lastIndex.) *)
From Coq Require Import List NArith Bool Lia.
From stdpp Require Import gmap.
From RaftModel Require Import Base Node NodeCodec Replicate Converge.
Open Scope N_scope.

Definition cx_P1 := mkP 1 false false false 100 2 (fun _ => []).
Definition cx_P2 := mkP 2 false false false 100 2 (fun _ => []).
Definition cx_mkst (term : N) (es : list entry) : nstate :=
  let s := image_of term 0 0 es 0 [] in
  match recover cx_P1 s with RecOk s' _ => s' | _ => s end.

(* leader: terms 1 1 2 3 3, current term 3, n = 5 *)
Definition cx_L := [mkE 1 1 0 101; mkE 2 1 0 102; mkE 3 2 0 203; mkE 4 3 0 304; mkE 5 3 0 305].
(* follower: 7 entries of term 1 (agrees with the leader on 1..2: log matching holds) *)
Definition cx_F := [mkE 1 1 0 101; mkE 2 1 0 102; mkE 3 1 0 103; mkE 4 1 0 104; mkE 5 1 0 105; mkE 6 1 0 106; mkE 7 1 0 107].

(* Counterexample A: the follower has applied 1..7 *)
Definition cx_sF_A : nstate := set_applied (cx_mkst 3 cx_F) 7 [].
Definition cx_view (s : nstate) :=
  (v_term s, v_role s, v_lastLogIdx s, v_lastLogTerm s, v_lastSnapIdx s, v_applied s,
   map (fun e => (e_idx e, e_term e)) (sorted_log (d_log s))).
Eval vm_compute in cx_view cx_sF_A.
Definition cx_resA := cu_run (N.to_nat (5 + 5) + 1) cx_P1 cx_P2 (cx_mkst 3 cx_L) (mkRS 5 0 0) cx_sF_A 5.
Eval vm_compute in match cx_resA with
  | Some (rs, sF, k) => Some (r_next rs, r_match rs, k, cx_view sF, v_applied sF <=? v_lastLogIdx sF)
  | None => None end.

(* B (a counterexample only under the rule before the fix: commit): fresh follower (lastApplied = 0), the leader's commit
   index is 7 > n: under the rule as it is the follower ends with lastApplied = 5 = lastIndex *)
Definition cx_L_B := [mkE 1 1 0 101; mkE 2 1 0 102; mkE 3 1 0 103; mkE 4 3 0 304; mkE 5 3 0 305].
Definition cx_resB := cu_run (N.to_nat (2 + 5) + 1) cx_P1 cx_P2 (set_commit (cx_mkst 3 cx_L_B) 7) (mkRS 2 0 0) (cx_mkst 3 cx_F) 5.
Eval vm_compute in cx_view (cx_mkst 3 cx_F).
Eval vm_compute in match cx_resB with
  | Some (rs, sF, k) => Some (r_next rs, r_match rs, k, cx_view sF, v_applied sF <=? v_lastLogIdx sF)
  | None => None end.

(* formal refutation: the follower of A (lastApplied = 7)
   against the leader of B (log cx_L_B, commit index 7, nextIndex 2) *)
From RaftProofs Require Import ConvergeFollower.

Definition cx_sL := set_commit (cx_mkst 3 cx_L_B) 7.
Definition cx_sF := cx_sF_A.

Lemma log_wf_empty : log_wf ∅ 0.
Proof.
  split; [intros; apply lookup_empty|]. split.
  - intros i e H. rewrite lookup_empty in H. discriminate.
  - intros i Hi. lia.
Qed.

Lemma cx_wf_L : log_wf (d_log cx_sL) 5.
Proof.
  assert (E : d_log cx_sL = log_store ∅ cx_L_B) by (vm_compute; reflexivity). rewrite E.
  apply (log_wf_store ∅ 0 cx_L_B log_wf_empty).
  - simpl. repeat split; reflexivity.
  - intros e He. simpl in He. unfold known. repeat (destruct He as [<-|He]; [vm_compute; reflexivity|]). contradiction.
Qed.

Lemma cx_wf_F : log_wf (d_log cx_sF) 7.
Proof.
  assert (E : d_log cx_sF = log_store ∅ cx_F) by (vm_compute; reflexivity). rewrite E.
  apply (log_wf_store ∅ 0 cx_F log_wf_empty).
  - simpl. repeat split; reflexivity.
  - intros e He. simpl in He. unfold known. repeat (destruct He as [<-|He]; [vm_compute; reflexivity|]). contradiction.
Qed.

Lemma cx_leader_ok : leader_ok cx_P1 cx_sL 5.
Proof.
  destruct cx_wf_L as (W1 & W2 & W3). split; [exact W2|]. split; [exact W3|].
  split; [vm_compute; reflexivity|]. vm_compute. discriminate.
Qed.

Lemma cx_follower_ok : follower_ok (v_term cx_sL) cx_sF.
Proof.
  apply follower_wf_ok; [|vm_compute; discriminate].
  split; [vm_compute; reflexivity|]. split; [vm_compute; reflexivity|]. split; [vm_compute; reflexivity|].
  split; [exact cx_wf_F|]. intros _. eexists. split; vm_compute; reflexivity.
Qed.

Lemma cx_log_matching : log_matching_premise cx_sL cx_sF.
Proof.
  intros i e e' Hi Hi' Ht j ej Hj Hej.
  assert (Hi5 : i <= 5).
  { destruct (N.le_gt_cases i 5) as [|Hgt]; [assumption|].
    rewrite (proj1 cx_wf_L _ Hgt) in Hi. discriminate. }
  assert (Hc : i = 1 \/ i = 2 \/ i = 3 \/ i = 4 \/ i = 5) by lia.
  destruct Hc as [->|[->|[->|[->| ->]]]]; vm_compute in Hi, Hi'; inversion Hi; inversion Hi'; subst e e';
    vm_compute in Ht; try discriminate.
  - assert (j = 1) by lia. subst j. vm_compute in Hej. inversion Hej; subst ej.
    eexists. split; vm_compute; reflexivity.
  - assert (Hc : j = 1 \/ j = 2) by lia. destruct Hc as [->| ->]; vm_compute in Hej; inversion Hej; subst ej;
      eexists; split; vm_compute; reflexivity.
  - assert (Hc : j = 1 \/ j = 2 \/ j = 3) by lia.
    destruct Hc as [->|[->| ->]]; vm_compute in Hej; inversion Hej; subst ej;
      eexists; split; vm_compute; reflexivity.
Qed.

(* even with log_matching_premise, follower_ok cannot stand in the conclusion: the follower has applied 7 entries and
   ends with last index 5 *)
Theorem catch_up_converges_as_stated_is_false :
  ~ (forall PL PF sL sF n next0,
      leader_ok PL sL n -> follower_ok (v_term sL) sF -> log_matching_premise sL sF -> 1 <= next0 <= n ->
      exists rs' sF' k,
        cu_run (N.to_nat (next0 + n) + 1) PL PF sL (mkRS next0 0 0) sF n = Some (rs', sF', k) /\
        r_next rs' = n + 1 /\ r_match rs' = n /\
        caught_up sL sF' n /\ follower_ok (v_term sL) sF' /\ (k <= N.to_nat (next0 + n))%nat).
Proof.
  intros H.
  destruct (H cx_P1 cx_P2 cx_sL cx_sF 5 2 cx_leader_ok cx_follower_ok cx_log_matching ltac:(lia))
    as (rs' & sF' & k & E & _ & _ & _ & Hok & _).
  assert (X : match cu_run (N.to_nat (2 + 5) + 1) cx_P1 cx_P2 cx_sL (mkRS 2 0 0) cx_sF 5 with
              | Some (_, s, _) => (v_applied s <=? v_lastLogIdx s) = false
              | None => False end) by (vm_compute; reflexivity).
  rewrite E in X. apply N.leb_gt in X.
  destruct Hok as (_ & _ & _ & _ & _ & _ & _ & Hap). lia.
Qed.
Print Assumptions catch_up_converges_as_stated_is_false.
