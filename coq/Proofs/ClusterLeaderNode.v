(* ClusterLeaderNode.v — what one server's code does to the advertised leader id and the commit index, for the
   statements over all runs (Proofs/ClusterLeaderMain.v: advertised_leaders_are_leaders; Proofs/ClusterQuorumMono.v).
   The handlers: `post` of Proofs/AdvLeaderProofs.v (the pair kept, the leader cleared, or the sender of an
   AppendEntries adopted in the request's term) read for the id (post_nadv, step_full_nadv), and returned_commit_up
   (the commit index kept, or raised by appendEntries).  runCandidate clears the leader or leaves the server as it
   was, and a winner advertises itself (sess_adv); dispatchLogs keeps term and commit index and keeps or clears the
   leader (dispatch_adv); the commitCh case keeps the pair (LeaderProofs.leader_commit_frame). *)
From Coq Require Import List NArith Bool Lia.
From stdpp Require Import gmap.
From RaftModel Require Import Base Config Commitment Node NodeCodec Candidate Leader Cluster.
From RaftProofs Require Import NodeFrame NodeEvent AppendProofs LeaderProofs AdvLeaderProofs ClusterProofs ClusterStepInv ClusterLogCut.
Open Scope N_scope.

(* every handler that returns keeps the commit index, except that appendEntries may raise it (InstallSnapshot is
   not part of the cluster systems) *)
Lemma returned_commit_up P s fs e s' : match e with NInstall _ => False | _ => True end ->
  returned P s fs e s' -> v_commit s <= v_commit s'.
Proof.
  intros He. destruct e as [q|q|a|q| | | | |]; cbn [returned]; try contradiction;
    try (intros (x & tr & fs' & H)); try (intros ->); try apply N.le_refl.
  - apply (request_vote_frame v_commit) in H; try (intros; reflexivity). rewrite H. apply N.le_refl.
  - apply (append_entries_commit _ _ _ _ _ _ _ _ H).
  - pose proof (elect_self_frame v_commit (fun _ _ => eq_refl) (fun _ _ => eq_refl) (fun _ _ => eq_refl) (fun _ _ => eq_refl) P s fs) as F.
    rewrite H in F. cbn [out_proj] in F. rewrite F. apply N.le_refl.
  - assert (F : body_frame v_commit (fun _ => True) s [] (take_snapshot P s fs))
      by (apply take_snapshot_frame; intros; reflexivity || exact I).
    rewrite H in F. destruct F as [F _]. rewrite F. apply N.le_refl.
Qed.

(* the advertised leader of a running server is recorded in L for the server's current term *)
Definition nadv (L : list (N * N)) (r : nrun) : Prop :=
  match r with
  | Up s => v_leaderId s = 0 \/ In (v_term s, v_leaderId s) L
  | Down _ => True
  end.

Lemma nadv_mono L L' r : incl L L' -> nadv L r -> nadv L' r.
Proof. destruct r; simpl; auto. intros Hi [H|H]; auto. Qed.

Lemma boot_nadv P img r out L : boot P img = (r, out) -> nadv L r.
Proof.
  destruct r as [s|s]; [|intros _; exact I]. intros H. destruct (boot_leader _ _ _ _ H) as [E _].
  injection E as _ E. left. exact E.
Qed.

(* post of Proofs/AdvLeaderProofs.v, read for the advertised id: electSelf has no caller but runCandidate, which is
   modelled apart; the sender an AppendEntries names must be recorded for the term it claims *)
Lemma post_nadv L e s s' : nadv L (Up s) -> e <> NElect -> (forall a i t, sender e = Some (a, i, t) -> In (t, i) L) ->
  post e s s' -> nadv L (Up s').
Proof.
  simpl. intros H Hne Hcl [(A & _ & D)|[(Z & _)|[(S & _)|(E & _)]]].
  - injection A as _ A. rewrite A, D. exact H.
  - injection Z as _ Z. left. exact Z.
  - right. apply (Hcl (v_leader s')). exact S.
  - destruct (Hne E).
Qed.

Corollary step_full_nadv P r e cut fs r' ob out L : nadv L r -> e <> NElect ->
  (forall a i t, sender e = Some (a, i, t) -> In (t, i) L) -> step_full P r e cut fs = (r', ob, out) -> nadv L r'.
Proof.
  intros Ha Hne Hcl H.
  destruct (step_full_inv _ _ _ _ _ _ _ _ H) as [(img & oo & Hb & _)|[(s & _ & ->)|(s & s' & -> & -> & Hret)]];
    [apply (boot_nadv _ _ _ _ _ Hb)|exact I|apply (post_nadv L e s s' Ha Hne Hcl (returned_post _ _ _ _ _ Hret))].
Qed.

(* what the loop leaves of the pair at a server that was in state s: the advertised leader is cleared
   (setState(Candidate) on entry, setState(Follower) on a newer term), nothing has changed, or the server
   has won and advertises itself *)
Definition sess_adv (P : params) (s : nstate) (x : csess) : Prop :=
  match x with
  | SCand s' _ | SFollower s' => v_leaderId s' = 0 \/ s' = s
  | SLeader s' => v_leaderId s' = p_self P
  | SDead _ => True
  end.

Lemma sess_enter_adv P s0 s : sess_adv P s (fst (sess_enter P false s0)).
Proof.
  pose proof (sess_enter_cases P s0) as H. cbv zeta in H.
  destruct (self_is_voter P s0).
  - destruct (quorum_size (v_latest s0) <=? 1); rewrite H; [reflexivity|left; reflexivity].
  - rewrite H. left. reflexivity.
Qed.

Lemma sess_vote_adv P s c v : sess_adv P s (fst (sess_step P false (SCand s c) (CVote v))).
Proof.
  destruct (c_voting c) eqn:Hv.
  - rewrite (sess_vote_cases P s c v Hv). destruct (v_term s <? vr_term v); [left; reflexivity|].
    cbv zeta. destruct (c_needed c <=? _); [reflexivity|right; reflexivity].
  - unfold sess_step, on_vote. rewrite Hv. right. reflexivity.
Qed.

(* dispatchLogs: term and commit index are kept; the advertised leader too, unless StoreLogs failed (setState(Follower)) *)
Lemma dispatch_adv P ls fs reqs :
  let s' := l_node (fst (fst (fst (dispatch P ls fs reqs)))) in
  v_term s' = v_term (l_node ls) /\ v_commit s' = v_commit (l_node ls) /\
  (v_leaderId s' = v_leaderId (l_node ls) \/ v_leaderId s' = 0).
Proof.
  cbv zeta. rewrite dispatch_spec. cbv zeta. unfold do_stage.
  destruct (fst (next_fail fs)); destruct (p_track P); cbn [fst snd l_node]; auto.
Qed.

Lemma become_leader_adv P s :
  v_term (become_leader P s) = v_term s /\ v_commit (become_leader P s) = v_commit s /\
  (v_leaderId (become_leader P s) = v_leaderId s \/ v_leaderId (become_leader P s) = 0).
Proof. unfold become_leader. apply (dispatch_adv P (leader_setup s) [] [(LogNoop, 0, 0)]). Qed.

(* the server the loop ran at, as gstep leaves it *)
Lemma sess_result_adv P s x L : nadv L (Up s) -> sess_adv P s x -> nadv (sess_leaders (p_self P) x L) (loop_run P x).
Proof.
  intros Hs Hx. destruct x as [s' c|s'|s'|s']; cbn [sess_adv sess_leaders loop_run nadv] in *.
  - destruct Hx as [Hz| ->]; [left; exact Hz|exact Hs].
  - destruct Hx as [Hz| ->]; [left; exact Hz|exact Hs].
  - destruct (become_leader_adv P s') as (Ht & _ & [Hl|Hl]); [right|left; exact Hl]. rewrite Ht, Hl, Hx. left. reflexivity.
  - exact I.
Qed.
