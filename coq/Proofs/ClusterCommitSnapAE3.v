(* ClusterCommitSnapAE3.v — every (term, log) pair the appendEntries handler passes through keeps the
   shape of Proofs/ClusterCommitSnapLog.v, provided the request lies on one branch with the server's
   snapshot boundary (the cluster-level proof gets that from Leader Completeness: the boundary is a
   committed key).  In front, for this proof and for Proofs/ClusterSnapLMNode2.v: the key the first new entry comes
   after is the request's previous key or the key of a held entry (pred_key_fst, pred_key_src).  Then what the store
   part does to the log, index by index (no assumption on holes): entries at
   or below the previous index are untouched, entries change only at or above the first conflict, new entries come
   from the request. *)
From Coq Require Import List NArith Bool Lia.
From stdpp Require Import gmap.
From RaftModel Require Import Base Node.
From RaftProofs Require Import RecoverProofs LeaderProofs AppendProofs ConvergeFollower ClusterLogSpec ClusterLogChain ClusterLogNode ClusterLogAppend ClusterCommitChain
  ClusterCommitAE2 ClusterCommitInv ClusterCommitSnapLog ClusterCommitSnapBoot ClusterCommitSnapAE
  ClusterCommitSnapAE2.
Open Scope N_scope.

Lemma last_of_app dup news : news <> [] -> last_of (dup ++ news) = last_of news.
Proof. intros Hnn. unfold last_of. induction dup as [|d r IH]; [reflexivity|]. simpl. destruct (r ++ news) eqn:E; [|exact IH].
  apply app_eq_nil in E. destruct E; contradiction. Qed.

(* the key the first new entry comes after (ClusterLogAppend.pred_key): its index, and where it comes from - it is the
   request's previous key, about which prev_ok speaks, or the key of an entry the log holds (the last duplicate; the
   previous entry that matched) *)
Lemma pred_key_fst a dup : contig (aq_prevIdx a) dup -> fst (pred_key a dup) = aq_prevIdx a + N.of_nat (length dup).
Proof.
  intros Hc. destruct dup as [|d r]; [simpl; lia|]. exact (proj2 (contig_last _ _ Hc ltac:(discriminate))).
Qed.

Lemma pred_key_src s a dup : keys_ok (d_log s) -> prev_ok s a ->
  (forall e, In e dup -> exists se, d_log s !! e_idx e = Some se /\ e_term se = e_term e) ->
  (pred_key a dup = (aq_prevIdx a, aq_prevTerm a) /\
   (aq_prevIdx a = 0 \/ (aq_prevIdx a, aq_prevTerm a) = last_entry s \/ (aq_prevIdx a, aq_prevTerm a) = bk s)) \/
  holds (d_log s) (pred_key a dup).
Proof.
  intros Hk Hpk Hdup. destruct dup as [|d r].
  - destruct Hpk as [E0|[El|[Eb|(pe & Hpe & Ept)]]]; [left; auto..|right].
    exists pe. split; [exact Hpe|]. unfold key. rewrite (Hk _ _ Hpe), Ept. reflexivity.
  - right. assert (Hl : In (last_of (d :: r)) (d :: r)) by (apply last_in; discriminate).
    destruct (Hdup _ Hl) as (se & Hse & Et). exists se. split; [exact Hse|]. unfold key. rewrite (Hk _ _ Hse), Et. reflexivity.
Qed.

Section Reach.
  Variable C : chain.
  Hypothesis HC : chain_ok C.
  Hypothesis Hp : pclosed C.
  Variables (s : nstate) (a : areq).
  Hypothesis HS : zup C s.
  Hypothesis Hm : mchain C (aq_prevIdx a, aq_prevTerm a) (aq_entries a).
  Hypothesis Hterm : forall e, In e (aq_entries a) -> e_term e <= aq_term a.
  Hypothesis HT : d_term s <= aq_term a.
  Hypothesis Hpk : prev_ok s a.
  (* the request and the snapshot boundary lie on one branch: on_bk_branch C s a, written out because the end result
     kL_cmp is stated under it *)
  Hypothesis Hcmp : forall k, anc C k (key (last_of (aq_entries a))) ->
    (fst k <= v_lastSnapIdx s -> anc C k (bk s)) /\ (v_lastSnapIdx s <= fst k -> anc C (bk s) k).

  Section News.
  Variables dup news : list entry.
  Hypothesis Hes : aq_entries a = dup ++ news.
  Hypothesis Hnn : news <> [].
  Hypothesis Hdup : forall e, In e dup -> exists se, d_log s !! e_idx e = Some se /\ e_term se = e_term e.

  Let qk := pred_key a dup.

  Lemma qk_chain : mchain C qk news.
  Proof. rewrite Hes in Hm. apply (mchain_app C _ dup news Hm). Qed.

  Lemma held_onb i x : d_log s !! i = Some x -> onb C (d_term s) (topk s) (bk s) (key x) /\ fst (key x) <= v_lastLogIdx s.
  Proof.
    intros Hx. destruct (log_key_root C _ _ _ _ _ HS i x Hx) as [R I]. destruct (zs_in HS i x Hx) as (_ & _ & Ht).
    split; [split; [exact R|split; [exact Ht|right; apply (zshape_log_lk C _ _ _ _ _ HS i x Hx)]]|].
    unfold key. simpl. rewrite I. apply (zshape_bound C HC _ _ _ _ _ HS i x Hx).
  Qed.

  Lemma qk_onb : onb C (d_term s) (topk s) (bk s) qk /\ (fst qk <= v_lastLogIdx s \/ qk = bk s).
  Proof.
    unfold qk. destruct (pred_key_src s a dup (log_in_keys C _ _ (zs_in HS)) Hpk Hdup) as [[Eq [E0|[El|Eb]]]|(x & Hx & Ex)].
    - assert (E : (aq_prevIdx a, aq_prevTerm a) = (0, 0)).
      { pose proof qk_chain as Hq. unfold qk in Hq. rewrite Eq in Hq. destruct news as [|n0 nr]; [congruence|]. destruct Hq as [Hq _].
        apply (co_zero C HC n0 _ Hq). exact E0. }
      rewrite Eq, E. split; [split; [left; reflexivity|split; [simpl; lia|left; reflexivity]]|left; simpl; lia].
    - rewrite Eq, El, last_entry_lk. split.
      + split; [apply (zshape_lk_root C _ _ _ _ _ HS)|]. split; [|right; apply anc_refl].
        unfold lk. destruct (fst (bk s) <=? fst (topk s)); [apply (zs_tkt HS)|apply (zs_bt HS)].
      + unfold lk. destruct (N.leb_spec (fst (bk s)) (fst (topk s))); [left; simpl; lia|right; reflexivity].
    - rewrite Eq, Eb. split; [|right; reflexivity].
      split; [apply (zs_b HS)|]. split; [apply (zs_bt HS)|right; apply (zshape_b_lk C _ _ _ _ _ HS)].
    - rewrite <- Ex. destruct (held_onb _ x Hx) as [A B]. split; [exact A|left; exact B].
  Qed.

  Lemma news_hd_idx : e_idx (hd (mkE 0 0 0 0) news) = fst qk + 1.
  Proof. apply contig_hd; [apply (mchain_contig C qk news HC qk_chain)|exact Hnn]. Qed.

  Lemma kL_cmp : (fst (key (last_of news)) <= fst (bk s) -> anc C (key (last_of news)) (bk s)) /\
                 (fst (bk s) <= fst (key (last_of news)) -> anc C (bk s) (key (last_of news))).
  Proof. rewrite bk_fst, <- (last_of_app dup news Hnn), <- Hes. apply Hcmp. apply anc_refl. Qed.
  End News.

  Lemma onb_same qk : onb C (d_term s) (topk s) (bk s) qk -> fst qk = v_lastLogIdx s -> qk = topk s.
  Proof.
    intros (Q1 & _ & Q3) E. apply (anc_idx_eq C qk (topk s) HC); [|exact E].
    apply (cmp_root C (lk (topk s) (bk s))); auto; [apply (zs_tk HS)|right; apply (zshape_tk_lk C _ _ _ _ _ HS)|simpl; lia].
  Qed.

  Lemma onb_same_b qk : onb C (d_term s) (topk s) (bk s) qk -> fst qk = v_lastSnapIdx s -> qk = bk s.
  Proof.
    intros (Q1 & _ & Q3) E. pose proof (bk_fst s) as Hbf. apply (anc_idx_eq C qk (bk s) HC); [|rewrite Hbf; exact E].
    apply (cmp_root C (lk (topk s) (bk s))); auto; [apply (zs_b HS)|right; apply (zshape_b_lk C _ _ _ _ _ HS)|lia].
  Qed.

  Theorem ae_logS_zshape m' k' : ae_logS (d_log s) (v_lastLogIdx s) a m' k' ->
    zshape C (aq_term a) m' (d_snaps s) k' (bk s).
  Proof.
    intros (dup & news & Hes & Hnn & Hdup & Hcase).
    destruct (qk_onb dup news Hes Hnn Hdup) as [Hq Hq4].
    pose proof (qk_chain dup news Hes) as Hqc.
    pose proof (news_hd_idx dup news Hes Hnn) as Hhd.
    destruct (kL_cmp dup news Hes Hnn) as [Hle Hge]. pose proof (bk_fst s) as Hbf.
    assert (Hnt : forall e, In e news -> e_term e <= aq_term a).
    { intros e He. apply Hterm. rewrite Hes. apply in_app_iff. auto. }
    set (qk := pred_key a dup) in *.
    destruct Hcase as [(-> & -> & Hnew)|(c & Hfc & Hc0 & Hcl & Hcase)].
    - (* the new entries lie beyond the cached last index *)
      assert (Hge1 : v_lastLogIdx s <= fst qk).
      { assert (Hin : In (hd (mkE 0 0 0 0) news) news) by (destruct news; [congruence|left; reflexivity]).
        pose proof (Hnew _ Hin). lia. }
      apply (zshape_store C HC (d_term s) (d_log s) (d_snaps s) (topk s) (bk s) HS (aq_term a) news qk HT Hnn Hqc Hnt); [|exact Hle|exact Hge].
      destruct Hq4 as [Hq4|Hq4].
      + left. apply (onb_same qk Hq). lia.
      + destruct (N.eq_dec (fst qk) (v_lastLogIdx s)) as [E|Hne]; [left; apply (onb_same qk Hq E)|right].
        split; [exact Hq4|]. rewrite <- Hq4. simpl. lia.
    - (* the first new entry conflicts at c *)
      assert (Ec : c = fst qk + 1) by congruence.
      (* the conflict is not at or below the snapshot boundary: there the stored entry z and the sent entry y
         are both ancestors of bk s, so they would be the same entry *)
      assert (Hnc : fst (bk s) <= fst qk).
      { destruct (N.le_gt_cases (fst (bk s)) (fst qk)) as [|Hgt]; [assumption|exfalso].
        destruct (first_conflict_witness _ _ _ Hfc) as (y & z & Hy & Hyi & Hz & Hne).
        destruct (zshape_log_b C HC _ _ _ _ _ HS c z Hz) as [Hzb _].
        destruct (zs_in HS c z Hz) as (Iz & _).
        assert (Hyb : anc C (key y) (bk s)).
        { apply Hcmp; [apply (mchain_last C _ _ Hm y Hy)|]. unfold key. simpl. simpl in Hgt. lia. }
        assert (E : key z = key y).
        { apply (anc_unique C (key z) (key y) (bk s) HC); [apply Hzb; simpl in *; lia|exact Hyb|unfold key; simpl; lia]. }
        apply Hne. unfold key in E. congruence. }
      assert (Hlt : fst qk < fst (topk s)) by (simpl; lia).
      pose proof (zshape_delete C HC Hp _ _ _ _ _ HS qk Hq Hnc Hlt) as HD. rewrite <- Ec in HD. change (fst (topk s)) with (v_lastLogIdx s) in HD.
      destruct Hcase as [(-> & ->)|(-> & ->)].
      + rewrite (conflict_pred_app a dup news Hes). fold qk. eapply zshape_mono; [apply incl_refl|exact HT|exact HD].
      + apply (zshape_store C HC (d_term s) _ (d_snaps s) qk (bk s) HD (aq_term a) news qk HT Hnn Hqc Hnt); [left; reflexivity|exact Hle|exact Hge].
  Qed.

End Reach.

Theorem ae_reachS_zshape C s a d k : chain_ok C -> pclosed C -> zup C s ->
  mchain C (aq_prevIdx a, aq_prevTerm a) (aq_entries a) -> (forall e, In e (aq_entries a) -> e_term e <= aq_term a) ->
  (d_term s <= aq_term a -> on_bk_branch C s a) -> ae_reachS s a d k -> zshape C (fst d) (snd d) (d_snaps s) k (bk s).
Proof.
  intros HC Hp HS Hm Hterm Hcmp [[-> ->]|(HT & Ht & [[-> ->]|[Hpk Hlog]])].
  - exact HS.
  - rewrite Ht. eapply zshape_mono; [apply incl_refl|exact HT|exact HS].
  - rewrite Ht. apply (ae_logS_zshape C HC Hp s a HS Hm Hterm HT Hpk (Hcmp HT)), Hlog.
Qed.

Theorem ae_logS_fail m top a m' k' : (forall i, top < i -> m !! i = None) -> contig (aq_prevIdx a) (aq_entries a) ->
  ae_logS m top a m' k' ->
  log_ok_fail (aq_prevIdx a) (aq_entries a) m m' /\
  (forall i x, m' !! i = Some x -> m !! i = Some x \/ In x (aq_entries a)).
Proof.
  intros Hcache Hc (dup & news & Hes & Hnn & Hdup & Hcase).
  rewrite Hes in Hc. destruct (contig_app _ _ _ Hc) as (_ & Hcn & _).
  set (q := aq_prevIdx a + N.of_nat (length dup)) in *.
  assert (Hhd : e_idx (hd (mkE 0 0 0 0) news) = q + 1) by (apply contig_hd; assumption).
  assert (Hsrc : forall mm i x, log_store mm news !! i = Some x -> mm !! i = Some x \/ In x (aq_entries a)).
  { intros mm i x H. destruct (store_src_idx mm news i x H) as [[A _]|A]; [right; rewrite Hes; apply in_app_iff; auto|left; exact A]. }
  destruct Hcase as [(-> & _ & Hnew)|(c & Hfc & Hc0 & Hcl & [(-> & _)|(-> & _)])].
  - split; [|intros i x Hx; apply (Hsrc m i x Hx)]. split.
    + intros i Hi. destruct (store_contig_lookup q news m i Hcn) as [_ E]. apply E. lia.
    + intros i x Hx Hne. exfalso. apply Hne. destruct (store_contig_lookup q news m i Hcn) as [_ E]. rewrite E; [exact Hx|].
      intros Hr. destruct (contig_nth q news Hcn i Hr) as (e & He & Hei). pose proof (Hnew e He).
      rewrite (Hcache i) in Hx by lia. discriminate.
  - split.
    + split.
      * intros i Hi. rewrite log_delete_lookup. destruct (N.leb_spec c i); [lia|reflexivity].
      * intros i x Hx Hne. exists c. split; [exact Hfc|]. rewrite log_delete_lookup in Hne.
        destruct (N.leb_spec c i); [assumption|]. simpl in Hne. contradiction.
    + intros i x Hx. left. apply (log_delete_sub _ _ _ i x Hx).
  - split.
    + split.
      * intros i Hi. destruct (store_contig_lookup q news (log_delete m c top) i Hcn) as [_ E]. rewrite E by lia.
        rewrite log_delete_lookup. destruct (N.leb_spec c i); [lia|reflexivity].
      * intros i x Hx Hne. exists c. split; [exact Hfc|].
        destruct (N.le_gt_cases c i) as [|Hlt]; [assumption|]. exfalso. apply Hne.
        destruct (store_contig_lookup q news (log_delete m c top) i Hcn) as [_ E]. rewrite E by lia.
        rewrite log_delete_lookup. destruct (N.leb_spec c i); [lia|exact Hx].
    + intros i x Hx. destruct (Hsrc _ i x Hx) as [H|H]; [left|right; exact H]. apply (log_delete_sub _ _ _ i x H).
Qed.
