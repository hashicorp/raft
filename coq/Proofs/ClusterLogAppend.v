(* ClusterLogAppend.v — pieces of the follower's appendEntries handler as the Log Matching proofs see
   them: requests whose entries are consecutive elements of the ghost history are contiguous, the
   entry before the first new one, and who can still be Leader afterwards. *)
From Coq Require Import List NArith Bool Lia.
From stdpp Require Import gmap.
From RaftModel Require Import Base Node.
From RaftProofs Require Import NodeFrame AppendProofs AdvLeaderProofs ClusterLogSpec ClusterLogChain
  ClusterLogNode ClusterLogCut ClusterLogVote.
Open Scope N_scope.

Lemma log_delete_sub m lo hi : log_sub (log_delete m lo hi) m.
Proof.
  intros i x Hl. rewrite log_delete_lookup in Hl. destruct ((lo <=? i) && (i <=? hi)); [discriminate|exact Hl].
Qed.

Lemma m_lookup_del (m : gmap N entry) lo hi i x : m !! i = Some x -> log_delete m lo hi !! i = Some x \/ (lo <= i /\ i <= hi).
Proof.
  intros Hx. rewrite log_delete_lookup. destruct (N.leb_spec lo i); [|left; exact Hx]. destruct (N.leb_spec i hi); [right; lia|left; exact Hx].
Qed.

Lemma first_conflict_witness m es : forall c, first_conflict m es = Some c ->
  exists e se, In e es /\ e_idx e = c /\ m !! c = Some se /\ e_term e <> e_term se.
Proof.
  induction es as [|e r IH]; intros c H; simpl in H; [discriminate|].
  destruct (m !! e_idx e) as [se|] eqn:Em.
  - destruct (N.eqb_spec (e_term e) (e_term se)) as [Et|Et].
    + destruct (IH c H) as (e' & se' & A & B). exists e', se'. split; [right; exact A|exact B].
    + inversion H; subst c. exists e, se. split; [left; reflexivity|auto].
  - destruct (IH c H) as (e' & se' & A & B). exists e', se'. split; [right; exact A|exact B].
Qed.

Lemma nlog_up_sub C s s' : nlog_up C s -> log_sub (d_log s') (d_log s) -> d_snaps s' = d_snaps s ->
  v_lastLogIdx s' = v_lastLogIdx s -> v_lastLogTerm s' = v_lastLogTerm s -> v_lastSnapIdx s' = v_lastSnapIdx s ->
  d_term s' = d_term s -> nlog_up C s'.
Proof.
  intros (A & B & D & E & F & G) Hs K2 K3 K4 K5 Kt. unfold nlog_up. rewrite K2, K3, K4, K5, Kt.
  split; [exact A|]. split; [eapply log_in_sub; [exact Hs|apply N.le_refl|exact B]|].
  split; [exact D|]. split; [exact E|]. split; [exact F|]. eapply log_below_sub; eauto.
Qed.

Lemma mchain_contig C p es : chain_ok C -> mchain C p es -> contig (fst p) es.
Proof.
  intros HC. revert p. induction es as [|e r IH]; intros p H; simpl in *; [exact I|].
  destruct H as [H1 H2]. destruct (co_idx C HC e p H1) as [A _]. split; [exact A|].
  specialize (IH _ H2). unfold key in IH. simpl in IH. rewrite A in IH. exact IH.
Qed.

Lemma log_delete_some m lo hi i x : log_delete m lo hi !! i = Some x -> m !! i = Some x /\ (i < lo \/ hi < i).
Proof.
  rewrite log_delete_lookup. destruct (N.leb_spec lo i) as [Hlo|Hlo]; [|intros Hl; split; [exact Hl|lia]].
  destruct (N.leb_spec i hi) as [Hhi|Hhi]; [discriminate|]. intros Hl. split; [exact Hl|lia].
Qed.

(* (index, term) of the entry the first new entry was appended after: the last duplicate, or the
   request's previous entry.  After a successful truncation it is the cached last-log at once. *)
Definition pred_key (a : areq) (dup : list entry) : N * N :=
  match dup with [] => (aq_prevIdx a, aq_prevTerm a) | _ => key (last dup (mkE 0 0 0 0)) end.

Lemma conflict_pred_app a dup news : aq_entries a = dup ++ news -> conflict_pred a news = pred_key a dup.
Proof.
  intros Hes. unfold conflict_pred. rewrite Hes, app_length.
  replace (length dup + length news - length news)%nat with (length dup) by lia.
  rewrite firstn_app, Nat.sub_diag, firstn_all, firstn_O, app_nil_r.
  destruct dup as [|d0 dr _] using rev_ind; [reflexivity|].
  rewrite rev_app_distr. cbn [rev app]. unfold pred_key. rewrite last_last.
  destruct dr; reflexivity.
Qed.

(* a server that is still Leader after the handler either rejected the request (stale term) or
   took a request of its own term *)
Lemma append_entries_role P s fs a s' r tr fs' : append_entries P s fs a = Done s' r tr fs' ->
  v_role s' = Leader -> s' = s \/ (v_role s = Leader /\ aq_term a = v_term s).
Proof.
  intros H Hr. destruct (append_entries_lrt _ _ _ _ _ _ _ _ H) as [->|(_ & T & [F|[R E]])];
    [left; reflexivity|rewrite F in Hr; discriminate|right; split; congruence].
Qed.
