(* ClusterLogSnapMain.v — LOG MATCHING for Model/ClusterLog.v WITH takeSnapshot (lrun true), from the
   initial states of Proofs/ClusterLogSnapSpec.v (the commit indices of the initial state lie in a
   prefix of the history that every server holds).  Proofs/ClusterLogSnapCex.v shows that the
   statement is false without that condition.  First: the initial states of Proofs/ClusterLogSpec.v
   (without takeSnapshot) and of Proofs/ClusterLogSnapSpec.v (with it) satisfy the invariant, the
   ghost history being the common history `base`. *)
From Coq Require Import List NArith Bool Lia.
From stdpp Require Import gmap.
From RaftModel Require Import Base Config Node NodeCodec Cluster ClusterLog.
From RaftProofs Require Import ClusterProofs ClusterStepInv ClusterLogSpec ClusterLogChain ClusterLogNode
  ClusterLogSteps ClusterLogShell ClusterCommitChain ClusterCommitInv ClusterCommitSnapLog
  ClusterLogSnapSpec ClusterLogSnapState ClusterLogSnapNode ClusterLogSnapInv.
Open Scope N_scope.

Lemma base_cb_ok base c0 : hist_ok (0, 0) base -> cb_ok base c0 (base_chain (0, 0) base).
Proof.
  intros Hh. constructor.
  - apply base_chain_ok, Hh.
  - intros x p H. destruct (base_chain_pred _ _ x p H) as [->|(e' & p' & H' & E')]; [left; reflexivity|right].
    exists e', p'. auto.
  - apply incl_refl.
  - intros x p H _. exact H.
Qed.

Lemma last_key_rootc base k : rootc (base_chain (0, 0) base) (last_key base k).
Proof.
  destruct k as [|k']; [left; reflexivity|]. unfold last_key.
  destruct (nth_error base k') as [eL|] eqn:EL; [|left; reflexivity]. right.
  destruct (base_chain_anc _ (0, 0) base (incl_refl _) k' eL EL) as (_ & (p & Hp) & _). exists eL, p. auto.
Qed.

(* a prefix of the common history in the log store, its last entry cached, no snapshot: the shape *)
Lemma prefix_zshape base k m T : hist_ok (0, 0) base -> log_prefix base k m -> (forall e, In e base -> e_term e <= T) ->
  zshape (base_chain (0, 0) base) T m [] (last_key base k) (0, 0).
Proof.
  intros Hh Hp Hterm. pose proof (base_cb_ok base 0 Hh) as HCB.
  destruct (last_key_facts base k T Hh (proj1 Hp) Hterm) as [F1 _]. pose proof (last_key_idx base k Hh (proj1 Hp)) as F4.
  constructor; try (simpl; lia).
  - apply (prefix_log_in base k _ _ Hh Hp Hterm).
  - apply (prefix_below base k _ Hp).
  - apply last_key_rootc.
  - left. reflexivity.
  - intros _. apply (anc_root_all _ (cb_chain HCB) (cb_closed HCB)), last_key_rootc.
  - intros i Hi Hi'. rewrite F4 in Hi'. simpl in Hi. apply (prefix_some base k _ i Hp). lia.
Qed.

(* c0 = 0 without takeSnapshot; with it, the rest of node_init_snap *)
Lemma init_sinv h base c0 cfgs g0 : ginit_ok (lg_g g0) -> lg_msgs g0 = [] -> hist_ok (0, 0) base ->
  (forall n, In n (g_nodes (lg_g g0)) -> node_init base n /\
     (c0 = 0 \/ exists e, d_log (image (gn_run n)) !! c0 = Some e) /\ (h = true -> node_init_snap base c0 n)) ->
  sinv h base c0 cfgs g0 (base_chain (0, 0) base).
Proof.
  intros Hg Hmsgs Hh Hnodes.
  pose proof Hg as (_ & Hn0 & _ & Hl0 & _).
  unfold sinv, snp. constructor.
  - apply ginit_inv. exact Hg.
  - apply base_cb_ok, Hh.
  - intros n Hin. destruct (Hnodes n Hin) as ((Hsn & Hterm & k & Hp & Hrun) & Hc0 & Hhon).
    pose proof (prefix_zshape base k _ _ Hh Hp Hterm) as Hsh.
    assert (Hxi : h = true -> sxi base c0 (dpr (image (gn_run n)))).
    { intros Et. destruct (Hhon Et) as (_ & _ & Hpc & Hst & _). constructor; simpl; auto.
      - rewrite Hsn. intros sn [].
      - destruct Hc0 as [E|He]; [left; exact E|right; left; exact He]. }
    unfold node_init_snap in Hhon.
    destruct (gn_run n) as [s|s] eqn:Er; simpl in *.
    + destruct Hrun as (Hrole & Hsi & Hck). split.
      * split; [unfold zup, topk; rewrite Hsn, Hck, (bk_zero s Hsi); exact Hsh|]. split; [|auto].
        intros Et. destruct (Hhon Et) as (_ & _ & _ & _ & Hcm & Hfs & Hfa).
        pose proof (last_key_idx base k Hh (proj1 Hp)) as F4. rewrite <- Hck in F4. simpl in F4.
        constructor; auto; try (rewrite Hsi; lia).
        left. rewrite F4. destruct Hc0 as [->|(e & He)]; [lia|].
        destruct (prefix_lookup base k _ _ e Hp He) as [Hr _]. lia.
      * intros s0 Hs0 Hr. rewrite Er in Hs0. inversion Hs0; subst s0. exfalso. apply Hrole. exact Hr.
    + split; [|intros s0 Hs0; rewrite Er in Hs0; discriminate].
      split; [simpl; rewrite Hsn; apply (zshape_img _ (base_chain_ok base Hh) _ _ _ _ _ Hsh)|]. split; auto.
  - intros e p Hin. right. intros n Hn.
    destruct (base_chain_in _ _ Hh e p Hin) as (He & _).
    destruct (Hnodes n Hn) as ((_ & Hterm & _) & _). split; [apply Hterm, He|].
    intros se Hse. destruct (Hn0 n Hn) as [_ Hs]. congruence.
  - rewrite Hl0. intros T i [].
  - rewrite Hmsgs. intros m [].
Qed.

Theorem linit_sinv cfgs g0 : linit_snap_ok g0 ->
  exists base c0 C, hist_ok (0, 0) base /\ sinv true base c0 cfgs g0 C.
Proof.
  intros (Hg & Hmsgs & base & c0 & Hh & Hnodes).
  exists base, c0, (base_chain (0, 0) base). split; [exact Hh|].
  apply init_sinv; auto. intros n Hin. pose proof (Hnodes n Hin) as Hn. split; [apply Hn|]. split; [apply Hn|auto].
Qed.

Theorem linit_sinv_plain cfgs g0 : linit_ok g0 ->
  exists base C, hist_ok (0, 0) base /\ sinv false base 0 cfgs g0 C.
Proof.
  intros (Hg & Hmsgs & base & Hh & Hnodes).
  exists base, (base_chain (0, 0) base). split; [exact Hh|].
  apply init_sinv; auto. intros n Hin. split; [apply (Hnodes n Hin)|]. split; [left; reflexivity|discriminate].
Qed.

Section SMain.
  Variable h : bool.
  Variable base : list entry.
  Variable c0 : N.
  Hypothesis Hh : hist_ok (0, 0) base.
  Hypothesis Hc0 : h = false -> c0 = 0.
  Variable cfgs : list config.
  Hypothesis HQ : quorums_intersect cfgs.

  Definition Sinv (g : lgstate) : Prop := exists C, sinv h base c0 cfgs g C.

  Theorem sstep_inv g l g' : Sinv g -> lstep h cfgs g l = Some g' -> Sinv g'.
  Proof.
    intros [C Hinv] Hstep. apply (slstep h base c0 Hh Hc0 cfgs HQ g C l g' Hinv Hstep).
    intros j e cut fs ->. apply (lstep_elect_inv _ _ _ _ _ Hstep).
  Qed.

  Theorem srun_inv ls : forall g g', Sinv g -> lrun h cfgs g ls = Some g' -> Sinv g'.
  Proof.
    induction ls as [|l r IH]; intros g g' Hinv H; simpl in H.
    - inversion H; subst. exact Hinv.
    - destruct (lstep h cfgs g l) as [g1|] eqn:E; [|discriminate].
      eapply IH; [eapply sstep_inv; eassumption|exact H].
  Qed.

  Theorem sinv_log_matching g : Sinv g -> log_matching g /\ terms_monotone g.
  Proof.
    intros [C Hinv]. pose proof (cb_chain (sh_chain Hinv)) as HC. apply (branch_log_matching g C HC).
    intros a Ha. destruct (sh_nodes Hinv a Ha) as [Hnl _].
    destruct (snlog_image h base c0 C _ HC Hnl) as [[Hi (top & Ht & _) _ _] _]. split; [exact Hi|exists top; exact Ht].
  Qed.
End SMain.

(* LOG MATCHING with takeSnapshot and log compaction *)
Theorem log_matching_with_snapshots : forall cfgs g0 ls g,
  quorums_intersect cfgs -> linit_snap_ok g0 -> lrun true cfgs g0 ls = Some g ->
  log_matching g /\ terms_monotone g.
Proof.
  intros cfgs g0 ls g HQ H0 Hrun.
  destruct (linit_sinv cfgs g0 H0) as (base & c0 & C & Hh & HC).
  apply (sinv_log_matching true base c0 cfgs g).
  apply (srun_inv true base c0 Hh ltac:(discriminate) cfgs HQ ls g0 g); [exists C; exact HC|exact Hrun].
Qed.

Print Assumptions log_matching_with_snapshots.
