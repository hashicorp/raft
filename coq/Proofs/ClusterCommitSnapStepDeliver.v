(* ClusterCommitSnapStepDeliver.v — a delivered AppendEntries at a running server keeps the invariant.  Why a delivered AppendEntries never truncates
   what matters: the entry stored at the first conflict is off the branch of the request's term, and the request lies
   on one branch with the target's snapshot boundary.  What the target's log, commit index, snapshots and FSM position
   look like afterwards.  A successful answer whose last entry is of the request's term records an acceptance. *)
From Coq Require Import List NArith Bool Lia.
From stdpp Require Import gmap.
From RaftModel Require Import Base Config Node Cluster NodeCodec
  ClusterLog ClusterCommit.
From RaftProofs Require Import LeaderProofs VoteProofs AppendProofs ClusterProofs ClusterStepInv ClusterLogSpec ClusterLogChain
  ClusterLogNode ClusterLogCut ClusterLogAppend ClusterLogShell ClusterCommitLog ClusterCommitChain ClusterCommitNode
  ClusterCommitGhost ClusterCommitInv ClusterCommitUpd ClusterCommitSnapLog ClusterCommitSnapAE ClusterCommitSnapAE5
  ClusterCommitSnapNode ClusterCommitSnapNode3 ClusterCommitSnapLinv ClusterCommitSnapInv ClusterCommitSnapInv2
  ClusterCommitSnapTouch ClusterCommitSnapStepA.
Open Scope N_scope.

Section Conflict.
  Variable cfg : config.
  Variable Ps : list params.

  Lemma conflict_off_branch C LL A m lg c z : chain_inv C LL -> msg_inv cfg Ps C LL A m ->
    first_conflict lg (aq_entries (am_req m)) = Some c -> lg !! c = Some z -> (forall i x, lg !! i = Some x -> e_idx x = i) ->
    ~ tchain C LL (aq_term (am_req m)) (key z).
  Proof.
    intros Hci (M1 & _) Hfc Hz Hkeys Htc. destruct (first_conflict_witness _ _ _ Hfc) as (y & z' & Hy & Hyi & Hz' & Hne).
    rewrite Hz in Hz'. inversion Hz'; subst z'. destruct (M1 y Hy) as [_ Hty].
    assert (E : key y = key z).
    { apply (tchain_same_idx C LL Hci _ _ _ Hty Htc). unfold key. simpl. rewrite (Hkeys c z Hz). exact Hyi. }
    apply Hne. unfold key in E. congruence.
  Qed.
End Conflict.

Section Kept.
  Variable cfg : config.
  Variable Ps : list params.
  Variable fsm : bool.
  Hypothesis HVn : NoDup (voters cfg).

  Variables (g : cgstate) (C : chain) (LL : LLt) (A : At) (V : Vt).
  Hypothesis HI : zinvg cfg Ps fsm g C LL A V.
  (* m' is the log after the delivery; (c2, tl2) the leader and the last key at its election recorded for the request's term *)
  Variables (n : gnode) (s : nstate) (m : amsg) (m' : gmap N entry) (c2 : N) (tl2 : N * N).
  Hypothesis Hin : In n (cnodes g).
  Hypothesis Hr : gn_run n = Up s.
  Hypothesis Hm : In m (lg_msgs (cg_l g)).
  Hypothesis Hl2 : In (aq_term (am_req m), c2, tl2) LL.
  Hypothesis Hterm : d_term s <= aq_term (am_req m).
  Hypothesis Hfail : log_ok_fail (aq_prevIdx (am_req m)) (aq_entries (am_req m)) (d_log s) m'.

  Let Hci := zg_ci HI.

  Lemma zlog_keys : forall i x, d_log s !! i = Some x -> e_idx x = i.
  Proof. intros i x Hx. destruct (znode_zup_wfu HI n s Hin Hr) as [Hzz _]. apply (zs_in Hzz i x Hx). Qed.

  Lemma zkept_on_branch i x : d_log s !! i = Some x ->
    (forall c z, c <= i -> d_log s !! c = Some z -> tchain C LL (aq_term (am_req m)) (key z)) -> m' !! i = Some x.
  Proof.
    intros Hx Hall. destruct (lookup_entry_dec m' i x) as [E|Hne]; [exact E|exfalso].
    destruct (lf_conflict _ _ _ _ Hfail i x Hx Hne) as (c & Hfc & Hc).
    destruct (first_conflict_witness _ _ _ Hfc) as (y & z & _ & _ & Hz & _).
    apply (conflict_off_branch cfg Ps C LL A m (d_log s) c z Hci (zg_msg HI m Hm) Hfc Hz zlog_keys).
    apply (Hall c z Hc Hz).
  Qed.

  Lemma zkept_committed i x : d_log s !! i = Some x -> i <= v_commit s -> m' !! i = Some x.
  Proof.
    intros Hx Hi. apply (zkept_on_branch i x Hx). intros c z Hc Hz.
    destruct (zg_kc HI n s Hin Hr) as [_ K].
    apply (CK_on_branch cfg C LL A V (d_term s) (key z) _ c2 tl2 HVn Hci (zg_vi HI) (K c z Hz ltac:(lia)) Hterm Hl2).
  Qed.

  Lemma zkept_accepted k k0 : In (gn_id n, k) A -> anc C k0 k -> holds (d_log s) k0 ->
    holds m' k0 \/ (snd k < aq_term (am_req m) /\ ~ anc C k0 tl2).
  Proof.
    intros Ha Hanc (x0 & Hx0 & Ex0). pose proof (ci_ok Hci) as HC.
    destruct (znode_zup_wfu HI n s Hin Hr) as [Hzz _]. pose proof (zs_in Hzz) as Li. pose proof (zs_below Hzz) as Lb.
    assert (Hbelow : forall c z, c <= fst k0 -> d_log s !! c = Some z -> anc C (key z) k0).
    { intros c z Hc Hz. apply (holds_below C (d_log s) (d_term s) _ k0 c z HC Li Lb); [exists x0; auto|exact Hz|exact Hc]. }
    destruct (vi_ac (zg_vi HI) _ _ Ha) as [Hkc (ck & tlk & Hlk)].
    destruct (zg_a1 HI _ _ Ha) as (x & Hx & Hxi & Hxt).
    rewrite (zinvg_node_eq HI x n Hx Hin Hxi) in Hxt.
    unfold dtn in Hxt. rewrite Hr in Hxt. simpl in Hxt.
    destruct (N.eq_dec (snd k) (aq_term (am_req m))) as [Eq|Hne].
    - (* a request of the term in which k was accepted: k0 is on its branch *)
      left. exists x0. split; [|exact Ex0]. apply (zkept_on_branch _ x0 Hx0). intros c z Hc Hz.
      apply (tchain_anc C LL Hci _ k0); [|apply (Hbelow c z Hc Hz)].
      apply (tchain_anc C LL Hci _ k); [|exact Hanc]. rewrite <- Eq. eapply tchain_created; eauto.
    - destruct (lookup_entry_dec m' (fst k0) x0) as [E|Hnx]; [left; exists x0; auto|]. right. split; [lia|]. intros Htl. apply Hnx.
      apply (zkept_on_branch _ x0 Hx0). intros c z Hc Hz. exists c2, tl2. split; [exact Hl2|]. right.
      eapply anc_trans; [apply (Hbelow c z Hc Hz)|exact Htl].
  Qed.
End Kept.

Section Deliver.
  Variable cfg : config.
  Variable Ps : list params.
  Variable fsm : bool.
  Hypothesis HVn : NoDup (voters cfg).

  Variables (g : cgstate) (C : chain) (LL : LLt) (A : At) (V : Vt).
  Hypothesis HI : zinvg cfg Ps fsm g C LL A V.
  Variables (nj : gnode) (s : nstate) (m : amsg).
  Hypothesis Hin : In nj (cnodes g).
  Hypothesis Hr : gn_run nj = Up s.
  Hypothesis Hm : In m (lg_msgs (cg_l g)).
  Hypothesis Hto : am_to m = gn_id nj.

  Let a := am_req m.
  Let Hl := zg_l HI.
  Let Hci := zg_ci HI.
  Let HC := ci_ok Hci.
  Let Hp := zinv_pclosed cfg Ps fsm g C LL A V HI.

  Lemma zmsg_facts : mchain C (aq_prevIdx a, aq_prevTerm a) (aq_entries a) /\
    (forall e, In e (aq_entries a) -> e_term e <= aq_term a) /\ (forall e, In e (aq_entries a) -> dec_ok cfg Ps e) /\
    contig (aq_prevIdx a) (aq_entries a) /\ am_from m <> am_to m /\
    exists tl2, In (aq_term a, am_from m, tl2) LL.
  Proof.
    destruct (zl_msgs [cfg] _ C Hl m Hm) as (M1 & M2 & M3 & M4). destruct (zg_msg HI m Hm) as (N1 & _).
    split; [exact M3|]. split; [exact M4|]. split; [intros e He; apply (N1 e He)|].
    split; [apply (mchain_contig C _ _ HC M3)|]. split; [exact M1|]. apply (zg_ll HI). exact M2.
  Qed.

  Lemma zmsg_tchain k : anc C k (key (last_of (aq_entries a))) -> tchain C LL (aq_term a) k.
  Proof.
    intros Ha. destruct zmsg_facts as (_ & _ & _ & _ & _ & tl2 & Hl2).
    destruct (aq_entries a) as [|e0 er] eqn:Ees.
    - apply anc_root in Ha; [|exact HC]. subst k. exists (am_from m), tl2. split; [exact Hl2|right].
      apply (anc_root_all C HC Hp). destruct (ci_tl Hci _ _ _ Hl2) as [_ H]. exact H.
    - destruct (zg_msg HI m Hm) as (N1 & _). fold a in N1. rewrite Ees in N1.
      destruct (N1 (last_of (e0 :: er))) as [_ Ht]; [apply last_in; discriminate|].
      apply (tchain_anc C LL Hci _ _ k Ht Ha).
  Qed.

  Lemma zmsg_cmp : d_term s <= aq_term a -> on_bk_branch C s a.
  Proof.
    intros Ht k Ha. pose proof (zmsg_tchain k Ha) as Hk.
    destruct zmsg_facts as (_ & _ & _ & _ & _ & tl2 & Hl2).
    assert (Hb : tchain C LL (aq_term a) (bk s)).
    { destruct (bk_CK cfg Ps fsm g C LL A V HI nj s Hin Hr) as [E|Hb].
      - destruct (znode_zup_wfu HI nj s Hin Hr) as [Hz _].
        rewrite (rootc_zero C (bk s) HC (zs_b Hz) E). exists (am_from m), tl2. split; [exact Hl2|right].
        apply (anc_root_all C HC Hp). destruct (ci_tl Hci _ _ _ Hl2) as [_ H]. exact H.
      - apply (CK_on_branch cfg C LL A V (d_term s) (bk s) _ (am_from m) tl2 HVn Hci (zg_vi HI) Hb Ht Hl2). }
    split; intros Hle.
    - apply (tchain_linear C LL Hci (aq_term a) k (bk s) Hk Hb). simpl. exact Hle.
    - apply (tchain_linear C LL Hci (aq_term a) (bk s) k Hb Hk). simpl. exact Hle.
  Qed.

  Lemma zdeliver_reach cut fs r' ob out : step_full (gn_P nj) (Up s) (NAppend a) cut fs = (r', ob, out) ->
    znlog C r' /\ znodeg cfg Ps fsm (gn_P nj) r' /\ d_snaps (image r') = d_snaps s /\
    exists k, ae_reachS s a (tlp (image r')) k /\
      match r' with
      | Up s' => (fresh_up s' /\ ob = OLost) \/
                 (exists r tr fs', append_entries (gn_P nj) s fs a = Done s' r tr fs' /\ ob = OAppend a r /\ topk s' = k /\ sf_done s s')
      | Down _ => ob = OLost
      end.
  Proof.
    intros Hsf. destruct zmsg_facts as (M3 & M4 & Md & _).
    destruct (znode_zup_wfu HI nj s Hin Hr) as [Hnl Hw].
    pose proof (zg_node HI nj Hin) as Hcn. rewrite Hr in Hcn.
    apply (deliver_step_z cfg Ps fsm C (gn_P nj) s a cut fs r' ob out HC Hp Hw Hnl Hcn M3 M4 Md zmsg_cmp Hsf).
  Qed.

  (* a server in role Leader is not touched by a request of its own term: it is not from itself *)
  Lemma zdeliver_role fs s' r tr fs' : append_entries (gn_P nj) s fs a = Done s' r tr fs' -> v_role s' = Leader -> s' = s.
  Proof.
    intros Hd Hrole'. destruct zmsg_facts as (_ & _ & _ & _ & Mne & _).
    destruct (append_entries_role _ _ _ _ _ _ _ _ Hd Hrole') as [E|[Hl0 Ht]]; [exact E|]. exfalso.
    destruct (zl_nodes [cfg] _ C Hl nj Hin) as [_ Hlo]. destruct (Hlo s Hr Hl0) as (L1 & _).
    destruct (zl_msgs [cfg] _ C Hl m Hm) as (_ & M2 & _). fold a in M2. rewrite Ht in M2. apply Mne. rewrite Hto.
    apply (leaders_fun [cfg] _ _ _ _ (quorums_intersect_one cfg HVn) (zl_g [cfg] _ C Hl) M2 L1).
  Qed.

  Lemma zaccepted_last fs s' r tr fs' k : append_entries (gn_P nj) s fs a = Done s' r tr fs' -> ar_success r = true ->
    zup C s' -> ae_reachS s a (tlp s') k -> topk s' = k -> bk s' = bk s ->
    fst (last_key_of a) = 0 \/ anc C (last_key_of a) (last_entry s').
  Proof.
    intros Hdone Hsucc Hz' Hreach Hk Hbk. destruct zmsg_facts as (M3 & M4 & Md & Mc & _).
    destruct (znode_zup_wfu HI nj s Hin Hr) as [Hz Hw].
    destruct (append_entries_log (gn_P nj) s fs a s' r tr fs' (zup_cache_ok C s HC Hz) Mc Hdone) as [Hfail Hs]. destruct (Hs Hsucc) as [_ Hmatch].
    unfold last_key_of. destruct (aq_entries a) as [|e0 er] eqn:Ees.
    - destruct (N.eq_dec (aq_prevIdx a) 0) as [E0|Hpos]; [left; exact E0|right].
      (* no entries: the log and the cached keys are untouched *)
      assert (El : last_entry s' = last_entry s).
      { rewrite !last_entry_lk, Hbk, Hk. destruct Hreach as [[_ ->]|(_ & _ & [[_ ->]|[_ (dup & news & Hes & Hnn & _)]])]; try reflexivity.
        fold a in Hes. rewrite Ees in Hes. symmetry in Hes. apply app_eq_nil in Hes. destruct Hes; contradiction. }
      rewrite El, last_entry_lk.
      destruct (append_success_prev (gn_P nj) s fs a s' r tr fs' Hdone Hsucc ltac:(lia)) as [[E1 E2]|[[E1 E2]|(pe & Hpe & Ept)]].
      + assert (E : (aq_prevIdx a, aq_prevTerm a) = last_entry s) by (destruct (last_entry s); simpl in *; congruence).
        rewrite E, last_entry_lk. apply anc_refl.
      + assert (E : (aq_prevIdx a, aq_prevTerm a) = bk s) by (rewrite bk_pos by lia; congruence). rewrite E. apply (zshape_b_lk C _ _ _ _ _ Hz).
      + destruct (zs_in Hz _ pe Hpe) as (I & _).
        assert (E : (aq_prevIdx a, aq_prevTerm a) = key pe) by (unfold key; congruence). rewrite E. apply (zshape_log_lk C _ _ _ _ _ Hz _ pe Hpe).
    - right. rewrite <- Ees in *. assert (Hlast : In (last_of (aq_entries a)) (aq_entries a)) by (apply last_in; rewrite Ees; discriminate).
      destruct (Hmatch _ Hlast) as (e' & He' & Ht' & _). destruct (zs_in Hz' _ e' He') as (I & _).
      assert (E : key (last_of (aq_entries a)) = key e') by (unfold key; congruence).
      rewrite E, last_entry_lk. apply (zshape_log_lk C _ _ _ _ _ Hz' _ e' He').
  Qed.
  Lemma zdeliver_kc cut fs r' ob out s' : step_full (gn_P nj) (Up s) (NAppend a) cut fs = (r', ob, out) -> r' = Up s' ->
    v_commit s' <= last_index s' /\ forall i e, d_log s' !! i = Some e -> i <= v_commit s' -> CK cfg C LL A (d_term s') (key e).
  Proof.
    intros Hsf ->. destruct (zdeliver_reach cut fs _ ob out Hsf) as (Hz' & Hcn' & Hsn & k & Hreach & Hcase). simpl in Hz'.
    destruct zmsg_facts as (M3 & M4 & Md & Mc & Mne & tl2 & Hl2).
    pose proof (zg_node HI nj Hin) as Hcn. rewrite Hr in Hcn. destruct Hcn as (_ & HP & Hup).
    destruct (znode_zup_wfu HI nj s Hin Hr) as [Hz Hw].
    destruct (zg_kc HI nj s Hin Hr) as [K1 K2].
    pose proof (zs_in Hz') as Li'.
    destruct Hcase as [((Hc0 & _) & _)|(r & tr & fs' & Hdone & _ & Hk & Hsfd)].
    { rewrite Hc0. split; [lia|]. intros i e He Hi. exfalso. pose proof (log_in_pos C _ _ i e HC Li' He). lia. }
    pose proof (dec_ok_decode cfg Ps (gn_P nj) _ HP Md) as Hdp.
    destruct (append_done_vol cfg (gn_P nj) s fs a s' r tr fs' Hw (zup_cache_ok C s HC Hz) Mc Hdp (zu_lat Hup) (zu_com Hup) Hdone)
      as [(_ & -> & _)|(Hge & Hvt' & Hdt' & Hrt & _ & _ & _ & _ & Hcommit)]; [split; [exact K1|exact K2]|].
    destruct Hw as [_ Hvd]. destruct Hsfd as (S1 & S2 & S3 & _).
    destruct (reachS_src C s a _ k HC Hz Mc Hreach) as (Hfail & Hsrc & Hdt & _). cbn [tlp fst snd image] in Hfail, Hsrc, Hdt.
    assert (Hta : d_term s <= aq_term a) by lia.
    destruct Hcommit as [[Ec Ea]|(Hsucc & Hlt & Hlc' & Hln & Hli & _)].
    - (* the commit index did not move: nothing at or below it was touched *)
      assert (Hkept : forall i x, d_log s !! i = Some x -> i <= v_commit s -> d_log s' !! i = Some x).
      { intros i x Hx Hi. apply (zkept_committed cfg Ps fsm HVn g C LL A V HI nj s m (d_log s') (am_from m) tl2 Hin Hr Hm Hl2 Hta Hfail i x Hx Hi). }
      rewrite Ec. split.
      + unfold last_index in *. rewrite S2. destruct (N.le_gt_cases (v_commit s) (v_lastSnapIdx s)) as [|Hgt]; [lia|].
        destruct (zs_seg Hz (v_commit s)) as [x Hx]; [simpl; lia|simpl; lia|].
        pose proof (Hkept _ x Hx (N.le_refl _)) as Hx'. pose proof (zshape_bound C HC _ _ _ _ _ Hz' _ x Hx') as Hb. simpl in Hb. lia.
      + intros i e He Hi. destruct (Li' i e He) as (Ie & _). pose proof (log_in_pos C _ _ i e HC Li' He) as Hpos.
        destruct (d_log s !! i) as [x|] eqn:Ex.
        * pose proof (Hkept _ x Ex Hi) as Hx'. rewrite He in Hx'. inversion Hx'; subst x.
          eapply (CK_bound cfg); [exact Hdt|apply (K2 i e Ex Hi)].
        * destruct (Hsrc i e He) as [H|Hes]; [congruence|].
          assert (His : i <= v_lastSnapIdx s).
          { destruct (N.le_gt_cases i (v_lastSnapIdx s)) as [|Hgt]; [assumption|exfalso].
            destruct (zs_seg Hz i) as [x Hx]; [simpl; lia|unfold last_index in K1; simpl; lia|congruence]. }
          destruct (bk_CK cfg Ps fsm g C LL A V HI nj s Hin Hr) as [E0|Hb]; [lia|].
          eapply (CK_bound cfg); [exact Hdt|]. apply (CK_anc cfg C LL A _ (bk s) _ (zg_ci HI) Hb).
          apply (zmsg_cmp Hta (key e)); [apply (mchain_last C _ _ M3 e Hes)|unfold key; simpl; lia].
    - (* the commit index follows the request: at most the last index the request vouches for *)
      split; [exact Hli|]. intros i e He Hi. rewrite Hdt'.
      destruct (zg_msg HI m Hm) as (_ & _ & M3c). fold a in M3c.
      pose proof (log_in_pos C _ _ i e HC Li' He) as Hpos. destruct (Li' i e He) as (Ie & _).
      apply M3c; [|unfold key; simpl; lia|unfold key; simpl; lia].
      assert (Hbk : bk s' = bk s) by (apply bk_ext; congruence).
      destruct (zaccepted_last fs s' r tr fs' k Hdone Hsucc Hz' Hreach Hk Hbk) as [E0|Hh].
      + exfalso. unfold last_new in Hln. unfold last_key_of in E0. destruct (aq_entries a); simpl in E0; [lia|].
        unfold key in E0. simpl in E0. lia.
      + rewrite last_entry_lk in Hh. apply (anc_linear C (key e) _ _ HC (zshape_log_lk C _ _ _ _ _ Hz' i e He) Hh).
        unfold last_new in Hln. unfold last_key_of. destruct (aq_entries a); simpl; [lia|unfold key; simpl; lia].
  Qed.

  Lemma zdeliver_fsm cut fs r' ob out s' : step_full (gn_P nj) (Up s) (NAppend a) cut fs = (r', ob, out) -> r' = Up s' ->
    fsm = true -> fst (v_fsmLast s') = 0 \/ (created C (v_fsmLast s') /\ CK cfg C LL A (d_term s') (v_fsmLast s')).
  Proof.
    intros Hsf E Hg. pose proof (zdeliver_kc cut fs r' ob out s' Hsf E) as [_ Kc']. subst r'.
    destruct (zdeliver_reach cut fs _ ob out Hsf) as (Hz' & _ & _ & k & Hreach & Hcase). simpl in Hz'.
    destruct zmsg_facts as (_ & _ & _ & Mc & _).
    destruct (znode_zup_wfu HI nj s Hin Hr) as [Hz _].
    destruct Hcase as [((_ & _ & Hf & _) & _)|(r & tr & fs' & Hdone & _ & Hk & Hsfd)]; [left; rewrite Hf; reflexivity|].
    destruct (reachS_src C s a _ k HC Hz Mc Hreach) as (_ & _ & Hdt & _). cbn [tlp fst snd image] in Hdt.
    destruct Hsfd as (_ & _ & _ & [[_ E2]|(E1 & E2 & [E3|(e & E4 & E5 & E6)])]).
    - rewrite E2. destruct (zg_fsm HI nj s Hin Hr Hg) as [E|[F1 F2]]; [left; exact E|right].
      split; [exact F1|eapply (CK_bound cfg); eauto].
    - rewrite E3. destruct (zg_fsm HI nj s Hin Hr Hg) as [E|[F1 F2]]; [left; exact E|right].
      split; [exact F1|eapply (CK_bound cfg); eauto].
    - right. rewrite E6. destruct (zs_in Hz' _ e E4) as (_ & (p & Pp) & _).
      split; [exists e, p; auto|]. apply (Kc' _ e E4). lia.
  Qed.

  Lemma zdeliver_av cut fs r' ob out k k0 : step_full (gn_P nj) (Up s) (NAppend a) cut fs = (r', ob, out) ->
    In (gn_id nj, k) A -> anc C k0 k -> 1 <= fst k0 ->
    covers C (image r') k0 \/ passed C LL (snd k) (fun T => T <= d_term (image r')) k0.
  Proof.
    intros Hsf Ha Hanc Hpos. destruct (zdeliver_reach cut fs _ ob out Hsf) as (_ & _ & Hsn & kk & Hreach & _).
    destruct zmsg_facts as (M3 & M4 & Md & Mc & Mne & tl2 & Hl2).
    destruct (znode_zup_wfu HI nj s Hin Hr) as [Hz _].
    destruct (reachS_src C s a _ kk HC Hz Mc Hreach) as (Hfail & _ & Hdt & _). cbn [tlp fst snd] in Hfail, Hdt.
    destruct (zg_av HI _ k nj k0 Ha Hin eq_refl Hanc Hpos) as [Hc|H].
    - rewrite Hr in Hc. simpl in Hc. destruct Hc as [Hh|(sn & Hs1 & Hs2)].
      + destruct Hreach as [[E _]|(Hle & Ht & _)].
        * left. left. unfold tlp in E. inversion E as [[E1 E2]]. rewrite E2. exact Hh.
        * cbn [tlp fst] in Ht.
          destruct (zkept_accepted cfg Ps fsm g C LL A V HI nj s m (d_log (image r')) (am_from m) tl2 Hin Hr Hm Hl2 Hle Hfail k k0 Ha Hanc Hh)
            as [H|[H5 H6]]; [left; left; exact H|right].
          exists (aq_term a), (am_from m), tl2. split; [exact Hl2|]. split; [exact H5|]. split; [rewrite Ht; lia|exact H6].
      + left. right. exists sn. rewrite Hsn. auto.
    - right. apply (passed_weaken _ _ _ _ _ _ _) with (2 := H). unfold dtn. rewrite Hr. simpl. intros; lia.
  Qed.

  Lemma zdeliver_new fs s' r tr fs' kk k0 : append_entries (gn_P nj) s fs a = Done s' r tr fs' -> ar_success r = true ->
    zup C s' -> ae_reachS s a (tlp s') kk -> topk s' = kk -> bk s' = bk s -> aq_entries a <> [] ->
    anc C k0 (key (last_of (aq_entries a))) -> 1 <= fst k0 -> covers C s' k0.
  Proof.
    intros Hdone Hsucc Hz' Hreach Hk Hbk Hne Hanc Hpos. apply (zup_covers C s' k0 HC Hz'); [|exact Hpos].
    destruct (zaccepted_last fs s' r tr fs' kk Hdone Hsucc Hz' Hreach Hk Hbk) as [E0|Hh].
    - exfalso. unfold last_key_of in E0. destruct (aq_entries a) as [|e0 er] eqn:Ees; [congruence|].
      destruct zmsg_facts as (M3 & _). fold a in M3. rewrite Ees in M3.
      destruct (mchain_in C _ _ M3 (last_of (e0 :: er))) as [q Hq]; [apply last_in; discriminate|].
      destruct (co_idx C HC _ _ Hq) as [Hi _]. unfold key in E0. simpl in E0. lia.
    - unfold last_key_of in Hh. destruct (aq_entries a) as [|e0 er] eqn:Ees; [congruence|]. eapply anc_trans; eauto.
  Qed.
End Deliver.

Definition accept_of (j : N) (a : areq) (ob : nobs) : At :=
  match ob with
  | OAppend _ r =>
    if ar_success r then
      match aq_entries a with
      | [] => []
      | es => if e_term (last_of es) =? aq_term a then [(j, key (last_of es))] else []
      end
    else []
  | _ => []
  end.

Lemma accept_of_spec j a a' r w k : In (w, k) (accept_of j a (OAppend a' r)) ->
  w = j /\ ar_success r = true /\ aq_entries a <> [] /\ e_term (last_of (aq_entries a)) = aq_term a /\ k = key (last_of (aq_entries a)).
Proof.
  simpl. destruct (ar_success r); [|contradiction]. destruct (aq_entries a) as [|e0 er] eqn:E; [contradiction|].
  destruct (N.eqb_spec (e_term (last_of (e0 :: er))) (aq_term a)) as [Ht|]; [|contradiction].
  intros [H|[]]. inversion H; subst. split; [reflexivity|]. split; [reflexivity|]. split; [discriminate|]. split; [exact Ht|reflexivity].
Qed.

Section Step.
  Variable cfg : config.
  Variable Ps : list params.
  Variable fsm : bool.
  Hypothesis HVn : NoDup (voters cfg).

  Lemma zinv_deliver_up g C LL A V k m nj s cut fs r' ob out g1 hb' :
    zinvg cfg Ps fsm g C LL A V -> nth_error (lg_msgs (cg_l g)) k = Some m -> find_node (cnodes g) (am_to m) = Some nj ->
    gn_run nj = Up s -> step_full (gn_P nj) (Up s) (NAppend (am_req m)) cut fs = (r', ob, out) -> ginv [cfg] g1 ->
    g_nodes g1 = upd_node (cnodes g) (am_to m) (mkGN (gn_P nj) r' (keep_sess r' (gn_sess nj)) (gn_next nj)) ->
    g_leaders g1 = g_leaders (gof g) -> g_grants g1 = grant_ghost (am_to m) ob ++ g_grants (gof g) ->
    zinvg cfg Ps fsm (mkCG (mkLG g1 (lg_msgs (cg_l g))) (refresh_leads (cnodes g) (g_nodes g1) (cg_lead g)) hb'
                        (match ob with OAppend _ r => cg_ans g ++ [mkARes k r] | _ => cg_ans g end))
      C LL (accept_of (am_to m) (am_req m) ob ++ A) V.
  Proof.
    intros HI Hk Hf Hr Hsf Hg1 Hn1 Hl1 Hgr.
    destruct (find_node_in _ _ _ Hf) as [Hin Hid]. pose proof (nth_error_In _ _ Hk) as Hm.
    pose proof (zg_ci HI) as Hci. pose proof (ci_ok Hci) as HC.
    set (a := am_req m) in *. set (j := am_to m) in *.
    destruct (zdeliver_reach cfg Ps fsm HVn g C LL A V HI nj s m Hin Hr Hm cut fs r' ob out Hsf) as (Hnl' & Hcn' & Hsn' & t & Hreach & Hcase).
    destruct (zmsg_facts cfg Ps fsm g C LL A V HI m Hm) as (M3 & M4 & Md & Mc & Mne & tl2 & Hl2). fold a in M3, M4, Md, Mc, Hl2.
    pose proof (zg_node HI nj Hin) as Hcn. rewrite Hr in Hcn. pose proof Hcn as (_ & _ & Hup).
    destruct (znode_zup_wfu HI nj s Hin Hr) as [Hnl Hw].
    pose proof (zup_cache_ok C s HC Hnl) as Hcache.
    destruct (reachS_src C s a _ t HC Hnl Mc Hreach) as (_ & _ & Hdt & _). cbn [tlp fst] in Hdt.
    pose proof (dec_ok_decode cfg Ps (gn_P nj) _ (proj1 (proj2 Hcn)) Md) as Hdp.
    assert (Hacc : forall w kk, In (w, kk) (accept_of j a ob) ->
              exists s' r tr fs', r' = Up s' /\ append_entries (gn_P nj) s fs a = Done s' r tr fs' /\ ob = OAppend a r /\
                w = j /\ ar_success r = true /\ aq_entries a <> [] /\ snd kk = aq_term a /\ kk = key (last_of (aq_entries a)) /\ d_term s' = aq_term a).
    { intros w kk Ha. destruct ob as [q t0 gr|q t0 gr|a' r|q r|q sf| |]; try contradiction.
      destruct (accept_of_spec j a a' r w kk Ha) as (-> & Hs1 & Hs2 & Hs3 & ->).
      destruct r' as [s'|s']; [|discriminate]. destruct Hcase as [(_ & Hc)|(r0 & tr & fs' & Hd & Eo & _)]; [discriminate|].
      inversion Eo; subst a' r0. exists s', r, tr, fs'. repeat (split; [first [reflexivity|assumption]|]).
      destruct (append_done_vol cfg (gn_P nj) s fs a s' r tr fs' Hw Hcache Mc Hdp (zu_lat Hup) (zu_com Hup) Hd) as [(_ & _ & _ & Hf0)|(_ & _ & Hd' & _)];
        [congruence|exact Hd']. }
    assert (Hgg : grant_ghost j ob = []).
    { destruct r' as [s'|s']; [destruct Hcase as [(_ & ->)|(r & tr & fs' & _ & -> & _)]|rewrite Hcase]; reflexivity. }
    rewrite <- Hr in Hsf.
    assert (Hrk : role_kept (gn_run nj) r').
    { intros s' -> Hrole. destruct Hcase as [((_ & Hf0 & _) & _)|(r & tr & fs' & Hd & _ & _)]; [rewrite Hf0 in Hrole; discriminate|].
      pose proof (zdeliver_role cfg Ps fsm HVn g C LL A V HI nj s m Hin Hr Hm (eq_sym Hid) fs s' r tr fs' Hd Hrole) as ->. exists s. auto. }
    destruct (handler_touch cfg Ps fsm HVn g C LL A V j nj (NAppend a) cut fs r' ob out g1 hb' (match ob with OAppend _ r => cg_ans g ++ [mkARes k r] | _ => cg_ans g end) (match ob with OAppend _ r => [mkARes k r] | _ => [] end)
                HI Hf Hsf Hg1 Hn1 Hl1 Hgr) as (Ht & Hleads & Hld & Hl'); [destruct ob; try reflexivity; symmetry; apply app_nil_r|exact Hnl'|exact Hrk|].
    change V with ([] ++ V).
    apply (zinv_handler cfg Ps fsm HVn g _ C LL A _ V [] j nj (NAppend a) cut fs r' ob out _ HI Hf Hsf Ht Hleads Hld Hl'); try exact Hcn'.
    - constructor; [exact Hci|intros w T' c kw rq kk k0 []| |intros T' c tl' []|intros w T' c kw rq []|].
      + (* the target voted in no later term *)
        intros w T' c kw rq kk k0 Hv Ha Hlt. exfalso.
        destruct (Hacc _ _ Ha) as (s' & r & tr & fs' & -> & Hd & _ & -> & _ & _ & Hkt & _ & Hdt').
        destruct (zg_v1 HI _ _ _ _ _ Hv) as [(x & Hx & Hxi & Hxt) _].
        rewrite (zinvg_node_eq HI x nj Hx Hin) in Hxt by congruence.
        unfold dtn in Hxt. rewrite Hr in Hxt. simpl in Hxt, Hdt. lia.
      + intros w kk Ha. destruct (Hacc _ _ Ha) as (s' & r & tr & fs' & _ & _ & _ & _ & _ & Hne & Hkt & -> & _).
        split; [|exists (am_from m), tl2; rewrite Hkt; exact Hl2].
        destruct (mchain_in C _ _ M3 (last_of (aq_entries a))) as [q Hq]; [apply last_in; exact Hne|]. exists (last_of (aq_entries a)), q. auto.
    - intros s' Hs'. rewrite Hr in Hsf.
      destruct (zdeliver_kc cfg Ps fsm HVn g C LL A V HI nj s m Hin Hr Hm (eq_sym Hid) cut fs r' ob out s' Hsf Hs') as [K1 K2].
      split; [exact K1|]. intros i e He Hi. apply (CK_ext [] [] _ (N.le_refl _)), (K2 i e He Hi).
    - intros sn0 Hsn0. rewrite Hsn' in Hsn0. pose proof (zg_sk HI nj sn0 Hin) as H. unfold dtn in H. rewrite Hr in H.
      apply (CK_ext [] [] _ Hdt), H, Hsn0.
    - intros s' Hs' Hg. rewrite Hr in Hsf.
      destruct (zdeliver_fsm cfg Ps fsm HVn g C LL A V HI nj s m Hin Hr Hm (eq_sym Hid) cut fs r' ob out s' Hsf Hs' Hg) as [E|[F1 F2]]; [left; exact E|right].
      split; [exact F1|]. apply (CK_ext [] [] _ (N.le_refl _)), F2.
    - intros kk k0 Ha Hanc Hpos. rewrite Hr in Hsf. apply in_app_iff in Ha. destruct Ha as [Ha|Ha].
      + (* the new acceptance *)
        destruct (Hacc _ _ Ha) as (s' & r & tr & fs' & Er' & Hd & Eob & _ & Hsucc & Hne & _ & -> & _).
        left. rewrite Er' in *. simpl in Hnl'. cbn [image].
        destruct Hcase as [(_ & Hc)|(r0 & tr0 & fs0 & Hd0 & Eo0 & Hk0 & Hsf0)]; [rewrite Hc in Eob; discriminate|].
        cbn [image] in Hreach. assert (Hbk : bk s' = bk s) by (destruct Hsf0 as (_ & S2 & S3 & _); apply bk_ext; congruence).
        apply (zdeliver_new cfg Ps fsm g C LL A V HI nj s m Hin Hr Hm (eq_sym Hid) fs s' r tr fs' t k0 Hd Hsucc Hnl' Hreach Hk0 Hbk Hne Hanc Hpos).
      + rewrite <- Hid in Ha.
        apply (zdeliver_av cfg Ps fsm HVn g C LL A V HI nj s m Hin Hr Hm (eq_sym Hid) cut fs r' ob out kk k0 Hsf Ha Hanc Hpos).
    - intros w kk Ha. destruct (Hacc _ _ Ha) as (s' & r & tr & fs' & -> & _ & _ & -> & _ & _ & Hkt & _ & Hdt'). split; [reflexivity|simpl; lia].
    - (* still a leader: the request was rejected and nothing changed *)
      intros s' -> Hrole'. destruct Hcase as [((_ & Hf0 & _) & _)|(r & tr & fs' & Hd & _ & _)]; [rewrite Hf0 in Hrole'; discriminate|].
      pose proof (zdeliver_role cfg Ps fsm HVn g C LL A V HI nj s m Hin Hr Hm (eq_sym Hid) fs s' r tr fs' Hd Hrole') as ->.
      destruct (zg_lead HI nj s Hin Hr Hrole') as (_ & Z1 & _). exists s. auto 10.
    - (* a runCandidate invocation that goes on: the request was rejected, or came from the leader of the candidate's term *)
      intros s0 s' se Hs0 -> Hrc Hse. rewrite Hr in Hs0. inversion Hs0; subst s0.
      destruct Hcase as [((_ & Hf0 & _) & _)|(r & tr & fs' & Hd & _ & _)]; [rewrite Hf0 in Hrc; discriminate|].
      destruct (append_done_vol cfg (gn_P nj) s fs a s' r tr fs' Hw Hcache Mc Hdp (zu_lat Hup) (zu_com Hup) Hd)
        as [(_ & -> & _)|(_ & _ & _ & _ & _ & [Hrf|[_ Et]] & _)]; [left; reflexivity|rewrite Hrf in Hrc; discriminate|].
      right. exists (am_from m), tl2.
      destruct (ginv_sess [cfg] _ nj _ (zl_g [cfg] _ C (zg_l HI)) Hin Hse) as (s0 & Hs0' & Ht0 & _). rewrite Hr in Hs0'. inversion Hs0'; subst s0. rewrite <- Ht0, Et. exact Hl2.
    - intros T' c Hlv. rewrite <- Hid. apply (zg_live HI nj T' c Hin).
      apply (step_no_vote _ _ _ _ _ _ _ _ (ginv_wfr (zl_g [cfg] _ C (zg_l HI)) Hin) Hsf); [discriminate|discriminate|exact Hlv].
    - rewrite Hgg. apply votes_none.
    - (* the answer *)
      intros x Hx. destruct ob as [q t0 gr|q t0 gr|a' r|q r|q sf| |]; try contradiction. destruct Hx as [<-|[]].
      exists m. cbn [rs_req rs_resp]. split; [rewrite (to_msgs Ht), app_nil_r; exact Hk|]. intros Hs1 Hs2 Hs3. apply in_app_iff. left.
      fold a in Hs2, Hs3 |- *. fold j. unfold accept_of. rewrite Hs1. destruct (aq_entries a) as [|e0 er] eqn:Ees; [congruence|]. rewrite Hs3, N.eqb_refl. left. reflexivity.
  Qed.

End Step.
