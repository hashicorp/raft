(* RecoverF13.v — what the repair of finding F13 establishes at start-up: a commit index restored from the log
   store (RestoreCommittedLogs) that covers the latest configuration leaves that configuration COMMITTED, so the
   membership-change gate of a server that then leads can open (Leader.config_gate_open needs
   v_latestIdx = v_committedIdx). *)
From Coq Require Import List NArith Bool Lia ZifyBool ZifyN.
From stdpp Require Import gmap.
From RaftModel Require Import Node.
From RaftProofs Require Import RecoverProofs.
Open Scope N_scope.

Lemma rec_fin_promotes : forall s,
  0 < v_commit (rec_fin s) -> v_latestIdx (rec_fin s) <= v_commit (rec_fin s) ->
  v_committedIdx (rec_fin s) = v_latestIdx (rec_fin s) /\ v_committed (rec_fin s) = v_latest (rec_fin s).
Proof.
  intros s. unfold rec_fin.
  destruct ((0 <? v_commit s) && (v_latestIdx s <=? v_commit s)) eqn:E.
  - intros _ _. destruct s; simpl. split; reflexivity.
  - intros H1 H2. exfalso. apply andb_false_iff in E. destruct E as [E|E]; lia.
Qed.

Lemma recover_promotes_covered_configuration : forall P img s tr,
  recover P img = RecOk s tr -> 0 < v_commit s -> v_latestIdx s <= v_commit s ->
  v_committedIdx s = v_latestIdx s /\ v_committed s = v_latest s.
Proof.
  intros P img s tr H. destruct (recover_stages _ _ _ _ H) as (le & s3 & tr3 & s4 & tr4 & s5 & _ & _ & _ & _ & -> & _).
  apply (rec_fin_promotes s5).
Qed.
