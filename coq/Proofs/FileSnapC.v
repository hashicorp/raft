(* FileSnapC.v — the invariant Q that holds at every prefix of the op program, and the kinds of
   step that preserve it. *)
From Coq Require Import List Arith NArith Bool Lia Permutation.
From RaftModel Require Import FileSnap FileSnapSpec.
From RaftProofs Require Import FileSnapA FileSnapB.
Import ListNotations.
Open Scope N_scope.

Definition Outr (r : nat) (f : fs) (x : N * metaval) : Prop :=
  exists G, NoDup G /\ length G = r /\ incl G (candidates f) /\ forall y, In y G -> key_lt x y = true.

Definition Complete (s : list sop) (d : dir) : Prop :=
  d_tmp d = false /\
  exists t i, created_as s (d_sid d) = Some (t, i) /\ ended s (d_sid d) = Some true /\
    (exists x, d_meta d = Some x /\ mf_c x = MFull (mkMV 1 t i (Some (written s (d_sid d))))) /\
    (exists y, d_state d = Some y /\ sf_c y = written s (d_sid d)).

Record Q (r : nat) (s : list sop) (h : list fsop) (f : fs) : Prop := mkQ {
  q_nodup : NoDup (map d_sid f);
  q_ren : forall d, In d f -> d_tmp d = false -> In (FRename (d_sid d)) h;
  q_clean : forall sid b, In (FRename sid) h -> dirty_after h sid b false = false;
  q_shape : forall d, In d f -> d_tmp d = false ->
    Complete s d \/ (forall m, eligible d = Some m -> Outr r f (d_sid d, m));
  q_closed : forall sid, In (FRename sid) h ->
    ended s sid = Some true /\
    exists t i, created_as s sid = Some (t, i) /\
      ((exists d, In d f /\ d_sid d = sid /\ Complete s d) \/
       Outr r f (sid, mkMV 1 t i (Some (written s sid))))
}.

Lemma Outr_mono : forall r f f' x, incl (candidates f) (candidates f') -> Outr r f x -> Outr r f' x.
Proof.
  intros r f f' x Hi [G [H1 [H2 [H3 H4]]]]. exists G. repeat split; auto.
  intros y Hy. apply Hi, H3, Hy.
Qed.

Lemma nodup_sid_eq : forall f d1 d2, NoDup (map d_sid f) -> In d1 f -> In d2 f ->
  d_sid d1 = d_sid d2 -> d1 = d2.
Proof.
  induction f as [|d f IH]; simpl; intros d1 d2 Hnd H1 H2 E; [contradiction|].
  inversion Hnd as [|? ? Hn Hnd']; subst.
  destruct H1 as [<-|H1], H2 as [<-|H2]; auto.
  - exfalso. apply Hn. rewrite E. apply in_map. exact H2.
  - exfalso. apply Hn. rewrite <- E. apply in_map. exact H1.
Qed.

Lemma in_snoc_ne : forall (A : Type) (x o : A) h, In x (h ++ [o]) -> x <> o -> In x h.
Proof.
  intros A x o h H Hne. apply in_app_or in H. destruct H as [H|[E|[]]]; [exact H|].
  exfalso. apply Hne. symmetry. exact E.
Qed.

(* One op that leaves every non-temporary directory as it is.  The only non-temporary directory
   it may add is the one it renames: complete, with clean files. *)
Lemma Q_frame : forall r s h f o f', Q r s h f ->
  NoDup (map d_sid f') ->
  (forall d, In d f -> d_tmp d = false -> In d f') ->
  (forall d, In d f' -> d_tmp d = false -> In d f \/ (o = FRename (d_sid d) /\ Complete s d)) ->
  (forall sid b, In (FRename sid) h -> dirty_after [o] sid b false = false) ->
  (forall sid, o = FRename sid ->
     (forall b, dirty_after h sid b false = false) /\ exists d, In d f' /\ d_sid d = sid /\ Complete s d) ->
  Q r s (h ++ [o]) f'.
Proof.
  intros r s h f o f' HQ Hnd Hkeep Hback Hdirty Hren.
  assert (Hc := cand_incl f f' Hkeep).
  constructor.
  - exact Hnd.
  - intros d Hd Ht. apply in_or_app. destruct (Hback d Hd Ht) as [Hin|[E _]].
    + left. apply (q_ren _ _ _ _ HQ); assumption.
    + right. left. exact E.
  - intros sid b Hin. rewrite dirty_app. apply in_app_or in Hin. destruct Hin as [Hin|[E|[]]].
    + rewrite (q_clean _ _ _ _ HQ) by exact Hin. apply Hdirty. exact Hin.
    + subst o. rewrite (proj1 (Hren sid eq_refl)). reflexivity.
  - intros d Hd Ht. destruct (Hback d Hd Ht) as [Hin|[_ HC]]; [|left; exact HC].
    destruct (q_shape _ _ _ _ HQ d Hin Ht) as [HC|Ho]; [left; exact HC|right].
    intros m Hm. eapply Outr_mono; [exact Hc|]. apply Ho; exact Hm.
  - intros sid Hin. apply in_app_or in Hin. destruct Hin as [Hin|[E|[]]].
    + destruct (q_closed _ _ _ _ HQ sid Hin) as [He [t [i [Hca Hd]]]].
      split; [exact He|]. exists t, i. split; [exact Hca|].
      destruct Hd as [[d [Hd [Hs HC]]]|Ho].
      * left. exists d. split; [|auto]. apply Hkeep; [exact Hd|apply HC].
      * right. eapply Outr_mono; [exact Hc|exact Ho].
    + destruct (Hren sid E) as [_ [d [Hd [Hs HC]]]].
      assert (HC' := HC). destruct HC' as [_ [t [i [Hca [He _]]]]]. rewrite Hs in Hca, He.
      split; [exact He|]. exists t, i. split; [exact Hca|]. left. exists d. auto.
Qed.

(* (a) any op but Mkdir that does not name a sid renamed before: a temporary op, SyncParent, or the Rename of
   a directory whose files are complete and synced.  Only a temporary directory changes. *)
Lemma Q_keep_step : forall r s h f o, Q r s h f ->
  (forall sid, op_sid o = Some sid -> ~ In (FRename sid) h) ->
  (forall x, o <> FMkdir x) ->
  (forall sid, o = FRename sid ->
     (forall b, dirty_after h sid b false = false) /\
     exists d0, In d0 f /\ d_sid d0 = sid /\ Complete s (dstep o d0)) ->
  Q r s (h ++ [o]) (fs_apply f o).
Proof.
  intros r s h f o HQ Hnr Hmk Hren.
  assert (Hnt : forall d, In d f -> d_tmp d = false -> op_sid o <> Some (d_sid d)).
  { intros d Hd Ht E. apply (Hnr _ E). apply (q_ren _ _ _ _ HQ); assumption. }
  apply Q_frame with (f := f); [exact HQ| | | | |].
  - apply apply_nodup; [exact Hmk|]. apply (q_nodup _ _ _ _ HQ).
  - intros d Hd Ht. apply apply_in_other; auto.
  - intros d' Hd Ht. destruct (apply_in_inv f o d' Hmk Hd) as [d [Hin [[E _]|[Hs [_ E]]]]]; [left; subst; exact Hin|].
    destruct o; try (exfalso; apply (Hnt d Hin); [|exact Hs]; rewrite E, dstep_tmp in Ht; [exact Ht|discriminate]).
    right. simpl in Hs. inversion Hs as [Hs']. destruct (Hren _ eq_refl) as [_ [d0 [Hd0 [Hs0 HC]]]].
    assert (d = d0) by (apply (nodup_sid_eq f); auto; [apply (q_nodup _ _ _ _ HQ)|congruence]).
    subst d d'. rewrite dstep_sid, Hs0. split; [reflexivity|exact HC].
  - intros s' b Hin. apply dirty_other. intro E. exact (Hnr _ E Hin).
  - intros x E. destruct (Hren x E) as [Hcl [d0 [Hd0 [Hs0 HC]]]]. split; [exact Hcl|].
    exists (dstep o d0). split; [|split; [rewrite dstep_sid; exact Hs0|exact HC]].
    apply apply_in_same; [exact Hd0|subst o; simpl; rewrite Hs0; reflexivity|subst o; reflexivity].
Qed.

(* (b) Mkdir of a fresh sid *)
Lemma Q_mkdir_step : forall r s h f sid, Q r s h f -> (forall d, In d f -> d_sid d <> sid) ->
  Q r s (h ++ [FMkdir sid]) (fs_apply f (FMkdir sid)).
Proof.
  intros r s h f sid HQ Hfresh. simpl. apply Q_frame with (f := f); [exact HQ| | | | |].
  - rewrite map_app. simpl. apply (NoDup_Add (Add_app sid _ [])). rewrite app_nil_r.
    split; [apply (q_nodup _ _ _ _ HQ)|].
    intro Hi. apply in_map_iff in Hi. destruct Hi as [d [E Hd]]. eapply Hfresh; eauto.
  - intros d Hd _. apply in_or_app. left; exact Hd.
  - intros d Hd Ht. apply in_app_or in Hd. destruct Hd as [Hd|[<-|[]]]; [left; exact Hd|discriminate].
  - reflexivity.
  - discriminate.
Qed.

(* K: the retained snapshots during one ReapSnapshots; everything else that List could see is older *)
Definition RK (r : nat) (K : list (N * metaval)) (f : fs) : Prop :=
  NoDup K /\ length K = r /\ incl K (candidates f) /\
  forall c, In c (candidates f) -> In c K \/ forall y, In y K -> key_lt c y = true.

Lemma all_or_ex : forall (A : Type) (P R : A -> Prop) (G : list A),
  (forall g, In g G -> P g \/ R g) -> (forall g, In g G -> P g) \/ (exists g, In g G /\ R g).
Proof.
  induction G as [|a G IH]; intros H; [left; intros ? []|].
  destruct (H a (or_introl eq_refl)) as [Ha|Ha].
  - destruct IH as [IH|[g [Hg1 Hg2]]].
    + intros g Hg. apply H. right; exact Hg.
    + left. intros g [<-|Hg]; auto.
    + right. exists g. split; [right; exact Hg1|exact Hg2].
  - right. exists a. split; [left; reflexivity|exact Ha].
Qed.

Lemma Outr_RK : forall r K f x, RK r K f -> Outr r f x -> forall y, In y K -> key_lt x y = true.
Proof.
  intros r K f x [HndK [HlenK [HincK Hbelow]]] [G [HndG [HlenG [HincG HG]]]] y Hy.
  destruct (all_or_ex _ (fun g => In g K) (fun g => forall y, In y K -> key_lt g y = true) G) as [Hall|[g [Hg Hlt]]].
  - intros g Hg. apply Hbelow. apply HincG. exact Hg.
  - apply HG. assert (Hi : incl K G).
    { apply NoDup_length_incl; [exact HndG|lia|exact Hall]. }
    apply Hi. exact Hy.
  - eapply key_lt_trans; [apply HG; exact Hg|apply Hlt; exact Hy].
Qed.

Lemma below_K_outr : forall r K f x, RK r K f -> (forall y, In y K -> key_lt x y = true) -> Outr r f x.
Proof.
  intros r K f x [HndK [HlenK [HincK _]]] H. exists K. auto.
Qed.

Lemma complete_eligible : forall s d t i, Complete s d -> created_as s (d_sid d) = Some (t, i) ->
  eligible d = Some (mkMV 1 t i (Some (written s (d_sid d)))).
Proof.
  intros s d t i [Ht [t' [i' [Hc [He [[x [Hx Hm]] _]]]]]] Hc'.
  rewrite Hc in Hc'. inversion Hc'; subst. unfold eligible. rewrite Ht, Hx, Hm. reflexivity.
Qed.

(* (c) an unlink / rmdir of a directory that is not retained *)
Section RmStep.
  Variables (r : nat) (s : list sop) (h : list fsop) (f : fs) (o : fsop) (sid : N) (K : list (N * metaval)).
  Hypothesis HQ : Q r s h f.
  Hypothesis HK : RK r K f.
  Hypothesis Hrm : is_rm o = true.
  Hypothesis Hsid : op_sid o = Some sid.
  Hypothesis HnK : ~ In sid (map fst K).

  Lemma rm_nomk : forall x, o <> FMkdir x.
  Proof. intros x E. rewrite E in Hrm. discriminate. Qed.

  (* a directory after the op is one from before, as it was or, if it is sid's, stripped of a file *)
  Lemma rm_back : forall d', In d' (fs_apply f o) ->
    exists d, In d f /\ d_sid d = d_sid d' /\ d_tmp d = d_tmp d' /\ (d' = d \/ d_sid d = sid) /\
              forall m, eligible d' = Some m -> eligible d = Some m.
  Proof.
    intros d' Hd. destruct (apply_in_inv f o d' rm_nomk Hd) as [d [Hin [[E _]|[Hs [_ E]]]]]; exists d; subst d'.
    - repeat split; auto.
    - rewrite dstep_sid, dstep_tmp by (intros x Ex; rewrite Ex in Hrm; discriminate).
      rewrite Hsid in Hs. inversion Hs. repeat split; auto. intros m. apply eligible_rm. exact Hrm.
  Qed.

  Lemma RK_rm_step : RK r K (fs_apply f o).
  Proof.
    destruct HK as [H1 [H2 [H3 H4]]]. split; [exact H1|split; [exact H2|split]].
    - intros [s' m] Hy. assert (Hc := H3 _ Hy). apply cand_iff in Hc. destruct Hc as [d [Hd [Hs He]]].
      apply cand_iff. exists d. split; [|auto]. apply apply_in_other; [exact Hd|].
      rewrite Hsid. intro E. inversion E as [E']. apply HnK. rewrite E', Hs. exact (in_map fst _ _ Hy).
    - intros c Hc. apply H4. destruct c as [s' m]. apply cand_iff in Hc. destruct Hc as [d' [Hd [Hs He]]].
      destruct (rm_back d' Hd) as [d [Hin [Es [_ [_ Hel]]]]]. apply cand_iff. exists d.
      split; [exact Hin|split; [congruence|auto]].
  Qed.

  Lemma rm_outr : forall x, Outr r f x -> Outr r (fs_apply f o) x.
  Proof.
    intros x Ho. apply (below_K_outr r K); [apply RK_rm_step|]. apply (Outr_RK r K f); assumption.
  Qed.

  Lemma rm_sid_outr : forall m, In (sid, m) (candidates f) -> Outr r (fs_apply f o) (sid, m).
  Proof.
    intros m Hc. apply (below_K_outr r K); [apply RK_rm_step|].
    destruct HK as [_ [_ [_ H4]]]. destruct (H4 _ Hc) as [Hin|Hb]; [|exact Hb].
    exfalso. apply HnK. exact (in_map fst _ _ Hin).
  Qed.

  Lemma Q_rm_step : Q r s (h ++ [o]) (fs_apply f o).
  Proof.
    assert (Hnr : forall x, FRename x <> o) by (intros x E; rewrite <- E in Hrm; discriminate).
    constructor.
    - apply apply_nodup; [exact rm_nomk|]. apply (q_nodup _ _ _ _ HQ).
    - intros d' Hd Ht. apply in_or_app. left. destruct (rm_back d' Hd) as [d [Hin [Es [Et _]]]].
      rewrite <- Es. apply (q_ren _ _ _ _ HQ); [exact Hin|congruence].
    - intros s' b Hin. apply in_snoc_ne in Hin; [|apply Hnr].
      rewrite dirty_app, dirty_rm by exact Hrm. apply (q_clean _ _ _ _ HQ). exact Hin.
    - intros d' Hd Ht. destruct (rm_back d' Hd) as [d [Hin [Es [Et [[E|E] Hel]]]]].
      + subst d'. destruct (q_shape _ _ _ _ HQ d Hin Ht) as [Hc|Ho]; [left; exact Hc|right].
        intros m Hm. apply rm_outr. apply Ho. exact Hm.
      + right. intros m Hm. rewrite <- Es, E. apply rm_sid_outr. apply cand_iff. exists d.
        split; [exact Hin|split; [exact E|apply Hel; exact Hm]].
    - intros s' Hin. apply in_snoc_ne in Hin; [|apply Hnr].
      destruct (q_closed _ _ _ _ HQ s' Hin) as [He [t [i [Hc Hd]]]].
      split; [exact He|]. exists t, i. split; [exact Hc|].
      destruct Hd as [[d [Hd [Hs HCd]]]|Ho]; [|right; apply rm_outr; exact Ho].
      destruct (N.eq_dec s' sid) as [E|E].
      + right. rewrite E. apply rm_sid_outr. apply cand_iff. exists d.
        split; [exact Hd|split; [congruence|]].
        replace (written s sid) with (written s (d_sid d)) by congruence.
        apply complete_eligible; [exact HCd|]. congruence.
      + left. exists d. split; [|auto]. apply apply_in_other; [exact Hd|]. rewrite Hsid. congruence.
  Qed.
End RmStep.

Definition QP (r : nat) (s : list sop) (h : list fsop) (f : fs) (seg : list fsop) : Prop :=
  forall j, Q r s (h ++ firstn j seg) (fs_run f (firstn j seg)).

Lemma QP_nil : forall r s h f, Q r s h f -> QP r s h f [].
Proof. intros r s h f H j. rewrite firstn_nil, app_nil_r. exact H. Qed.

Lemma QP_cons : forall r s h f o seg, Q r s h f -> QP r s (h ++ [o]) (fs_apply f o) seg -> QP r s h f (o :: seg).
Proof.
  intros r s h f o seg H0 H [|j]; simpl.
  - rewrite app_nil_r. exact H0.
  - specialize (H j). rewrite <- app_assoc in H. exact H.
Qed.

Lemma QP_app : forall r s h f a b, QP r s h f a -> QP r s (h ++ a) (fs_run f a) b -> QP r s h f (a ++ b).
Proof.
  intros r s h f a b Ha Hb j. rewrite firstn_app.
  destruct (le_lt_dec j (length a)) as [Hle|Hgt].
  - replace (j - length a)%nat with 0%nat by lia. simpl. rewrite app_nil_r. apply Ha.
  - rewrite (firstn_all2 a) by lia. rewrite app_assoc, fs_run_app. apply Hb.
Qed.

Lemma QP_end : forall r s h f seg, QP r s h f seg -> Q r s (h ++ seg) (fs_run f seg).
Proof. intros r s h f seg H. specialize (H (length seg)). rewrite firstn_all in H. exact H. Qed.

Lemma QP_start : forall r s h f seg, QP r s h f seg -> Q r s h f.
Proof. intros r s h f seg H. specialize (H 0%nat). simpl in H. rewrite app_nil_r in H. exact H. Qed.

(* Q along a run of ops, each of which preserves Q together with a side condition P *)
Lemma QP_steps : forall r s (P : list fsop -> fs -> Prop) (ok : fsop -> Prop),
  (forall h f o, Q r s h f -> P h f -> ok o -> Q r s (h ++ [o]) (fs_apply f o) /\ P (h ++ [o]) (fs_apply f o)) ->
  forall ops h f, Q r s h f -> P h f -> (forall o, In o ops -> ok o) ->
  QP r s h f ops /\ P (h ++ ops) (fs_run f ops).
Proof.
  intros r s P ok Hstep. induction ops as [|o ops IH]; intros h f HQ HP Hall.
  - rewrite app_nil_r. split; [apply QP_nil; exact HQ|exact HP].
  - destruct (Hstep h f o HQ HP (Hall o (or_introl eq_refl))) as [HQ' HP'].
    destruct (IH _ _ HQ' HP') as [H1 H2]; [intros o' Ho'; apply Hall; right; exact Ho'|].
    rewrite <- app_assoc in H2. split; [apply QP_cons; assumption|exact H2].
Qed.

Lemma QP_rm : forall r s K ops h f, Q r s h f -> RK r K f ->
  (forall o, In o ops -> is_rm o = true /\ exists sid, op_sid o = Some sid /\ ~ In sid (map fst K)) ->
  QP r s h f ops.
Proof.
  intros r s K ops h f HQ HK Hall.
  refine (proj1 (QP_steps r s (fun _ f => RK r K f) _ _ ops h f HQ HK Hall)).
  intros h' f' o HQ' HK' [Hrm [sid [Hs Hn]]]. split; [eapply Q_rm_step|eapply RK_rm_step]; eauto.
Qed.
