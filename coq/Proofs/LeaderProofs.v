(* LeaderProofs.v — the leader's operations on the main goroutine (Model/Leader.v) in closed form, and the leader-side
   theorems (C03, C08, C09, C20).  dispatch_spec: dispatchLogs as one equation.  leader_commit_spec: the commitCh case of
   leaderLoop - which futures leave the in-flight list, the server it returns (commit_cfg, then lastApplied and the FSM),
   the entries processLogs hands out (collect_items) and what each future is answered (item_res).  The node, cluster
   and gate families read their facts off these two: nothing else unfolds leader_commit or process_logs_f, and dispatch is
   unfolded only by the generic frame lemma NodeFrame.dispatch_frame, which comes before this file. *)
From Coq Require Import List NArith Bool Lia.
From stdpp Require Import gmap.
From RaftModel Require Import Base Config Commitment Node Leader.
From RaftProofs Require Import CommitmentProofs RecoverProofs.
Open Scope N_scope.

Lemma number_logs_spec term : forall reqs last k ty data fid,
  nth_error reqs k = Some (ty, data, fid) ->
  nth_error (number_logs last term reqs) k = Some (mkE (last + 1 + N.of_nat k) term ty data, fid).
Proof.
  induction reqs as [|[[ty0 d0] f0] r IH]; intros last k ty data fid H; destruct k; simpl in *; try discriminate.
  - inversion H; subst. rewrite N.add_0_r. reflexivity.
  - rewrite (IH (last + 1) k ty data fid H). f_equal. f_equal. f_equal; lia.
Qed.

Lemma number_logs_length term reqs : forall last, length (number_logs last term reqs) = length reqs.
Proof. induction reqs as [|[[a b] c] r IH]; intros last; simpl; [reflexivity|]. rewrite IH. reflexivity. Qed.

(* dispatchLogs in closed form.  The entries are numbered after the last index, in the leader's term, and join the
   in-flight list; the staged commit index is written if it is tracked; then StoreLogs fails - the server steps down
   and every future is answered with the store error - or stores them: the cached last entry moves and the leader
   counts itself in the commitment. *)
Theorem dispatch_spec P ls fs reqs :
  let s := l_node ls in
  let numbered := number_logs (last_index s) (v_term s) reqs in
  let es := map fst numbered in
  let s1 := fst (do_stage P s (v_commit s)) in
  let trs := snd (do_stage P s (v_commit s)) in
  dispatch P ls fs reqs =
  if fst (next_fail fs)
  then (mkLS (set_state s1 Follower) (l_cm ls) (l_inflight ls ++ numbered),
        map (fun x => mkFR (snd x) (e_idx (fst x)) E_STORE 0) numbered, trs ++ [EStore es false], snd (next_fail fs))
  else (mkLS (set_lastlog (set_log s1 (log_store (d_log s) es) (d_staged s1) (if p_track P then d_staged s1 else d_pcommit s))
                          (e_idx (last_of es)) (v_term s))
             (cm_step (l_cm ls) (CMatch (p_self P) (e_idx (last_of es)))) (l_inflight ls ++ numbered),
        [], trs ++ [EStore es true], snd (next_fail fs)).
Proof. unfold dispatch, do_stage, do_store. destruct (p_track P); destruct (next_fail fs) as [[|] fs']; reflexivity. Qed.

(* every entry dispatched gets the next free index above the leader's last index, in order, with
   the leader's term and the caller's type and payload *)
Theorem dispatch_indices P ls fs reqs k ty data fid :
  nth_error reqs k = Some (ty, data, fid) ->
  let '(ls', _, _, _) := dispatch P ls fs reqs in
  In (mkE (last_index (l_node ls) + 1 + N.of_nat k) (v_term (l_node ls)) ty data, fid) (l_inflight ls').
Proof.
  intros H. rewrite dispatch_spec. cbv zeta.
  pose proof (nth_error_In _ _ (number_logs_spec (v_term (l_node ls)) reqs (last_index (l_node ls)) k ty data fid H)) as Hn.
  destruct (fst (next_fail fs)); apply in_app_iff; right; exact Hn.
Qed.

Definition own_response (e : entry) : N := if e_ty e =? LogCommand then resp_of (e_data e) else 0.

Lemma pair_responses_spec : forall reqs,
  pair_responses reqs (fsm_batch_responses (filter should_send (map fst reqs))) =
  flat_map (fun x => match snd x with
                     | Some fid => [mkFR fid (e_idx (fst x)) E_OK (if should_send (fst x) then own_response (fst x) else 0)]
                     | None => [] end) reqs.
Proof.
  induction reqs as [|[e fut] r IH]; simpl; [reflexivity|].
  destruct (should_send e) eqn:S; simpl.
  - unfold own_response. rewrite IH. destruct fut; reflexivity.
  - rewrite IH. destruct fut; reflexivity.
Qed.

(* Whatever mix of commands, barriers, configurations sits in a batch, and whichever of them carry
   a future: each future receives the response the FSM produced for ITS OWN entry (commands: the
   FSM's answer for that payload; everything else: no response), at that entry's index. *)
Theorem apply_batch_pairing reqs :
  apply_batch reqs =
  flat_map (fun x => match snd x with
                     | Some fid => [mkFR fid (e_idx (fst x)) E_OK (own_response (fst x))]
                     | None => [] end) reqs.
Proof.
  unfold apply_batch. rewrite pair_responses_spec. apply flat_map_ext. intros [e fut]. simpl.
  destruct fut; [|reflexivity]. unfold own_response, should_send.
  destruct (e_ty e =? LogCommand) eqn:E; simpl; [reflexivity|]. destruct (e_ty e =? LogConfiguration); reflexivity.
Qed.

Lemma ready_prefix_spec infl ci :
  let '(a, b) := ready_prefix infl ci in
  infl = a ++ b /\ (forall x, In x a -> e_idx (fst x) <= ci) /\
  match b with [] => True | x :: _ => ci < e_idx (fst x) end.
Proof.
  induction infl as [|x r IH]; simpl; [repeat split; intros x []|].
  destruct (N.ltb_spec ci (e_idx (fst x))).
  - repeat split; [intros y []|assumption].
  - destruct (ready_prefix r ci) as [a b]. destruct IH as (I1 & I2 & I3).
    split; [simpl; f_equal; exact I1|]. split; [|exact I3].
    intros y [<-|Hy]; [assumption|apply I2; exact Hy].
Qed.

Lemma last_in {A} (l : list A) d : l <> [] -> In (last l d) l.
Proof.
  induction l as [|a r IH]; intros H; [contradiction|]. destruct r as [|b r']; [left; reflexivity|].
  right. apply IH. discriminate.
Qed.

(* the entries processLogs hands out: item k is the one of index idx + 1 + k, taken from the in-flight futures (with
   its future) or from the log store *)
Lemma collect_items m infl : forall n idx items, collect_with_futures m infl idx n = Some items ->
  forall x, In x items ->
    prepare_kind (e_ty (fst x)) <> 3 /\
    ((exists fid, snd x = Some fid /\ In (fst x, fid) infl /\ idx < e_idx (fst x) <= idx + N.of_nat n) \/
     (snd x = None /\ exists i, m !! i = Some (fst x) /\ idx < i <= idx + N.of_nat n)).
Proof.
  induction n as [|n IH]; intros idx items H x Hx; simpl in H; [inversion H; subst; contradiction|].
  destruct (lookup_future infl (idx + 1)) as [[e0 fid]|] eqn:El; [|destruct (m !! (idx + 1)) as [e0|] eqn:Em; [|discriminate]];
    (destruct (N.eqb_spec (prepare_kind (e_ty e0)) 3) as [|Hk]; [discriminate|]);
    (destruct (collect_with_futures m infl (idx + 1) n) as [r|] eqn:Er; [|discriminate]); inversion H; subst items;
    (destruct Hx as [<-|Hx]; [split; [exact Hk|]|destruct (IH _ _ Er x Hx) as [K [(f & A & B & D)|(A & i & B & D)]];
       (split; [exact K|]); [left; exists f|right; split; [exact A|exists i]]; repeat split; auto; lia]).
  - left. exists fid. unfold lookup_future in El. apply find_some in El. destruct El as [E1 E2]. apply in_rev in E1.
    apply N.eqb_eq in E2. cbn [fst snd] in *. repeat split; auto; lia.
  - right. split; [reflexivity|]. exists (idx + 1). cbn [fst]. repeat split; auto; lia.
Qed.

(* what a processed entry answers to its future: commands the FSM's answer, everything else none *)
Definition item_res (x : entry * option N) : list fres :=
  match snd x with
  | Some fid => [mkFR fid (e_idx (fst x)) E_OK (if prepare_kind (e_ty (fst x)) =? 1 then own_response (fst x) else 0)]
  | None => []
  end.

Definition handed_items (items : list (entry * option N)) : list (entry * option N) :=
  filter (fun x => prepare_kind (e_ty (fst x)) =? 1) items.

(* the commit index moves to ci and the committed configuration follows *)
Definition commit_cfg (s : nstate) (ci : N) : nstate :=
  let s1 := set_commit s ci in
  if (v_commit s <? v_latestIdx s1) && (v_latestIdx s1 <=? ci) then set_committed s1 (v_latest s1) (v_latestIdx s1) else s1.

(* leaderLoop, case commitCh: the commitment stays; the futures at or below its commit index leave the in-flight list;
   the server gets the commit index, the committed configuration, and - if the last of those futures lies above
   lastApplied - lastApplied at that index with the FSM run over the entries in between, each future answered *)
Theorem leader_commit_spec ls ls2 tr res : leader_commit ls = Some (ls2, tr, res) ->
  let s := l_node ls in let ci := cm_commit (l_cm ls) in
  exists ready a fsm fl,
    l_inflight ls = ready ++ l_inflight ls2 /\ (forall x, In x ready -> e_idx (fst x) <= ci) /\
    l_cm ls2 = l_cm ls /\ l_node ls2 = set_applied_fsm (commit_cfg s ci) a fsm fl /\
    ((a = v_applied s /\ fsm = v_fsm s /\ fl = v_fsmLast s /\ tr = [] /\ res = []) \/
     exists items, v_applied s < a <= ci /\
       collect_with_futures (d_log s) ready (v_applied s) (N.to_nat (a - v_applied s)) = Some items /\
       fsm = fold_left fsm_apply (map fst (handed_items items)) (v_fsm s) /\
       fl = match last_opt (map fst (handed_items items)) with Some e => (e_idx e, e_term e) | None => v_fsmLast s end /\
       tr = flat_map fsm_events (map fst (handed_items items)) /\
       forall r, In r res <-> exists x, In x items /\ In r (item_res x)).
Proof.
  unfold leader_commit. cbv zeta. fold (commit_cfg (l_node ls) (cm_commit (l_cm ls))).
  set (s := l_node ls). set (ci := cm_commit (l_cm ls)). set (s2 := commit_cfg s ci).
  assert (K : d_log s2 = d_log s /\ v_applied s2 = v_applied s /\ v_fsm s2 = v_fsm s /\ v_fsmLast s2 = v_fsmLast s /\
              set_applied_fsm s2 (v_applied s) (v_fsm s) (v_fsmLast s) = s2).
  { unfold s2, commit_cfg. destruct (_ && _); destruct s; repeat split. }
  destruct K as (Kl & Ka & Kf & Kx & Ke).
  pose proof (ready_prefix_spec (l_inflight ls) ci) as Hr. destruct (ready_prefix (l_inflight ls) ci) as [ready rest].
  destruct Hr as (H1 & H2 & _).
  destruct ready as [|r0 rr] eqn:Er.
  - intros H; inversion H; subst ls2 tr res. exists [], (v_applied s), (v_fsm s), (v_fsmLast s). cbn [l_inflight l_cm l_node]. rewrite Ke. auto 10.
  - rewrite <- Er in *. set (idx := e_idx (fst (last ready (mkE 0 0 0 0, 0)))).
    assert (Hidx : idx <= ci) by (apply H2, last_in; rewrite Er; discriminate).
    unfold process_logs_f. rewrite Ka, Kl, Kf, Kx. destruct (N.leb_spec idx (v_applied s)) as [Hle|Hgt].
    + intros H; inversion H; subst ls2 tr res. exists ready, (v_applied s), (v_fsm s), (v_fsmLast s). cbn [l_inflight l_cm l_node]. rewrite Ke. auto 10.
    + destruct (collect_with_futures (d_log s) ready (v_applied s) (N.to_nat (idx - v_applied s))) as [items|] eqn:Ec; [|discriminate].
      intros H; inversion H; subst ls2 tr res. clear H. eexists ready, idx, _, _. cbn [l_inflight l_cm l_node].
      split; [exact H1|]. split; [exact H2|]. split; [reflexivity|]. split; [reflexivity|]. right. exists items.
      split; [lia|]. split; [exact Ec|]. split; [reflexivity|]. split; [reflexivity|]. split; [reflexivity|].
      intros r. rewrite in_app_iff, apply_batch_pairing, !in_flat_map. fold (handed_items items). split.
      * intros [(x & Hx & Hr)|(x & Hx & Hr)]; apply filter_In in Hx; destruct Hx as [Hx Hk]; exists x; (split; [exact Hx|]);
          unfold item_res; destruct (snd x); try contradiction.
        -- apply negb_true_iff in Hk. rewrite Hk. exact Hr.
        -- rewrite Hk. exact Hr.
      * intros (x & Hx & Hr). destruct (prepare_kind (e_ty (fst x)) =? 1) eqn:Hk; [right|left]; exists x;
          (split; [apply filter_In; split; [exact Hx|rewrite ?Hk; reflexivity]|]); unfold item_res in Hr; rewrite Hk in Hr; exact Hr.
Qed.

(* only futures at or below the commit index are taken off the in-flight list and answered *)
Theorem leader_commit_takes_committed ls ls' tr res :
  leader_commit ls = Some (ls', tr, res) ->
  exists ready, l_inflight ls = ready ++ l_inflight ls' /\
                forall x, In x ready -> e_idx (fst x) <= cm_commit (l_cm ls).
Proof. intros H. destruct (leader_commit_spec _ _ _ _ H) as (ready & _ & _ & _ & H1 & H2 & _). exists ready. auto. Qed.

(* any projection of the server that the three setters leave alone *)
Lemma leader_commit_frame {A} (f : nstate -> A) : (forall s c, f (set_commit s c) = f s) ->
  (forall s c i, f (set_committed s c i) = f s) -> (forall s a m x, f (set_applied_fsm s a m x) = f s) ->
  forall ls ls2 tr res, leader_commit ls = Some (ls2, tr, res) -> f (l_node ls2) = f (l_node ls).
Proof.
  intros F1 F2 F3 ls ls2 tr res H. destruct (leader_commit_spec _ _ _ _ H) as (_ & a & fsm & fl & _ & _ & _ & -> & _).
  rewrite F3. unfold commit_cfg. destruct (_ && _); rewrite ?F2; apply F1.
Qed.

(* setupLeaderState starts the commitment above everything the log held at election: whatever the
   followers report afterwards, the commit index it yields is 0 or above the election-time last
   index (an old-term entry is never committed by counting replicas, Figure 8) *)
Theorem leader_start_index s : cm_start (l_cm (leader_setup s)) = last_index s + 1.
Proof. reflexivity. Qed.

Theorem leader_commit_above_election_last s ops :
  let c := cm_run (l_cm (leader_setup s)) ops in
  cm_commit c = 0 \/ last_index s < cm_commit c.
Proof.
  simpl. pose proof (commit_sound (v_latest s) (last_index s + 1) ops) as H. simpl in H.
  destruct H as [H|[H _]]; [left; exact H|right; lia].
Qed.

Theorem restore_refused_uncommitted_config P ls fs mi data so :
  v_committedIdx (l_node ls) <> v_latestIdx (l_node ls) ->
  restore_user P ls fs mi data so = (ls, 1, [], [], fs).
Proof.
  intros H. unfold restore_user. destruct (N.eqb_spec (v_committedIdx (l_node ls)) (v_latestIdx (l_node ls))); [contradiction|reflexivity].
Qed.

Lemma run_compaction_vol s fs range :
  let '(s', _, _) := run_compaction s fs range in
  v_fsm s' = v_fsm s /\ v_applied s' = v_applied s /\ v_lastLogIdx s' = v_lastLogIdx s /\
  v_lastLogTerm s' = v_lastLogTerm s /\ v_lastSnapIdx s' = v_lastSnapIdx s /\ d_snaps s' = d_snaps s /\ v_term s' = v_term s.
Proof.
  unfold run_compaction. destruct range as [[lo hi]|]; [|repeat split].
  unfold do_delete. destruct (next_fail fs) as [f fs']. destruct f; repeat split.
Qed.

(* On success: the FSM holds exactly the supplied snapshot; the index burned is above both the
   snapshot's index and every earlier index, so every later entry is above both; every call that
   was in flight fails with ErrAbortedByRestore and nothing stays in flight; the snapshot stored
   carries the current configuration. *)
Theorem restore_user_ok P ls fs mi data so ls' res tr fs' :
  restore_user P ls fs mi data so = (ls', 0, res, tr, fs') ->
  let s := l_node ls in let s' := l_node ls' in
  v_fsm s' = data /\
  v_lastLogIdx s' = N.max mi (last_index s) + 1 /\ mi < v_lastLogIdx s' /\ last_index s < v_lastLogIdx s' /\
  last_index s' = v_lastLogIdx s' /\ v_applied s' = v_lastLogIdx s' /\ v_lastSnapIdx s' = v_lastLogIdx s' /\
  l_inflight ls' = [] /\
  res = map (fun x => mkFR (snd x) (e_idx (fst x)) E_ABORTED 0) (l_inflight ls) /\
  (exists sn, last (d_snaps s') sn = sn /\ In sn (d_snaps s') /\ sn_idx sn = v_lastLogIdx s' /\
              sn_data sn = data /\ sn_cfg sn = v_latest s /\ sn_cfgidx sn = v_latestIdx s) /\
  v_committedIdx s = v_latestIdx s.
Proof.
  unfold restore_user.
  destruct (N.eqb_spec (v_committedIdx (l_node ls)) (v_latestIdx (l_node ls))) as [Hc|]; [|simpl; intros H; inversion H].
  simpl. destruct (next_fail fs) as [fc fs1]. destruct fc; [intros H; inversion H|].
  destruct so; simpl; [|intros H; inversion H].
  destruct (next_fail fs1) as [fcl fs2]. destruct fcl; [intros H; inversion H|].
  set (li := N.max mi (last_index (l_node ls)) + 1).
  set (sn := mkSnap li (v_term (l_node ls)) (v_latest (l_node ls)) (v_latestIdx (l_node ls)) data true).
  destruct (p_monotonic P).
  - match goal with |- context [run_compaction ?S ?F ?R] =>
      pose proof (run_compaction_vol S F R) as Hv; destruct (run_compaction S F R) as [[s3 trc] fs3] end.
    destruct Hv as (V1 & V2 & V3 & V4 & V5 & V6 & V7).
    intros H; inversion H; subst. simpl in *.
    rewrite V1, V2, V3, V5, V6. unfold last_index. rewrite V3, V5. simpl.
    repeat split; try exact Hc; try (subst li; unfold last_index; lia).
    exists sn. split; [apply last_last|]. split; [apply in_app_iff; right; left; reflexivity|]. repeat split.
  - intros H; inversion H; subst. simpl. unfold last_index. simpl.
    repeat split; try exact Hc; try (subst li; unfold last_index; lia).
    exists sn. split; [apply last_last|]. split; [apply in_app_iff; right; left; reflexivity|]. repeat split.
Qed.

(* every entry dispatched after a successful restore gets an index above the burned one *)
Theorem dispatch_after_restore_above P ls fs mi data so ls' res tr fs' reqs fs2 k ty d fid :
  restore_user P ls fs mi data so = (ls', 0, res, tr, fs') ->
  nth_error reqs k = Some (ty, d, fid) ->
  let '(ls'', _, _, _) := dispatch P ls' fs2 reqs in
  exists e, In (e, fid) (l_inflight ls'') /\ mi < e_idx e /\ last_index (l_node ls) < e_idx e.
Proof.
  intros Hr Hn. pose proof (restore_user_ok _ _ _ _ _ _ _ _ _ _ Hr) as Ho. simpl in Ho.
  destruct Ho as (_ & H1 & H2 & H3 & H4 & _).
  pose proof (dispatch_indices P ls' fs2 reqs k ty d fid Hn) as Hd.
  destruct (dispatch P ls' fs2 reqs) as [[[ls'' r2] t2] f2].
  eexists. split; [exact Hd|]. simpl. rewrite H4. lia.
Qed.

(* the request is registered with voters of the latest configuration only, never with the leader *)
Theorem verify_registers_only_voters P s votes q now peers :
  verify_leader P s = (votes, q, now, peers) ->
  votes = 1 /\ q = quorum_size (v_latest s) /\
  forall p, In p peers -> p <> p_self P /\ has_vote (v_latest s) p = true.
Proof.
  unfold verify_leader. destruct (quorum_size (v_latest s) =? 1) eqn:E.
  - intros H; inversion H; subst. split; [reflexivity|]. split; [apply N.eqb_eq in E; auto|]. intros p [].
  - intros H; inversion H; subst. split; [reflexivity|]. split; [reflexivity|]. intros p H0. split.
    + apply in_map_iff in H0. destruct H0 as (sv & <- & Hin). apply filter_In in Hin.
      destruct Hin as [_ Hf]. apply andb_true_iff in Hf. destruct Hf as [Hf _].
      apply negb_true_iff in Hf. apply N.eqb_neq in Hf. exact Hf.
    + apply in_map_iff in H0. destruct H0 as (sv & <- & Hin). apply filter_In in Hin.
      destruct Hin as [_ Hf]. apply andb_true_iff in Hf. tauto.
Qed.

(* the acknowledgements of registered peers, in the order the leader loop receives them *)
Fixpoint verify_session (votes quorum : N) (acks : list bool) : N * option bool :=
  match acks with
  | [] => (votes, None)
  | b :: r => let '(v, res) := verify_vote votes quorum b in
              match res with Some x => (v, Some x) | None => verify_session v quorum r end
  end.

(* success = the leader's own vote plus positive acknowledgements of at least quorumSize - 1
   registered peers, with no negative one before *)
Theorem verify_session_success quorum : forall acks votes v,
  verify_session votes quorum acks = (v, Some true) ->
  exists pre post, acks = pre ++ post /\ Forall (fun b => b = true) pre /\
                   v = votes + N.of_nat (length pre) /\ quorum <= v.
Proof.
  induction acks as [|b r IH]; intros votes v H; simpl in H; [discriminate|].
  unfold verify_vote in H. destruct b.
  - destruct (N.leb_spec quorum (votes + 1)).
    + inversion H; subst. exists [true], r. split; [reflexivity|]. split; [repeat constructor|]. split; [simpl; lia|assumption].
    + apply IH in H. destruct H as (pre & post & -> & Hall & -> & Hq).
      exists (true :: pre), post. split; [reflexivity|]. split; [constructor; auto|]. split; [simpl; lia|exact Hq].
  - inversion H.
Qed.

(* with quorumSize = 1 (single voter) the answer is immediate *)
Theorem verify_single_voter P s : quorum_size (v_latest s) = 1 -> verify_leader P s = (1, 1, true, []).
Proof. intros H. unfold verify_leader. rewrite H. reflexivity. Qed.
