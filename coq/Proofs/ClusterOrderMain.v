(* ClusterOrderMain.v — C08 "the index of a call is greater than that of every call acknowledged before it
   was issued", over ALL RUNS of Model/ClusterCommit.v, without and with takeSnapshot / log compaction
   (statement: Proofs/ClusterOrderSpec.v acks_ordered; argument: Proofs/ClusterOrderCore.v).

   The initial states satisfy the invariant of Proofs/ClusterCommitSnapInv2.v (cinit_zinvg), for both kinds of run.
   Side conditions: cinit_ok / cinit_snap_ok and label_ok, as for State Machine Safety. *)
From Coq Require Import List NArith Bool Lia.
From stdpp Require Import gmap.
From RaftModel Require Import Base Config Node Cluster ClusterCommit.
From RaftProofs Require Import ClusterLogSpec ClusterLogChain ClusterCommitSpec ClusterCommitGhost ClusterCommitInv
  ClusterCommitSnapSpec ClusterCommitSnapInv2 ClusterCommitSnapStepA ClusterCommitSnapMain ClusterCommitSnapAcks
  ClusterOrderSpec ClusterOrderCore.
Open Scope N_scope.

(* C08 over all runs, without snapshots *)
Theorem acks_ordered_all_runs : forall cfg g0, cinit_ok cfg g0 -> acks_ordered false cfg g0.
Proof.
  intros cfg g0 H0. pose proof H0 as (_ & _ & _ & _ & HVn & _).
  destruct (cinit_zinvg cfg g0 false H0) as (C0 & LL0 & A0 & V0 & HI0); [discriminate|].
  apply (zinv_acks_ordered cfg (map gn_P (cnodes g0)) false HVn false g0 C0 LL0 A0 V0); [discriminate|exact HI0].
Qed.

(* C08 over all runs, with takeSnapshot and log compaction *)
Theorem acks_ordered_all_runs_snapshots : forall cfg g0, cinit_snap_ok cfg g0 -> acks_ordered true cfg g0.
Proof.
  intros cfg g0 [H0 Hf]. pose proof H0 as (_ & _ & _ & _ & HVn & _).
  destruct (cinit_zinvg cfg g0 true H0) as (C0 & LL0 & A0 & V0 & HI0); [intros _; exact Hf|].
  apply (zinv_acks_ordered cfg (map gn_P (cnodes g0)) true HVn true g0 C0 LL0 A0 V0); [reflexivity|exact HI0].
Qed.

Print Assumptions acks_ordered_all_runs.
Print Assumptions acks_ordered_all_runs_snapshots.
