(* ClusterLogMain.v — LOG MATCHING for the cluster transition system Model/ClusterLog.v without
   snapshots.  Nothing is proved here from scratch: the theorem is read off Proofs/ClusterLogSnapMain.v at h = false
   (takeSnapshot disabled), from the initial states of Proofs/ClusterLogSpec.v.  Without takeSnapshot the invariant of
   that file gives linv (Proofs/ClusterLogInv.v), server by server: the shape without snapshots is nlog. *)
From Coq Require Import List NArith Bool Lia.
From stdpp Require Import gmap.
From RaftModel Require Import Base Config Node NodeCodec Cluster ClusterLog.
From RaftProofs Require Import ClusterProofs ClusterLogSpec ClusterLogChain ClusterLogNode ClusterLogInv ClusterLogSteps
  ClusterLogShell ClusterCommitInv ClusterCommitSnapLog ClusterLogSnapState ClusterLogSnapInv ClusterLogSnapMain.
Open Scope N_scope.

Lemma sup_nlog_up base c0 C s : chain_ok C -> sup false base c0 C s -> nlog_up C s.
Proof.
  intros HC [HZ [_ HN]]. destruct (HN eq_refl) as [A B].
  split; [exact A|]. split; [apply (zs_in HZ)|]. split; [exact B|]. split; [apply (zs_tkt HZ)|].
  split; [|apply (zs_below HZ)]. intros E. pose proof (rootc_zero C _ HC (zs_tk HZ) E) as Ez. inversion Ez. reflexivity.
Qed.

Lemma good_d5_nlog_img base c0 C s : good_d5 false base c0 C (dpr s) -> nlog_img C s.
Proof.
  intros [[Hi (top & Ht & _) _ _] [_ HN]]. split; [apply (HN eq_refl)|]. split; [exact Hi|exists top; exact Ht].
Qed.

Lemma snlog_nlog base c0 C r : chain_ok C -> snlog false base c0 C r -> nlog C r.
Proof. intros HC. destruct r; [apply sup_nlog_up, HC|apply good_d5_nlog_img]. Qed.

Lemma sinv_linv base c0 cfgs g C : sinv false base c0 cfgs g C -> linv cfgs g C.
Proof.
  intros H. apply linv_shell. pose proof (cb_chain (sh_chain H)) as HC. revert H.
  apply shell_weaken; [apply cb_chain|intros n _; apply snlog_nlog, HC|intros m _; apply proj1].
Qed.

Definition Linv (cfgs : list config) (g : lgstate) : Prop := exists C, linv cfgs g C.

Theorem linv_log_matching cfgs g : Linv cfgs g -> log_matching g /\ terms_monotone g.
Proof.
  intros [C H]. apply (branch_log_matching g C (li_chain cfgs g C H)).
  intros a Ha. destruct (li_nodes cfgs g C H a Ha) as [Hn _]. destruct (nlog_image C _ Hn) as (_ & Hi & Ht). auto.
Qed.

(* LOG MATCHING, no snapshots: elections under any set of configurations whose majorities pairwise
   intersect; any interleaving of timers, vote requests and responses, stray vote requests,
   restarts, TimeoutNow, proposals, AppendEntries built for any nextIndex and delivered late,
   repeatedly, reordered or never, with store failures and crash cuts everywhere *)
Theorem log_matching_no_snapshots : forall cfgs g0 ls g,
  quorums_intersect cfgs -> linit_ok g0 -> lrun false cfgs g0 ls = Some g ->
  log_matching g /\ terms_monotone g.
Proof.
  intros cfgs g0 ls g HQ H0 Hrun.
  destruct (linit_sinv_plain cfgs g0 H0) as (base & C & Hh & HC).
  apply (sinv_log_matching false base 0 cfgs g).
  apply (srun_inv false base 0 Hh (fun _ => eq_refl) cfgs HQ ls g0 g); [exists C; exact HC|exact Hrun].
Qed.

Print Assumptions log_matching_no_snapshots.
